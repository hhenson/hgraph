(* Props/C20.v — property C20: recording a time-series and replaying the recording reproduces
   the same ticks (same cycles, same per-tick deltas, same values) for scalar, signal, set,
   dictionary, list, bundle and window shapes at any nesting; equivalently, applying a captured
   delta to a copy of the pre-tick state yields the post-tick state, and capturing again from the
   copy yields the same delta.  Statements; the proofs are corollaries of DeltaFacts.v, short except
   that of [every_set_script_ticks_or_is_empty], which reads the tick off the set invariant.

   Vocabulary (coq/Delta.v mirrors the C++, coq/DeltaFacts.v holds the definitions used here):
     shape              TS | SIGNAL | TSW p m | TSS | TSD e | TSL n e | TSB fs, nested at will
     node               the state of a time-series endpoint during a cycle (values, validity,
                        modified marks, added/removed elements, per-slot dictionary bits)
     commit sh n        the same endpoint once the cycle is over
     capture sh n       capture_delta;   apply sh out d   apply_delta (with its has_effect gate)
     good sh s          [s] is a between-cycles state in which every dictionary key has a valid child
     tick sh s live     [live] is [s] after one cycle of mutations: its delta surface tells the
                        truth about the change, every ticking collection changed or became valid,
                        and no bundle has a never-ticked set/dict field beside a ticking one
     chain sh s n h     [h] is a history (cycle time, post-tick state) list, strictly increasing
                        times with arbitrary gaps, each state a [tick] of the committed previous one
   and, for the record / replay theorems, also from DeltaFacts.v (no lemma ties them to the loops
   of Delta.v that the driver runs):
     rec_hist, srec_hist   the dense buffer / the sparse (time, delta) list recorded from a history
                        (Delta.dense_of, Delta.sparse_of under another name);  entries_of  the list of
                        (time, captured delta) of a history
     replay_cursor      the outputs of the dense replay node, cursor by cursor (what Delta.run_replay
                        does to the output);  stream  what a consumer sees of them: a delta when it
                        ticks, a hole otherwise
     sreplay_run        the (time, output) pairs of the evaluations of the sparse replay node in which
                        the output ticks (what Delta.run_sreplay does to the output)
     last_state_from    the last state of a history at or before T;  run_set  a script of set calls *)
Require Import Base DeltaLib DeltaLibFacts Delta DeltaFacts.

(* Applying the captured delta to a copy of the pre-tick state yields the post-tick state:
   the same value once the cycle is over, the same validity, and it ticks. *)
Theorem apply_capture : forall sh pre live, wf_shape sh -> good sh pre -> tick sh pre live ->
  commit sh (apply sh pre (capture sh live)) = commit sh live /\
  nvalid (apply sh pre (capture sh live)) = nvalid live /\
  nmod (apply sh pre (capture sh live)) = nmod live.
Proof.
  intros sh pre live Hwf Hg Ht. destruct (recreates_all sh Hwf pre live Hg Ht) as (A & B & D & _ & E & _).
  rewrite (tick_nmod _ _ _ Ht). repeat split; congruence.
Qed.
Print Assumptions apply_capture.

(* Capturing again from the copy yields the same delta. *)
Theorem capture_apply : forall sh pre live, wf_shape sh -> good sh pre -> tick sh pre live ->
  capture sh (apply sh pre (capture sh live)) = capture sh live.
Proof. intros sh pre live Hwf Hg Ht. apply (recreates_all sh Hwf pre live Hg Ht). Qed.
Print Assumptions capture_apply.

(* The hypotheses propagate: after such a tick the committed state is again [good] (so the
   statement applies cycle after cycle), and the empty state is [good]. *)
Theorem good_after_tick : forall sh pre live, wf_shape sh -> good sh pre -> tick sh pre live -> good sh (commit sh live).
Proof. intros sh pre live Hwf Hg Ht. apply (recreates_all sh Hwf pre live Hg Ht). Qed.
Print Assumptions good_after_tick.

Theorem good_initially : forall sh, wf_shape sh -> good sh (fresh sh).
Proof. exact DeltaFacts.good_fresh. Qed.
Print Assumptions good_initially.

(* Every such tick is observable, so the record node writes it. *)
Theorem tick_is_recorded : forall sh, wf_shape sh -> forall pre live, good sh pre -> tick sh pre live ->
  observable sh live (capture sh live) = true.
Proof. intros sh Hwf pre live Hg Ht. apply (recreates_all sh Hwf pre live Hg Ht). Qed.
Print Assumptions tick_is_recorded.

(* Recording any tick history with gaps into the cycle-aligned buffer and replaying the buffer
   reproduces the tick stream exactly:
     - the replayed output ticks in exactly the recorded cycles, with exactly the recorded
       deltas ([stream] of the replayed outputs IS the buffer, holes included);
     - at each of its ticks the replayed output has the value the original had;
     - the buffer is cycle aligned: the tick of cycle t sits at index t - MIN_ST. *)
Theorem replay_record_id : forall sh h, wf_shape sh -> chain sh (fresh sh) 0 h ->
  let buf := rec_hist sh h [] in
  let outs := replay_cursor sh buf (length buf) 0 (fresh sh) in
  stream sh outs = buf /\
  map (commit sh) (filter nmod outs) = map (fun tl => commit sh (snd tl)) h /\
  Forall2 (fun tl o => nth_error buf (Z.to_nat (fst tl - MIN_ST)) = Some (Some (capture sh (snd tl)))) h (filter nmod outs).
Proof.
  intros sh h Hwf Hc. pose proof (good_fresh sh Hwf) as Hg.
  destruct (replay_record_gen sh Hwf h (fresh sh) (fresh sh) [] Hg (commit_good _ _ Hg) Hc) as (suf & S1 & S2 & S3 & S4).
  cbn [app] in S1, S4. cbn zeta. rewrite S1.
  pose proof (replay_cursor_list sh suf [] (fresh sh)) as Hrc. cbn [app length] in Hrc. rewrite Hrc.
  repeat split; assumption.
Qed.
Print Assumptions replay_record_id.

(* The same through the SPARSE absolute-time recording (one (time, delta) entry per tick; replay
   with an explicit recordable_id): replaying from any start time not later than the first tick
   re-creates every tick at its own absolute time, with the same delta and the same value.
   ([sreplay_run] follows the sparse branch of replay_impl::eval.) *)
Theorem sparse_replay_record_id : forall sh h rs, wf_shape sh -> chain sh (fresh sh) 0 h ->
  match h with (t, _) :: _ => rs <= t | [] => True end ->
  let ents := srec_hist sh h [] in
  let run := sreplay_run sh (S (length ents)) rs ents (fresh sh) in
  ents = entries_of sh h /\
  map fst run = map fst h /\
  map (fun to => capture sh (snd to)) run = map snd ents /\
  map (fun to => commit sh (snd to)) run = map (fun tl => commit sh (snd tl)) h.
Proof.
  intros sh h rs Hwf Hc Hrs. pose proof (good_fresh sh Hwf) as Hg. cbn zeta.
  rewrite (srec_hist_chain sh h _ _ [] Hc). cbn [app]. split; [reflexivity|].
  replace (map snd (entries_of sh h)) with (map (fun tl => capture sh (snd tl)) h) by (symmetry; apply map_map).
  replace (length (entries_of sh h)) with (length h) by (symmetry; apply map_length).
  exact (sparse_replay_gen sh Hwf h _ _ 0%nat rs Hg (commit_good _ _ Hg) Hc Hrs).
Qed.
Print Assumptions sparse_replay_record_id.

(* Erasing a key and re-creating it within one cycle is NETTED by the dictionary (intended: the
   pending-erase slot is resurrected with its child, docs time_series.rst "Slot lifetime"): the
   live state is the old dictionary - the same child with its contents - merely touched; the
   captured delta is empty and the committed value unchanged, so value and delta agree and the
   only thing a replay cannot re-create is that empty tick itself (finding B). *)
Theorem erase_recreate_in_one_cycle_nets : forall e m v items k c,
  good (TSD e) (NDict m v items) -> get k items = Some (clean_flags, c) ->
  let live := dict_at e k (dict_erase k (NDict m v items)) in
  capture (TSD e) live = DDict [] [] /\ commit (TSD e) live = NDict false true items.
Proof.
  intros e m v items k c (-> & Hs & HG) Hg.
  assert (Hgc : good e c) by apply (Forall_get _ _ _ _ HG Hg).
  cbn zeta. rewrite (erase_recreate_nets e false v items k c Hs Hg (good_nmod _ _ Hgc)).
  split; [|exact (commit_good (TSD e) (NDict false true items) (conj eq_refl (conj Hs HG)))].
  rewrite capture_tsd. unfold rm_keys, md_of, fm. clear - HG.
  induction HG as [|[j [f x]] r [Hf _] _ IH]; [reflexivity|]. cbn in Hf. subst f. exact IH.
Qed.
Print Assumptions erase_recreate_in_one_cycle_nets.

(* RECOVER: the seed as of any time T - the fold of the recorded deltas up to T, each applied at
   its own evaluation time (recorded_seed_resolver) - is the state the recorded time-series had
   at T: the value after its last tick at or before T, nothing if there is none.  (It rests on the
   round trip, tick after tick; it is what makes "start later from the recording" sound.) *)
Theorem recover_state : forall sh h T, wf_shape sh -> chain sh (fresh sh) 0 h ->
  commit sh (recover sh (srec_hist sh h []) T) = commit sh (last_state_from h T (fresh sh)).
Proof.
  intros sh h T Hwf Hc. pose proof (good_fresh sh Hwf) as Hg.
  rewrite (srec_hist_chain sh h _ _ [] Hc).
  apply (recover_gen sh Hwf h _ _ T _ _ eq_refl Hc). right. exact (conj Hg (commit_good _ _ Hg)).
Qed.
Print Assumptions recover_state.

(* Continuation: a second recording run that finds the first run's recording in the shared
   GlobalState appends to it; the recording is the concatenation of both runs' ticks. *)
Theorem continued_recording : forall sh h1 h2 len2, wf_shape sh ->
  chain sh (fresh sh) 0 h1 -> chain sh (fresh sh) len2 h2 ->
  srec_hist sh h2 (srec_hist sh h1 []) = entries_of sh h1 ++ entries_of sh h2.
Proof.
  intros sh h1 h2 len2 _ H1 H2. rewrite (srec_hist_chain sh h1 _ _ [] H1). apply (srec_hist_chain sh h2 _ _ _ H2).
Qed.
Print Assumptions continued_recording.

(* For sets the hypothesis [tick] is not an assumption on the history at all: EVERY non-empty
   sequence of add / remove / touch / clear calls on a good state is a [tick] — or it is exactly
   an empty tick on an already valid set (finding B below), which leaves the set as it was. *)
Theorem every_set_script_ticks_or_is_empty : forall pre ops, good TSS pre -> ops <> [] ->
  let live := run_set ops pre in
  tick TSS pre live \/ (exists el, pre = NSet false true el [] [] /\ live = NSet true true el [] []).
Proof.
  intros pre ops. destruct pre as [| |m0 v0 el0 ad0 rm0| |]; try contradiction.
  intros (-> & Hel0 & -> & ->) Hne. cbn zeta.
  destruct (set_inv_run el0 ops (NSet false v0 el0 [] [])) as [[Hn Hi] Hmk].
  { split; [repeat split; auto|]. intros k. cbn. rewrite andb_true_r, orb_false_r. repeat split; discriminate. }
  specialize (Hmk Hne). destruct (run_set ops _) as [| |m v el ad rm| |]; try contradiction.
  destruct Hmk as [Em Ev], Hn as (Hel & Had & Hrm). cbn in Em, Ev. subst m v.
  assert (Hcanon : el = fold_left (fun s k => ins k s) ad (fold_left (fun s k => del k s) rm el0)).
  { apply sorted_ext; [exact Hel|apply fold_ins_sorted, fold_del_sorted, Hel0|].
    intros k. rewrite fold_ins_mem, fold_del_mem by exact Hel0. destruct (Hi k) as (_ & _ & ->).
    destruct (mem k el0), (mem k rm), (mem k ad); reflexivity. }
  assert (Htick : ad <> [] \/ rm <> [] \/ v0 = false -> tick TSS (NSet false v0 el0 [] []) (NSet true true el ad rm)).
  { intros Heff. cbn [tick]. repeat split; auto; apply Forall_forall; intros k Hk; apply mem_In in Hk; apply (Hi k), Hk. }
  destruct ad; [destruct rm; [destruct v0|]|]; [right; exists el0; rewrite Hcanon; auto|left; apply Htick..].
  - auto.
  - right; left; discriminate.
  - left; discriminate.
Qed.
Print Assumptions every_set_script_ticks_or_is_empty.

(* Non-vacuity: concrete histories produced by the scripted mutations of the driver satisfy the
   hypotheses — nested dictionaries, removals, child-only ticks, remove and re-add of a key in one
   cycle, gaps, bundles, lists, windows, signals. *)
Example history_of_a_dict_of_sets : chain ex1_sh (fresh ex1_sh) 0 ex1_hist.
Proof. exact DeltaFacts.ex1_chain. Qed.
Example history_of_a_nested_bundle : wf_shape ex2_sh /\ chain ex2_sh (fresh ex2_sh) 0 ex2_hist.
Proof. exact (conj DeltaFacts.ex2_wf DeltaFacts.ex2_chain). Qed.
Example the_recorded_buffer_has_gaps :
  map (fun en => match en with Some _ => 1 | None => 0 end) (rec_hist ex1_sh ex1_hist []) = [1; 0; 1; 0; 0; 1].
Proof. vm_compute. reflexivity. Qed.

(* The side conditions of [tick] cannot be dropped: the unconditional statements are false of
   the faithful model, and of the implementation (each witness is replayed on the real code; see
   docs/notes-delta.md, findings A-C; D was a defect of the tree, now repaired). *)

(* A: a bundle {set, scalar} whose scalar field ticks while the set field never ticked:
   apply_delta validates the set field. *)
Theorem apply_capture_refuted_bundle_default : exists sh pre ops, good sh pre /\
  let live := run_ops sh ops pre in veq sh live (apply sh pre (capture sh live)) = false.
Proof. exists wA_shape, (fresh wA_shape), [mkOp [1] 1 5]. split; [apply good_fresh; cbn; auto|vm_compute; reflexivity]. Qed.
Print Assumptions apply_capture_refuted_bundle_default.

(* B: a tick with an empty delta on a valid set is observable (recorded) and not re-created. *)
Theorem same_cycles_refuted_empty_tick : exists sh pre ops, good sh pre /\
  let live := run_ops sh ops pre in
  nmod live = true /\ observable sh live (capture sh live) = true /\ nmod (apply sh pre (capture sh live)) = false.
Proof.
  exists TSS, (commit TSS (run_ops TSS [mkOp [] 3 1] (fresh TSS))), [mkOp [] 4 1; mkOp [] 3 1].
  split; [vm_compute; repeat split; exact I|]. vm_compute. repeat split.
Qed.
Print Assumptions same_cycles_refuted_empty_tick.

(* C: a dictionary key whose child never became valid is lost. *)
Theorem apply_capture_refuted_unset_child : exists sh pre ops, good sh pre /\
  let live := run_ops sh ops pre in veq sh live (apply sh pre (capture sh live)) = false.
Proof. exists (TSD TS), (fresh (TSD TS)), [mkOp [] 8 3]. split; [apply good_fresh; exact I|vm_compute; reflexivity]. Qed.
Print Assumptions apply_capture_refuted_unset_child.

(* D (repaired in the tree): under the insert_key rule BEFORE the repair — a resurrected slot was
   not marked modified again — child changed, key erased and re-inserted in one cycle lost the
   change.  Under the repaired rule ([dict_at], restore_modified_on_resurrection) the same history
   is an ordinary [tick]: see [reinserted_key_now_ticks]. *)
Theorem apply_capture_old_rule_refuted_reinserted_key : exists sh pre ops, good sh pre /\
  let live := run_ops_old sh ops pre in veq sh live (apply sh pre (capture sh live)) = false.
Proof. exact DeltaFacts.apply_capture_old_rule_refuted_reinserted_key. Qed.
Print Assumptions apply_capture_old_rule_refuted_reinserted_key.

Example reinserted_key_now_ticks : chain ex3_sh (fresh ex3_sh) 0 [(1, ex3_l1); (2, ex3_l2)].
Proof. exact DeltaFacts.ex3_chain. Qed.
