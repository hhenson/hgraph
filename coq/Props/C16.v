(* Props/C16.v — property C16: push queue: accepted values are delivered once, in
   order, within capacity.

   The model (coq/PushQ.v) is a labelled transition system whose atomic steps are the
   mutex-protected critical sections and condition-variable operations of
   push_source_node.cpp / executor.cpp / graph.cpp's push phase.  [reach pl c n ls] is the
   state after ANY list [ls] of steps (any interleaving of any number [n] of producers
   with the evaluation thread, starts, stops, stop requests, spurious wake-ups), policy
   [pl] (Queue, Burst, Confl), capacity [c] (0 = unbounded).
   Level: PARTIAL — atomicity of each critical section and the memory model are assumed.
   ONE push source: the LTS has a single queue and the engine-wide flag push_update_pending.  A root graph with
   several push sources shares that one flag among them (evaluate_impl resets it once per cycle and evaluates
   every push node of the prefix); that case is NOT covered by these theorems.  It rests on the correspondence
   check: the harness adds idle push sources to the observed one (sequential differential: the flag after each
   cycle; free running: the acceptor per source plus the oracle kinds stall / undelivered / lost_wakeup). *)
Require Import Base PushQ PushQInv PushQInv2 PushQFacts PushQBridge.
From Coq Require Import ZifyBool.

(* The values delivered to the graph are, in order, a prefix of the values whose send was accepted
   (acceptance order = order of the admission critical sections, the ghost log [accepted]);
   while the source is accepting, what is accepted is exactly what was delivered plus what is queued. *)
Theorem delivered_is_prefix_of_accepted : forall pl c n ls, let s := reach pl c n ls in
  (exists rest, accepted s = flatd (delivered s) ++ rest) /\
  (accepting s = true -> accepted s = flatd (delivered s) ++ vals s) /\
  (accepting s = false -> vals s = []).
Proof. intros pl c n ls. exact (inv_log _ (inv_reach pl c n ls)). Qed.
Print Assumptions delivered_is_prefix_of_accepted.

(* ... hence each producer's own order is preserved among the delivered values. *)
Theorem per_producer_order_preserved : forall pl c n ls, let s := reach pl c n ls in
  forall i j e1 e2, nth_error (flatd (delivered s)) i = Some e1 -> nth_error (flatd (delivered s)) j = Some e2 ->
    (i < j)%nat -> e_pid e1 = e_pid e2 -> (e_seq e1 < e_seq e2)%nat.
Proof. intros pl c n ls s. apply PPS_nth, inv_delivered_pps, inv_reach. Qed.
Print Assumptions per_producer_order_preserved.

(* The engine time of a cycle is the ghost field [now]; [LCBegin t] is enabled only for now < t: that the
   real-time loop advances strictly (advance_realtime's max(wall, last + MIN_TD)) is C17's theorem
   rt_cycle_times_strict (Props/C17.v, RTLoop.v), reused here as the step's guard, not re-proved; the
   acceptor checks it on every recorded run (clause ok_times, oracle kind delivery_time_not_increasing). *)
(* Each value is delivered exactly once, each delivery in its own engine cycle, cycle times strictly
   increasing; under the queue policy a cycle delivers one value, a burst / conflated batch is non-empty. *)
Theorem delivered_once_each_in_own_cycle : forall pl c n ls, let s := reach pl c n ls in
  NoDup (flatd (delivered s)) /\
  increasingZ (map fst (delivered s)) /\
  forall tb, In tb (delivered s) -> snd tb <> [] /\ fst tb <= now s /\ (pol s = Queue -> length (snd tb) = 1%nat).
Proof.
  intros pl c n ls s. split; [apply PPS_NoDup, inv_delivered_pps, inv_reach|].
  destruct (i_time (inv_reach pl c n ls)) as [T1 T2]. split; [exact T1|].
  intros tb Htb. destruct (T2 tb Htb) as (A & _ & B & C). auto.
Qed.
Print Assumptions delivered_once_each_in_own_cycle.

(* While the source accepts, the number of accepted but undelivered values never exceeds the configured
   capacity.  Once the policy's stop has closed the queue nothing is claimed here: the queue is then empty and
   what was dropped stays in the acceptance log.  The bound on the queue alone needs no such proviso
   (PushQFacts.reach_pending_le_cap). *)
Theorem pending_le_capacity : forall pl c n ls, let s := reach pl c n ls in
  cap s <> 0%nat ->
  (length (vals s) <= cap s)%nat /\ (length (accepted s) <= length (flatd (delivered s)) + cap s)%nat \/ accepting s = false.
Proof.
  intros pl c n ls s Hc. destruct (accepting s) eqn:A; [left|right; reflexivity].
  pose proof (reach_pending_le_cap pl c n ls Hc) as C. fold s in C. split; [exact C|].
  destruct (inv_log s (inv_reach pl c n ls)) as (_ & L & _). rewrite (L A), app_length. lia.
Qed.
Print Assumptions pending_le_capacity.

(* A non-blocking send is refused only when the queue is full or the source has stopped (stale or
   closing or detached sender, stop requested, or not accepting); a blocking send returns "refused"
   only when the source has stopped: whatever step decides "refused", one of these holds at that very step.
   [refusal_step] is the decision for result 0 only: a send_blocking from the evaluation thread that finds the
   queue full and accepting ends in [PLeave 2] (std::logic_error), a failure these two theorems do not speak of. *)
Theorem refused_only_if_full_or_stopped : forall s p s',
  step (LProd p) s = Some s' -> refusal_step p s s' ->
  stopped_for p s \/ (knd (get_prod p s) = KTry /\ full s = true).
Proof. exact PushQFacts.refusal_reason. Qed.
Print Assumptions refused_only_if_full_or_stopped.

Theorem blocking_fails_only_if_stopped : forall s p s',
  step (LProd p) s = Some s' -> refusal_step p s s' -> knd (get_prod p s) <> KTry -> stopped_for p s.
Proof.
  exact (fun s p s' H R K => match PushQFacts.refusal_reason s p s' H R with
                             | or_introl st => st
                             | or_intror (conj k _) => False_ind _ (K k)
                             end).
Qed.
Print Assumptions blocking_fails_only_if_stopped.

(* "full" means: exactly [cap] values are queued. *)
Theorem full_means_at_capacity : forall pl c n ls, let s := reach pl c n ls in
  full s = true -> cap s <> 0%nat /\ length (vals s) = cap s.
Proof.
  intros pl c n ls s Hf. apply full_true in Hf. destruct Hf as (_ & H1 & H2). split; [exact H1|].
  pose proof (reach_pending_le_cap pl c n ls H1). fold s in H. lia.
Qed.
Print Assumptions full_means_at_capacity.

(* Nothing is accepted after stop: from a state whose queue no longer accepts, no sequence of steps
   without a new start extends the acceptance log; and a call begun after begin_close is turned away. *)
Theorem nothing_accepted_after_stop : forall ls s,
  accepting s = false -> (forall l, In l ls -> l <> LCStart) ->
  accepted (run ls s) = accepted s /\ accepting (run ls s) = false.
Proof.
  intros ls s A Hl. exact (proj2 (run_log ls s Hl) A).
Qed.
Print Assumptions nothing_accepted_after_stop.

Theorem closed_sender_refuses : forall s p s',
  closing s = true -> pc (get_prod p s) = PEnter -> step (LProd p) s = Some s' ->
  pc (get_prod p s') = PIdle /\ lastr (get_prod p s') = 0 /\ accepted s' = accepted s.
Proof.
  intros s p s' Hc E H. cbn [step] in H. destruct (Nat.ltb_spec p (length (prods s))) as [Hp|]; [|discriminate].
  unfold prod_step in H. rewrite E, Hc in H. rewrite orb_true_r in H. cbn [orb] in H. inversion H; subst.
  rewrite get_prod_upd by exact Hp. cbn. auto.
Qed.
Print Assumptions closed_sender_refuses.

(* No lost wake-up: in every reachable state with a non-empty queue and no stop requested, the pending
   flag is set, or a producer stands right before mark_push_update_pending, or the evaluation thread is
   inside a cycle at a point from which it pops / re-arms before it can wait again. *)
Theorem no_lost_wakeup : forall pl c n ls, let s := reach pl c n ls in
  vals s <> [] -> stop_req s = false ->
  flag s = true \/ (exists p, (p < length (prods s))%nat /\ pc (get_prod p s) = PMark) \/ cons_rearming (cons s) = true.
Proof. intros pl c n ls. exact (inv_no_lost_wakeup _ (inv_reach pl c n ls)). Qed.
Print Assumptions no_lost_wakeup.

(* State before notify: whenever the evaluation thread is blocked in its wait although the flag (or the
   stop request) is set, a notify_all is on its way. *)
Theorem no_lost_notification : forall pl c n ls, let s := reach pl c n ls in
  cons s = CBlocked -> flag s = true \/ stop_req s = true ->
  (exists p, (p < length (prods s))%nat /\ pc (get_prod p s) = PNotify) \/ (stop_notifies s > 0)%nat.
Proof. intros pl c n ls. exact (inv_no_lost_notification _ (inv_reach pl c n ls)). Qed.
Print Assumptions no_lost_notification.

(* A property of states (no trace, no fairness assumption is stated): blocked + work pending + running =>
   some producer's next step sets the flag or notifies, or the notify_all of a stop request is still to come. *)
Theorem consumer_never_waits_forever_on_work : forall pl c n ls, let s := reach pl c n ls in
  cons s = CBlocked -> vals s <> [] -> stop_req s = false ->
  (exists p, (p < length (prods s))%nat /\ (pc (get_prod p s) = PMark \/ pc (get_prod p s) = PNotify)) \/ (stop_notifies s > 0)%nat.
Proof.
  intros pl c n ls s Hc Hv Hs. pose proof (inv_reach pl c n ls) as I.
  destruct (inv_no_lost_wakeup s I Hv Hs) as [H|[[p [Hp E]]|H]].
  - destruct (inv_no_lost_notification s I Hc (or_introl H)) as [[p [Hp E]]|H2]; [left; exists p; auto|right; exact H2].
  - left. exists p. auto.
  - rewrite Hc in H. discriminate.
Qed.
Print Assumptions consumer_never_waits_forever_on_work.

Theorem pending_work_at_quiescence_has_flag : forall pl c n ls, let s := reach pl c n ls in
  (forall p, (p < length (prods s))%nat -> pc (get_prod p s) <> PMark) ->
  cons s = CIdle \/ cons s = CBlocked ->
  vals s <> [] -> stop_req s = false -> flag s = true.
Proof.
  intros pl c n ls s Hq Hc Hv Hs.
  destruct (inv_no_lost_wakeup s (inv_reach pl c n ls) Hv Hs) as [H|[[p [Hp E]]|H]]; [exact H| |].
  - exfalso. exact (Hq p Hp E).
  - destruct Hc as [Hc|Hc]; rewrite Hc in H; discriminate.
Qed.
Print Assumptions pending_work_at_quiescence_has_flag.

(* Bounded progress under the queue policy, the evaluation thread running alone ([drain]: no producer step in
   between): the k queued values are delivered by the next k cycles, one per cycle in queue order.  That the
   re-arm keeps the flag set in between, so that the thread never waits, is used by the proof
   (PushQFacts.cycle_queue) and is not part of the conclusion. *)
Theorem every_accepted_delivered_within_queue_length : forall vs s,
  pol s = Queue -> vals s = vs -> cons s = CIdle -> stop_req s = false -> (vs <> [] -> flag s = true) ->
  let s' := drain (length vs) s in
  vals s' = [] /\ cons s' = CIdle /\ accepted s' = accepted s /\
  map snd (delivered s') = map snd (delivered s) ++ map (fun v => [v]) vs.
Proof.
  intros vs. induction vs as [|v r IH]; intros s Hp Hv Hc Hs Hf; cbv zeta.
  - rewrite app_nil_r. auto.
  - change (length (v :: r)) with (S (length r)). rewrite drain_S.
    destruct (cycle_queue s v r Hp Hv Hc Hs (Hf ltac:(discriminate))) as (C1 & C2 & C3 & C4 & C5 & C6 & C7).
    destruct (IH (cycle s) C1 C2 C3 C4) as (D1 & D2 & D3 & D4).
    { intros Hr. rewrite C5. destruct r; [congruence|reflexivity]. }
    split; [exact D1|]. split; [exact D2|]. split; [congruence|].
    rewrite D4, C6, map_app. simpl. rewrite <- app_assoc. reflexivity.
Qed.
Print Assumptions every_accepted_delivered_within_queue_length.

(* A blocked sender never sleeps next to a free slot, nor past a stop, without a notify on its way: again a
   property of states (clauses [c_cvs], [c_cva] of the invariant), not of traces. *)
Theorem blocked_sender_never_waits_forever : forall pl c n ls, let s := reach pl c n ls in
  (exists p, (p < length (prods s))%nat /\ pc (get_prod p s) = PWaiting) ->
  (accepting s = false -> cons s = CStopB) /\
  (accepting s = true -> cap s <> 0%nat /\
     ((pol s = Burst /\ is_popped (cons s) = true) \/
      (cap s <= length (vals s) + cnt is_woken (prods s) + b2n (is_popped (cons s)))%nat)).
Proof.
  intros pl c n ls s [p [Hp E]]. pose proof (inv_reach pl c n ls) as I. fold s in I.
  assert (Hw : (cnt is_waiting (prods s) > 0)%nat).
  { apply (cnt_ex_pos is_waiting (prods s) idle_prod p Hp). unfold get_prod in E. rewrite E. reflexivity. }
  split; [apply (c_cvs (i_counts I) Hw)|apply (c_cva (i_counts I) Hw)].
Qed.
Print Assumptions blocked_sender_never_waits_forever.

(* The sender control block outlives the node: no call is ever inside a detached control. *)
Theorem no_call_inside_detached_control : forall pl c n ls, let s := reach pl c n ls in
  forall p, (p < length (prods s))%nat -> inside (pc (get_prod p s)) = true -> attached s = true.
Proof.
  intros pl c n ls s p Hp Hin. pose proof (inv_reach pl c n ls) as I. fold s in I.
  destruct (attached s) eqn:A; [reflexivity|exfalso].
  pose proof (c_det (i_counts I) A) as D. rewrite (c_act (i_counts I)) in D.
  pose proof (cnt_ex_pos inside (prods s) idle_prod p Hp Hin). lia.
Qed.
Print Assumptions no_call_inside_detached_control.

(* The executable acceptor used on free-running executions decides the declarative statement of the
   property on recorded histories. *)
Theorem acceptor_decides_history_ok : forall h, pushq_history_ok h = true <-> HistoryOK h.
Proof.
  intros h. unfold pushq_history_ok. rewrite !andb_true_iff.
  rewrite chk_wf_ok, chk_once_ok, chk_fifo_ok, chk_times_ok, chk_cap_ok, chk_refuse_ok, chk_after_stop_ok, chk_all_ok, chk_latest_ok, chk_batch_ok.
  split.
  - intros (((((((((H1 & H2) & H3) & H4) & H5) & H6) & H7) & H8) & H9) & H10). constructor; assumption.
  - intros [H1 H2 H3 H4 H5 HB H6 H7 H8 H9]. exact (conj (conj (conj (conj (conj (conj (conj (conj (conj H1 H2) H3) H4) H5) H6) H7) H8) H9) HB).
Qed.
Print Assumptions acceptor_decides_history_ok.

(* A call on its "accepted" return path has its entry in the acceptance log ... *)
Theorem returned_accepted_is_logged : forall pl c n ls, let s := reach pl c n ls in
  forall p, (p < length (prods s))%nat -> admitted (pc (get_prod p s)) = true -> In (cur (get_prod p s)) (accepted s).
Proof. exact PushQBridge.returned_accepted_is_logged. Qed.
Print Assumptions returned_accepted_is_logged.

(* ... and whatever is in the log when a send call begins stays ahead of that call's own entry: real-time
   order of calls (x returned before y began) is contained in the acceptance order.
   PARTIAL bridge.  Not proved, and not stated: that a run of the LTS, recorded with step indices as tickets
   (send begin / return, cycle begin, delivery), yields a history h with HistoryOK h; no history is built from
   a run anywhere.  What is proved are facts about the ghost logs from which clauses would follow: for ok_fifo this inequality of positions with returned_accepted_is_logged
   and delivered_is_prefix_of_accepted; for ok_once / ok_times delivered_once_each_in_own_cycle.  Nothing is
   proved towards the counting clauses (ok_cap, ok_batch, ok_refuse against tickets). *)
Theorem real_time_order_in_acceptance_order_partial : forall pl c n ls1 q v k ls2,
  let s1 := reach pl c n ls1 in
  pc (get_prod q s1) = PIdle -> (q < length (prods s1))%nat ->
  (forall l, In l ls2 -> l <> LCStart) ->
  let s2 := run ls2 (do_step s1 (LBegin q v k)) in
  let y := mkEntry q (nsent (get_prod q s1)) v in
  forall i j e, In e (accepted s1) -> nth_error (accepted s2) i = Some e -> nth_error (accepted s2) j = Some y -> (i < j)%nat.
Proof. intros pl c n ls1 q v k ls2 s1 Hi _. exact (accepted_before_begin_is_ahead s1 q v k ls2 (inv_reach pl c n ls1) Hi). Qed.
Print Assumptions real_time_order_in_acceptance_order_partial.

(* Non-vacuity.  Two producers, capacity 1: p0's value is accepted, p1's try_send is refused (full), a cycle delivers,
   p1 sends again and is accepted: a reachable state with a delivery, a queued value and the flag set *)
Definition ex_labels : list label :=
  [LCStart; LBind 0 1; LBind 1 1;
   LBegin 0 10 KTry; LProd 0; LProd 0; LProd 0;          (* enter, stop check, admission: accepted, wake required *)
   LBegin 1 20 KTry; LProd 1; LProd 1; LProd 1; LProd 1;  (* refused: full *)
   LProd 0; LProd 0; LProd 0;                             (* mark, notify, leave *)
   LCBegin 5; LCons 0; LCons 0; LCons 0;                  (* reset, pop, notify capacity, (no) re-arm *)
   LBegin 1 21 KTry; LProd 1; LProd 1; LProd 1; LProd 1; LProd 1; LProd 1].
Example c16_reachable_nontrivial :
  let s := reach Queue 1 2 ex_labels in
  map e_val (flatd (delivered s)) = [10] /\ map e_val (vals s) = [21] /\ flag s = true /\
  lastr (get_prod 1 s) = 1 /\ map fst (delivered s) = [5] /\ cons s = CIdle.
Proof. vm_compute. repeat split; reflexivity. Qed.

(* the refusal premise is met: a step that decides "refused" on a full queue *)
Example c16_refusal_step_exists :
  let s := reach Queue 1 2 (firstn 10 ex_labels) in
  exists s', step (LProd 1) s = Some s' /\ refusal_step 1 s s' /\ full s = true.
Proof. eexists. split; [vm_compute; reflexivity|]. split; [right; split; [vm_compute; discriminate|vm_compute; reflexivity]|vm_compute; reflexivity]. Qed.

(* a blocked sender, woken by the pop's notify_one: premises of the waiting theorems are reachable *)
Example c16_blocked_sender_reachable :
  let s := reach Queue 1 2 ([LCStart; LBind 0 1; LBind 1 1; LBegin 0 10 KTry; LProd 0; LProd 0; LProd 0;
                             LBegin 1 20 KBlock; LProd 1; LProd 1; LProd 1]) in
  pc (get_prod 1 s) = PWaiting /\ accepting s = true /\ pc (get_prod 0 s) = PMark /\ flag s = false /\ vals s <> [].
Proof. vm_compute. repeat split; try reflexivity. discriminate. Qed.

(* the bridge's premises are met: p0's value is in the log when p1 begins its second call, whose entry
   (1, 1, 21) lands behind it *)
Example c16_bridge_premises :
  let s1 := reach Queue 1 2 (firstn 19 ex_labels) in
  pc (get_prod 1 s1) = PIdle /\ map e_val (accepted s1) = [10] /\
  map e_val (accepted (run (skipn 20 ex_labels) (do_step s1 (LBegin 1 21 KTry)))) = [10; 21].
Proof. vm_compute. repeat split; reflexivity. Qed.

(* a recorded history accepted by the acceptor *)
Example c16_history_accepted :
  pushq_history_ok (mkHist Queue 1 20 21 22 false false true
     [mkSend 0 0 100 false 1 1 2; mkSend 1 0 200 false 0 3 4; mkSend 1 1 201 true 1 5 9]
     [mkDeliv 10 6 7 [100]; mkDeliv 11 10 11 [201]] [(8, 1)]) = true.
Proof. vm_compute. reflexivity. Qed.
