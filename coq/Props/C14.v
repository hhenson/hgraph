(* Props/C14.v — property C14: every started node is stopped exactly once, in reverse order,
   whatever fails.  The proofs only put together lemmas of LifecycleFacts.v.

   Setting (coq/Lifecycle.v): a tree of graphs ([world] = the root graph; a node is plain or owns a
   child graph), an ARBITRARY fault plan [pl : path -> phase -> occurrence -> bool] for the start /
   evaluate / stop hooks of every plain node, an arbitrary [sp] of request_stop calls, any
   configuration (start, end, cleanup_on_error, fuel = bound on the number of cycles).
   [life pl sp cfg w] = (log up to the return of run, what run threw, the state then, the log of the
   release of the executor, the final state); [full_log] = both logs.  [fresh_world w]: no started
   flag set (a newly built executor).
   For a graph path gp, [graph_word gp L] is the projection of the log L on that graph: its own
   notifications (SG k) and those of its nodes (SN k i, i = index in the graph).
   [starts_of gp L] = indices of the nodes of gp whose start completed ("after start node"), in log
   order; [stops_of gp L] = indices for which a stop was attempted ("before stop node").
   [idxs k W] = indices of the nodes for which the notification k occurs in the word W, in order;
   [gcnt k W] = how often the graph-level notification k occurs in W.  [no_leak L]: no graph ends L in
   the leaked state.
   [fired pl L] = the hook events of L at which the plan throws; [reported pl L fl]: fl is what the
   first of them threw, annotated with the index of the root node it lies under and its phase. *)
Require Import Base Lifecycle LifecycleFacts.
From Coq Require Import ZifyBool.
Local Open Scope nat_scope.

(* Nodes start in evaluation order and stop in the reverse order: in every graph of the tree the
   completed starts are 0,1,..,m-1 in this order and the stop attempts are m-1, m-2, .., c. *)
Theorem start_in_order_stop_in_reverse : forall pl sp cfg w, fresh_world w -> forall gp,
  exists m c, c <= m /\ starts_of gp (full_log pl sp cfg w) = seq 0 m /\
              stops_of gp (full_log pl sp cfg w) = rev (seq c (m - c)).
Proof. intros pl sp cfg w Hf gp. apply word_order. apply (full_log_wf pl sp cfg w Hf). Qed.
Print Assumptions start_in_order_stop_in_reverse.

(* Every node - of the root graph or of any nested child - whose start completed is stopped
   exactly once: the stop attempts are exactly m-1..0, each once, PROVIDED no graph leaked, i.e.
   no start rollback was cut short by a failing stop (see [stopped_exactly_once_refuted]). *)
Theorem stopped_exactly_once : forall pl sp cfg w, fresh_world w -> no_leak (full_log pl sp cfg w) ->
  forall gp, exists m, starts_of gp (full_log pl sp cfg w) = seq 0 m /\
                       stops_of gp (full_log pl sp cfg w) = rev (seq 0 m).
Proof. intros pl sp cfg w Hf Hn gp. apply word_closed. apply (full_log_closed pl sp cfg w Hf Hn). Qed.
Print Assumptions stopped_exactly_once.

(* ... in particular whenever the plan has no stop fault (any start and evaluate faults, in any
   node, phase and cycle) or has no start fault (any evaluate and stop faults, e.g. an evaluate
   fault followed by stop faults). *)
Theorem stopped_exactly_once_static : forall pl sp cfg w, fresh_world w ->
  no_stop_faults pl \/ no_start_faults pl ->
  forall gp, exists m, starts_of gp (full_log pl sp cfg w) = seq 0 m /\
                       stops_of gp (full_log pl sp cfg w) = rev (seq 0 m).
Proof. intros pl sp cfg w Hf Hs. apply stopped_exactly_once; auto. intro gl. apply never_leaks; auto. Qed.
Print Assumptions stopped_exactly_once_static.

Theorem never_leaks_static : forall pl sp cfg w, no_stop_faults pl \/ no_start_faults pl ->
  no_leak (full_log pl sp cfg w).
Proof. exact never_leaks. Qed.
Print Assumptions never_leaks_static.

(* ... and no later than the return of run - or, when clean-up on error is off and an evaluation
   error escaped, the release of the executor: otherwise nothing is left for the release to do. *)
Theorem stopped_by_return_of_run : forall pl sp cfg w ev1 f w1 ev2 w2,
  fresh_world w -> life pl sp cfg w = (ev1, f, w1, ev2, w2) -> no_leak (ev1 ++ ev2) ->
  c_cleanup cfg = true \/ (forall fl i, f = Some fl -> f_note fl <> Some (i, PEval)) ->
  ev2 = [] /\ forall gp, exists m, starts_of gp ev1 = seq 0 m /\ stops_of gp ev1 = rev (seq 0 m).
Proof.
  intros pl sp cfg w ev1 f w1 ev2 w2 Hf Hl Hn Hc.
  destruct (life_facts _ _ _ _ _ _ _ _ _ Hf Hl) as (_ & B & _ & T).
  destruct (T Hc (no_leak_prefix A0 ev1 ev2 B Hn)) as [-> Hfin]. split; auto. intro gp. apply word_closed. apply Hfin.
Qed.
Print Assumptions stopped_by_return_of_run.

(* The full statement (without [no_leak]) is FALSE of the faithful model, and of the
   implementation: three plain nodes, the start of node 2 throws, and during the rollback the stop
   of node 1 throws: node 0 started and is never stopped, not even at the release. *)
Definition leak_plan : plan := fun p ph k =>
  match p, ph, k with [2], PStart, 0 => true | [1], PStop, 0 => true | _, _, _ => false end.
Definition three_nodes : world := W false 0 [Plain 1 false 0 0 0 0; Plain 1 false 0 0 0 0; Plain 1 false 0 0 0 0].

Theorem stopped_exactly_once_refuted :
  exists pl sp cfg w, fresh_world w /\
    starts_of [] (full_log pl sp cfg w) = [0; 1] /\ stops_of [] (full_log pl sp cfg w) = [1].
Proof.
  exists leak_plan, (fun _ _ => false), (Cfg 1 4 true 5), three_nodes.
  split; [split; reflexivity|]. vm_compute. split; reflexivity.
Qed.
Print Assumptions stopped_exactly_once_refuted.

(* A failed start stops exactly the nodes already started: when the start of node k of a graph
   fails, nodes 0..k-1 had started, nothing had been stopped, nothing starts afterwards, and the
   rollback stops k-1, k-2, .. in this order - all of them (c = 0) unless a graph leaked. *)
Theorem failed_start_rolls_back_prefix : forall pl sp cfg w, fresh_world w -> forall gp w1 k w2,
  graph_word gp (full_log pl sp cfg w) = w1 ++ SN SNF k :: w2 ->
  idxs ASN w1 = seq 0 k /\ idxs BPN w1 = [] /\ idxs ASN w2 = [] /\
  exists c, c <= k /\ idxs BPN w2 = rev (seq c (k - c)) /\ (no_leak (full_log pl sp cfg w) -> c = 0).
Proof.
  intros pl sp cfg w Hf gp w1 k w2 E. pose proof (proj2 (full_log_wf pl sp cfg w Hf) gp) as B.
  rewrite Aof_eq, E in B. destruct (word_failed_start _ _ _ B) as (H1 & H2 & H3 & c & H4 & H5 & H6).
  repeat split; auto. exists c. repeat split; auto. intro Hn. apply H6. rewrite <- E, <- Aof_eq.
  apply (full_log_closed pl sp cfg w Hf Hn).
Qed.
Print Assumptions failed_start_rolls_back_prefix.

(* A failing stop does not prevent the remaining nodes from stopping: a stop pass of a graph
   ("before stop graph" .. "after stop graph") attempts the stop of every started node, m-1..0,
   however many of them fail. *)
Theorem failing_stop_does_not_block : forall pl sp cfg w, fresh_world w -> forall gp w1 w2,
  graph_word gp (full_log pl sp cfg w) = w1 ++ SG BPG :: w2 ->
  exists m, idxs ASN w1 = seq 0 m /\ idxs BPN w1 = [] /\
            (In (SG APG) w2 \/ no_leak (full_log pl sp cfg w) -> idxs BPN w2 = rev (seq 0 m)).
Proof.
  intros pl sp cfg w Hf gp w1 w2 E. pose proof (proj2 (full_log_wf pl sp cfg w Hf) gp) as B.
  rewrite Aof_eq, E in B. destruct (word_stop_pass _ _ B) as (m & H1 & H2 & H3).
  exists m. repeat split; auto. intros [Hin|Hn]; auto. apply H3. right.
  rewrite <- E, <- Aof_eq. apply (full_log_closed pl sp cfg w Hf Hn).
Qed.
Print Assumptions failing_stop_does_not_block.

(* No node is evaluated before its start or after its stop: whenever the evaluation bracket of
   node i opens (BEN) or its user code runs (HE), the node's start has completed and no stop of it
   has been attempted. *)
Theorem no_eval_outside_lifetime : forall pl sp cfg w, fresh_world w -> forall gp w1 k i w2,
  k = BEN \/ k = HE ->
  graph_word gp (full_log pl sp cfg w) = w1 ++ SN k i :: w2 ->
  In i (idxs ASN w1) /\ ~ In i (idxs BPN w1).
Proof.
  intros pl sp cfg w Hf gp w1 k i w2 Hk E. pose proof (proj2 (full_log_wf pl sp cfg w Hf) gp) as B.
  rewrite Aof_eq, E in B. eapply word_eval_in_lifetime; eauto.
Qed.
Print Assumptions no_eval_outside_lifetime.

(* The original error reaches the caller naming the failing node: what run throws is the FIRST
   fault that fired (later ones - in the rollback, in the clean-up stop - are swallowed), with the
   index j of the root node it lies under and the phase it was thrown in; run returns normally iff
   no fault fired. *)
Theorem first_error_reported_with_node : forall pl sp cfg w w1 ev f,
  fresh_world w -> (c_start cfg < c_end cfg)%Z -> run pl sp cfg w = (w1, ev, f) ->
  match f with None => fired pl ev = [] | Some fl => reported pl ev fl end.
Proof. intros pl sp cfg w w1 ev f Hf Ht Hrun. apply (run_spec _ _ _ _ _ _ _ Hf Hrun); exact Ht. Qed.
Print Assumptions first_error_reported_with_node.

(* Every "before" notification has its "after" or "failed" (per graph and per node, in order). *)
Theorem observer_events_balanced : forall pl sp cfg w, fresh_world w -> no_leak (full_log pl sp cfg w) ->
  forall gp, let W := graph_word gp (full_log pl sp cfg w) in
  idxs BSN W = idxs ASN W ++ idxs SNF W /\ idxs BEN W = idxs AEN W /\ idxs BPN W = idxs APN W /\
  gcnt BSG W = gcnt ASG W + gcnt SGF W /\ gcnt BGE W = gcnt AGE W /\ gcnt BPG W = gcnt APG W.
Proof.
  intros pl sp cfg w Hf Hn gp. apply word_balanced. pose proof (full_log_closed pl sp cfg w Hf Hn gp) as H.
  rewrite Aof_eq in H. destruct (arun AFresh _); simpl in *; auto; discriminate.
Qed.
Print Assumptions observer_events_balanced.

(* The executable acceptor used on IMPLEMENTATION logs: it accepts exactly the logs in which every
   event is addressed to a graph, the word of every graph is a (prefix of a) lifecycle [LogWf] and
   has come to rest [LogClosed]; and the model's own log is always well formed, and accepted
   unless a graph leaked. *)
Theorem lifecycle_ok_accepts : forall L, lifecycle_ok L = true <-> LogWf L /\ LogClosed L.
Proof. exact lifecycle_ok_iff. Qed.
Print Assumptions lifecycle_ok_accepts.

Theorem model_log_accepted : forall pl sp cfg w, fresh_world w ->
  log_wf (full_log pl sp cfg w) = true /\
  (no_leak (full_log pl sp cfg w) -> lifecycle_ok (full_log pl sp cfg w) = true).
Proof.
  intros pl sp cfg w Hf. split.
  - apply log_wf_iff. apply full_log_wf; auto.
  - intro Hn. apply lifecycle_ok_iff. split; [apply full_log_wf|apply full_log_closed]; auto.
Qed.
Print Assumptions model_log_accepted.

(* What acceptance gives for ANY log (in particular an implementation's): order, exactly once. *)
Theorem accepted_log_is_ordered : forall L, log_wf L = true -> forall gp,
  exists m c, c <= m /\ starts_of gp L = seq 0 m /\ stops_of gp L = rev (seq c (m - c)).
Proof. intros L H gp. apply word_order. apply log_wf_iff in H. apply H. Qed.
Print Assumptions accepted_log_is_ordered.

Theorem accepted_log_stops_exactly_once : forall L, lifecycle_ok L = true -> forall gp,
  exists m, starts_of gp L = seq 0 m /\ stops_of gp L = rev (seq 0 m).
Proof. intros L H gp. apply word_closed. apply lifecycle_ok_iff in H. apply H. Qed.
Print Assumptions accepted_log_stops_exactly_once.

(* Non-vacuity: the hypotheses are met by concrete, non-trivial runs.
   A nested tree, an evaluate fault in the grandchild followed by a stop fault in the child:
   nothing leaks, run reports the evaluate fault, everything is stopped by the return of run *)
Definition nested_world : world :=
  W false 0 [Plain 1 false 0 0 0 0;
             Nest false false 0 [Plain 1 false 0 0 0 0; Nest false false 0 [Plain 2 false 0 0 0 0]]].
Definition eval_then_stop : plan := fun p ph k =>
  match p, ph, k with [1; 1; 0], PEval, 1 => true | [1; 0], PStop, 0 => true | _, _, _ => false end.

Example c14_nontrivial_run :
  fresh_world nested_world /\ no_start_faults eval_then_stop /\
  let L := full_log eval_then_stop (fun _ _ => false) (Cfg 1 5 true 6) nested_world in
  lifecycle_ok L = true /\ length L = 92 /\
  starts_of [1] L = [0; 1] /\ stops_of [1] L = [1; 0] /\ idxs PNF (graph_word [1] L) = [0] /\
  (exists fl, snd (run eval_then_stop (fun _ _ => false) (Cfg 1 5 true 6) nested_world) = Some fl /\
              f_exn fl = XFault [1; 1; 0] PEval 1 /\ f_note fl = Some (1, PEval)).
Proof.
  split; [split; reflexivity|]. split.
  - intros p k. unfold eval_then_stop. destruct p as [|a [|b [|c [|d q]]]]; auto;
      destruct a as [|[|a]]; auto; destruct b as [|[|b]]; auto; destruct c; auto.
  - vm_compute. do 5 (split; [reflexivity|]). eexists. split; [reflexivity|]. split; reflexivity.
Qed.

(* with clean-up off the same evaluate fault leaves the graph started until the release *)
Example c14_cleanup_off_stops_at_release :
  let '(ev1, f, w1, ev2, w2) := life eval_then_stop (fun _ _ => false) (Cfg 1 5 false 6) nested_world in
  w_gs w1 = true /\ stops_of [] ev1 = [] /\ stops_of [] (ev1 ++ ev2) = [1; 0] /\ lifecycle_ok (ev1 ++ ev2) = true.
Proof. vm_compute. repeat split; reflexivity. Qed.

(* the decomposition hypotheses of the rollback / stop-pass / lifetime theorems are satisfiable *)
Example c14_rollback_word :
  graph_word [] (full_log leak_plan (fun _ _ => false) (Cfg 1 4 true 5) three_nodes) =
  [SG BSG; SN BSN 0; SN HS 0; SN ASN 0; SN BSN 1; SN HS 1; SN ASN 1; SN BSN 2; SN HS 2] ++
  SN SNF 2 :: [SN BPN 1; SN HP 1; SN PNF 1; SN APN 1; SG SGF].
Proof. vm_compute. reflexivity. Qed.
