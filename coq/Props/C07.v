(* Props/C07.v — property C07: simulation runs are reproducible and isolated from each other.

   "Running the same graph on the same inputs in simulation always produces the same outputs,
    cycle for cycle, regardless of wall-clock speed, of how often the builder has been reused,
    of which other graphs were built or run earlier in the process, and of other executors
    running at the same time on other threads.  State written by one run (node state, global
    state, recorded buffers, dynamic children) is never visible to another run."

   Models: coq/Engine.v (the engine: mirror of graph.cpp / node.cpp / executor.cpp) and coq/Repro.v (the
   simulation clock, the run's GlobalState and node State, the process: builders, executors, heap, intern table).

   WHAT IS PROVED (the protocol / ownership discipline, for every history):
     - the evaluation is a function of (program, inputs, start, end): the wall clock is read once
       per cycle and never fed back                                   [run_deterministic];
     - in a process in which builders are created and their seeds written, executors are made from
       them, cycles of the executors are run in ANY interleaving (= executors running on different
       threads, at the granularity of one engine cycle) and further types are interned, every
       executor is at all times in the state that its own cycles produce from its own recipe and
       the seed as it was when the executor was made - the state of the same recipe run alone in
       a fresh process                                                [runs_independent,
                                                                       later_history_only_own_steps,
                                                                       engine_runs_independent];
     - a builder's seed is never written by any run                   [seed_untouched_by_runs];
     - after a run its GlobalState holds no key but seed keys and keys that operations of its own
       program write; a seed key, or a key written by a node whose user code ran, is there unless
       the program has an erase operation on that key                 [global_state_isolated];
     - a key that a node whose user code ran erases, and that the program never writes, is gone,
       also after a run seeded with this run's final state whose program does not write it
                                                                      [erased_key_gone];
     - interning more types never changes what an already interned id resolves to, nor the id
       an already interned key is found under                         [registry_growth_unobservable,
                                                                       built_types_still_resolve].
   WHAT IS ASSUMED, NOT PROVED (stated in gen/props.d/C07.json, checked only by the
   correspondence test of cxx/repro_driver.cpp and, as supporting evidence, ThreadSanitizer):
     - the C++ really has no mutable state shared between runs other than what the model's heap
       describes (that [step] of executor k touches only its own cell is the TYPE of [step] here;
       in C++ it is a discipline);
     - no data races: executors on different threads interleave in the model only at whole cycles,
       and a Gallina function cannot exhibit a torn read;
     - user code is a function of what a node can observe ([behaviour]); a node that reads the
       wall clock (evaluation_clock.now()) is outside the property. *)
Require Import Base Sched Engine Repro ReproFacts.

(* [x_g]: the engine state (trace, outputs, schedulers); [run_sim]: the clock-free engine model *)
Theorem run_deterministic : forall wall1 wall2 cfgs beh start end_ fuel,
  x_g (xrun wall1 cfgs beh start end_ fuel) = x_g (xrun wall2 cfgs beh start end_ fuel) /\
  x_g (xrun wall1 cfgs beh start end_ fuel) = run_sim cfgs beh start end_ fuel.
Proof. intros. unfold xrun, run_sim. rewrite !xrun_loop_g. split; reflexivity. Qed.
Print Assumptions run_deterministic.

(* For EVERY run semantics ([rstate]: what a run owns; [init]: how it is initialised from recipe + seed copy;
   [step]: what one cycle does to it) and EVERY history of the process. *)
Theorem runs_independent : forall (rstate : Type) (init : wire -> gsmap -> rstate) (step : wire -> rstate -> rstate)
    (types_of : wire -> list Z) (ops : list pop) (k : nat) (e : exec) (sets : list (Z * Z)),
  nth_error (p_execs rstate (prun rstate init step types_of ops)) k = Some e ->
  apply_sets sets [] = e_seed0 e ->
  exec_state rstate (prun rstate init step types_of ops) k =
  exec_state rstate (prun rstate init step types_of (alone_ops (e_recipe e) sets (e_steps e))) 0.
Proof.
  intros rstate init step types_of ops k e sets He Hs. rewrite alone_state, Hs.
  exact (exec_state_own _ _ _ _ _ k e (inv_prun _ _ _ types_of ops) He).
Qed.
Print Assumptions runs_independent.

(* The ghost fields [e_seed0] and [e_steps] used above mean what they say. *)
Theorem later_history_only_own_steps : forall (rstate : Type) init step types_of (ops ops' : list pop) k e,
  nth_error (p_execs rstate (prun rstate init step types_of ops)) k = Some e ->
  exists e', nth_error (p_execs rstate (prun rstate init step types_of (ops ++ ops'))) k = Some e' /\
             e_recipe e' = e_recipe e /\ e_seed0 e' = e_seed0 e /\ e_loc e' = e_loc e /\ e_types e' = e_types e /\
             e_steps e' = (e_steps e + count_steps k ops')%nat.
Proof. exact ReproFacts.later_history_only_own_steps. Qed.
Print Assumptions later_history_only_own_steps.

(* The next executor made from the builder starts from the same seed, however many runs came before. *)
Theorem seed_untouched_by_runs : forall (rstate : Type) init step types_of (ops ops' : list pop) b m,
  forallb (fun o => negb (is_seed_write o)) ops' = true ->
  builder_seed rstate (prun rstate init step types_of ops) b = Some m ->
  builder_seed rstate (prun rstate init step types_of (ops ++ ops')) b = Some m.
Proof.
  intros rstate init step types_of ops ops' b m Hw. unfold prun. rewrite fold_left_app.
  apply (fold_left_ind _ (fun p => builder_seed rstate p b = Some m)).
  intros p o Ho. apply seed_untouched_step. apply (proj1 (forallb_forall _ _) Hw) in Ho.
  destruct (is_seed_write o); [discriminate|reflexivity].
Qed.
Print Assumptions seed_untouched_by_runs.

(* The same for the engine model of Engine.v + the GlobalState / State extension: an executor of ANY
   process history that has finished, after no more cycles than its window has time steps ([run_core0]
   runs with that much fuel and one more), shows (trace, final outputs, GlobalState dump) exactly
   [run_prog_seeded recipe seed] - the observation of that program run alone from that seed, which is
   what [run_repro] replicates per repetition and the driver is compared against.  ([eng_types], each node's
   number of inputs, only stands in for the type keys a build interns: [runs_independent] and
   [built_types_still_resolve] hold for every [types_of].) *)
Theorem engine_runs_independent : forall (ops : list pop) k e,
  nth_error (p_execs (gst * gsmap) (prun (gst * gsmap) eng_init eng_step eng_types ops)) k = Some e ->
  eng_finished (snd (window (e_recipe e))) (fst (own_state _ eng_init eng_step e)) = true ->
  (e_steps e <= Z.to_nat (snd (window (e_recipe e)) - fst (window (e_recipe e))))%nat ->
  option_map (eng_obs (e_recipe e)) (exec_state (gst * gsmap) (prun (gst * gsmap) eng_init eng_step eng_types ops) k)
  = Some (run_prog_seeded (e_recipe e) (e_seed0 e)).
Proof.
  intros ops k e He Hf Hn. rewrite (exec_state_own _ _ _ _ _ k e (inv_prun _ _ _ _ ops) He). simpl. f_equal.
  apply eng_obs_finished; assumption.
Qed.
Print Assumptions engine_runs_independent.

Theorem global_state_isolated : forall sec tr seed,
  (* nothing in it but seed keys and keys the program's own operations write *)
  (forall k, In k (gs_keys (final_gs sec tr seed)) -> In k (gs_keys seed) \/ In k (written_keys sec)) /\
  (* every seed key is still there unless the program itself erases that key *)
  (forall k, In k (gs_keys seed) -> ~ In k (erased_keys sec) -> In k (gs_keys (final_gs sec tr seed))) /\
  (* every key written by a node whose user code ran is there unless the program itself erases that key *)
  (forall i t rest mode key val, In (12 :: i :: t :: rest) tr -> In (mode, key, val) (gsops_of sec i) ->
     (mode =? 0) || (mode =? 2) = true -> ~ In key (erased_keys sec) -> In key (gs_keys (final_gs sec tr seed))).
Proof.
  intros sec tr seed. unfold final_gs. split; [|split].
  - exact (weave_keys_sound sec tr (mkW seed [])).
  - exact (weave_keys_persist sec tr (mkW seed [])).
  - intros i t rest mode key val. apply weave_keys_written.
Qed.
Print Assumptions global_state_isolated.

(* The copy-back chain: run k+1 is seeded with run k's FINAL state (copy-back REPLACES the selected state), hence the
   second half.  A copy-back that merges instead of replacing is outside this model; the driver's one-context chain
   (units 48) tests it. *)
Theorem erased_key_gone : forall sec1 tr1 seed i t rest k val,
  In (12 :: i :: t :: rest) tr1 -> In (3, k, val) (gsops_of sec1 i) -> ~ In k (written_keys sec1) ->
  ~ In k (gs_keys (final_gs sec1 tr1 seed)) /\
  (forall sec2 tr2, ~ In k (written_keys sec2) -> ~ In k (gs_keys (final_gs sec2 tr2 (final_gs sec1 tr1 seed)))).
Proof.
  intros sec1 tr1 seed i t rest k val Hin Hop Hw.
  assert (H1 : ~ In k (gs_keys (final_gs sec1 tr1 seed))) by exact (weave_erased_absent sec1 tr1 _ i t rest k val Hin Hop Hw).
  split; [exact H1|]. intros sec2 tr2 Hw2 H. apply weave_keys_sound in H. tauto.
Qed.
Print Assumptions erased_key_gone.

(* non-vacuity: a program whose node 0 erases key 3 (seeded, never written) *)
Example ex_erased_key :
  let sec := [[1; 1; 4]; [2; 0; 0; 1; 1; 0; 0]; [3; 0; -2; 6; 1; 0]; [4; 0; 3; 3; 0]; [4; 0; 2; 1; 5]; [6; 3; 9]; [6; 1; 2]] in
  In [12; 0; 1; 0; 0; 0] (run_core0 sec) /\ In (3, 3, 0) (gsops_of sec 0) /\ ~ In 3 (written_keys sec) /\
  gs_keys (seed_of sec) = [1; 3] /\ gs_keys (final_gs sec (run_core0 sec) (seed_of sec)) = [1].
Proof. vm_compute. repeat split; auto. intros [H|H]; [discriminate|destruct H]. Qed.

Theorem registry_growth_unobservable : forall (more : list Z) (tbl : list Z),
  (forall id v, resolve tbl id = Some v -> resolve (fst (intern_all more tbl)) id = Some v) /\
  (forall k i, find_index k tbl = Some i -> find_index k (fst (intern_all more tbl)) = Some i) /\
  (forall k, resolve (fst (intern k tbl)) (snd (intern k tbl)) = Some k).
Proof.
  intros more tbl. destruct (intern_all_spec more tbl) as [l [-> _]]. split; [|split].
  - intros id v. apply nth_error_app_some.
  - intros k i H. rewrite find_index_app, H. reflexivity.
  - intros k. apply intern_resolves.
Qed.
Print Assumptions registry_growth_unobservable.

Theorem built_types_still_resolve : forall (rstate : Type) init step types_of (ops : list pop) k e,
  nth_error (p_execs rstate (prun rstate init step types_of ops)) k = Some e ->
  map (resolve (p_reg rstate (prun rstate init step types_of ops))) (e_types e) = map Some (types_of (e_recipe e)).
Proof. intros rstate init step types_of ops. exact (inv_types _ _ _ _ _ (inv_prun _ init step _ ops)). Qed.
Print Assumptions built_types_still_resolve.

(* a program with two nodes, a GlobalState counter, a read, node State and a seed *)
Definition ex_prog : wire :=
  [[1; 1; 8];
   [2; 0; 0; 1; 1; 0; 0];
   [2; 1; 0; 0; 1; 1; 0; 0; 1; 1];
   [3; 0; -2; 6; 5; 0]; [3; 0; -2; 7; 2; 0]; [3; 1; -2; 6; 100; 0];
   [4; 0; 2; 1; 3]; [4; 1; 1; 1; 0]; [4; 1; 0; 2; 10]; [5; 1; 4];
   [6; 1; 50]; [6; 3; 7]].

Definition ex_noise : wire :=
  [[1; 2; 9]; [2; 0; 1; 1; 1; 0; 0]; [3; 0; -2; 6; 1; 0]; [3; 0; -2; 1; 2; 0]; [4; 0; 2; 100; 1]; [6; 100; 5]].

(* two executors from the SAME builder with a seed write between their builds, one of the noise program, their
   cycles interleaved *)
Definition ex_history : list pop :=
  [PNewBuilder ex_prog; PSeed 0 1 50; PSeed 0 3 7; PNewBuilder ex_noise; PSeed 1 100 5;
   PBuild 0; PBuild 1; PSeed 0 1 51; PBuild 0;
   PStep 0; PStep 1; PIntern 77; PStep 2; PStep 0; PStep 2; PStep 1; PStep 0; PStep 0; PStep 2; PStep 0; PStep 1;
   PStep 2; PStep 2; PStep 1; PStep 1].

Example ex_three_executors_exist :
  map (fun e => (e_loc e, e_steps e, e_seed0 e))
      (p_execs _ (prun (gst * gsmap) eng_init eng_step eng_types ex_history))
  = [(2%nat, 5%nat, [(1, 50); (3, 7)]); (3%nat, 5%nat, [(100, 5)]); (4%nat, 5%nat, [(1, 51); (3, 7)])].
Proof. vm_compute. reflexivity. Qed.

(* the hypotheses of runs_independent are met (executor 2 of the history: made from builder 0 AFTER its seed was
   written again, so its snapshot differs from executor 0's), and the fresh process of its conclusion really is in
   that state *)
Example ex_runs_independent_instance :
  match nth_error (p_execs _ (prun (gst * gsmap) eng_init eng_step eng_types ex_history)) 2 with
  | Some e => apply_sets [(1, 51); (3, 7)] [] = e_seed0 e /\ e_recipe e = ex_prog /\ e_steps e = 5%nat
  | None => False
  end /\
  exec_state _ (prun (gst * gsmap) eng_init eng_step eng_types ex_history) 2 =
  exec_state _ (prun (gst * gsmap) eng_init eng_step eng_types (alone_ops ex_prog [(1, 51); (3, 7)] 5)) 0.
Proof. vm_compute. repeat split; reflexivity. Qed.

(* the hypotheses of engine_runs_independent hold for executor 0 of that history (finished after its 5 PStep
   operations: the program makes 4 cycles, the fifth operation finds the run finished and changes nothing) *)
Example ex_hypotheses_hold :
  match nth_error (p_execs _ (prun (gst * gsmap) eng_init eng_step eng_types ex_history)) 0 with
  | Some e => eng_finished (snd (window (e_recipe e))) (fst (own_state _ eng_init eng_step e)) = true /\
              (e_steps e <= Z.to_nat (snd (window (e_recipe e)) - fst (window (e_recipe e))))%nat
  | None => False
  end.
Proof. vm_compute. split; [reflexivity|]. repeat constructor. Qed.

(* ... and its observation is the 4-cycle trace of the program alone, GlobalState {1, 2, 3} at the end *)
Example ex_observation :
  option_map (fun w => (length w, skipn (length w - 4) w))
    (option_map (eng_obs ex_prog) (exec_state _ (prun (gst * gsmap) eng_init eng_step eng_types ex_history) 0))
  = Some (50%nat, [[24; 1; 62]; [24; 2; 17]; [24; 3; 7]; [25; 3]]).
Proof. vm_compute. reflexivity. Qed.

(* the wall clock: two different reading streams, same engine state, different cycle_wall_start (the field
   that stores the reading) *)
Example ex_wall_clock :
  let cfgs := parse_cfgs ex_prog in
  let x1 := xrun (fun n => Z.of_nat n * 1000) cfgs (script_beh ex_prog) 1 8 10 in
  let x2 := xrun (fun n => Z.of_nat (n * n) * 7) cfgs (script_beh ex_prog) 1 8 10 in
  x_g x1 = x_g x2 /\ x_cws x1 <> x_cws x2 /\ x_reads x1 = 5%nat.
Proof. vm_compute. split; [reflexivity|]. split; [discriminate|reflexivity]. Qed.

Example ex_intern :
  let '(t1, ids) := intern_all [3; 1; 3; 2] [] in
  let t2 := fst (intern_all [9; 1; 8] t1) in
  ids = [0; 1; 0; 2]%nat /\ map (resolve t2) ids = [Some 3; Some 1; Some 3; Some 2] /\ t2 = [3; 1; 2; 9; 8].
Proof. vm_compute. repeat split; reflexivity. Qed.
