(* Props/C02.v — property C02: simulation honours every scheduled wake-up at exactly
   its time, in order.  Statements with short proofs from EngineFacts.v.
   The model is coq/Engine.v (mirror of graph.cpp schedule_node_impl / start_impl /
   evaluate_impl, node.cpp evaluate_impl, executor.cpp run_storage + advance_simulation);
   user code is an arbitrary [behaviour]. *)
Require Import Base Sched SchedFacts Engine EngineFacts.
From Coq Require Import Sorted.

(* Evaluation time strictly increases from cycle to cycle, is never earlier than the
   start time and never reaches the end time - for every ranked graph, every user code
   and every run that ends without an exception escaping (fuel exhaustion is an error).
   The proof does not use that last hypothesis: [EngineFacts.sim_run_invariant] has the same of every run. *)
Theorem sim_times_strict : forall cfgs beh start end_ fuel,
  well_ranked cfgs -> start_ops_ok beh start -> start <= MAX_DT -> end_ <= MAX_DT ->
  g_err (run_sim cfgs beh start end_ fuel) = 0 ->
  (forall t, In t (cycle_times cfgs beh end_ fuel (start_graph cfgs beh start)) -> start <= t < end_) /\
  StronglySorted Z.lt (cycle_times cfgs beh end_ fuel (start_graph cfgs beh start)).
Proof. intros cfgs beh start end_ fuel WR SO A B _. apply (sim_run_invariant cfgs beh start end_ fuel WR SO A B). Qed.
Print Assumptions sim_times_strict.

(* ... and those cycle times are exactly the cycle lines of the observable trace, the
   lines the implementation's lifecycle observer is compared against.  (Of every run: the proof does
   not use the hypothesis.) *)
Theorem cycles_are_observed : forall cfgs beh start end_ fuel,
  g_err (run_sim cfgs beh start end_ fuel) = 0 ->
  rev (log10 (run_sim cfgs beh start end_ fuel)) =
  map (fun t => [10; t]) (cycle_times cfgs beh end_ fuel (start_graph cfgs beh start)).
Proof.
  intros cfgs beh start end_ fuel _. unfold run_sim. rewrite log10_run_loop.
  rewrite (proj1 (start_graph_log cfgs beh start)). reflexivity.
Qed.
Print Assumptions cycles_are_observed.

(* The scheduling invariant holds at the first cycle boundary and at the end of every run that
   ends without error.  Running out of fuel is error 9, so these are complete runs. *)
Theorem boundary_invariant_always : forall cfgs beh start end_ fuel,
  well_ranked cfgs -> start_ops_ok beh start -> start <= MAX_DT -> end_ <= MAX_DT ->
  g_err (run_sim cfgs beh start end_ fuel) = 0 ->
  boundary cfgs (start_graph cfgs beh start) /\ boundary cfgs (run_sim cfgs beh start end_ fuel).
Proof. intros cfgs beh start end_ fuel WR SO A B. apply (sim_run_invariant cfgs beh start end_ fuel WR SO A B). Qed.
Print Assumptions boundary_invariant_always.

(* Never dropped, never late: at every cycle boundary the time of the next cycle is no
   later than any wake-up still pending in any node's scheduler. *)
Theorem next_cycle_not_after_any_pending_wakeup : forall cfgs g i e,
  boundary cfgs g -> (i < length cfgs)%nat -> c_sched (cfg cfgs i) = true -> In e (pending g i) ->
  g_nst g <= fst e.
Proof. exact EngineFacts.no_pending_skipped. Qed.
Print Assumptions next_cycle_not_after_any_pending_wakeup.

(* Exactly at its time: when the next cycle is a pending wake-up's time, the node's
   graph slot holds exactly that time, which is the condition under which the scan
   evaluates the node in that cycle. *)
Theorem due_node_is_armed_for_that_cycle : forall cfgs g i e,
  boundary cfgs g -> (i < length cfgs)%nat -> c_sched (cfg cfgs i) = true -> In e (pending g i) ->
  fst e = g_nst g -> slot_at i g = g_nst g.
Proof. exact EngineFacts.due_slot_is_now. Qed.
Print Assumptions due_node_is_armed_for_that_cycle.

(* ... and after that cycle no wake-up with a time up to the cycle's time is pending any
   more: it was consumed by the evaluation of its node. *)
Theorem due_wakeups_are_consumed_by_their_cycle : forall cfgs beh g,
  well_ranked cfgs -> boundary cfgs g -> g_err g = 0 -> g_nst g < MAX_DT ->
  g_err (evaluate_graph cfgs beh (g_nst g) g) = 0 ->
  forall i e, (i < length cfgs)%nat -> c_sched (cfg cfgs i) = true ->
  In e (pending (evaluate_graph cfgs beh (g_nst g) g) i) -> g_nst g < fst e.
Proof. intros cfgs beh g WR B _. exact (EngineFacts.due_events_consumed cfgs beh g WR B). Qed.
Print Assumptions due_wakeups_are_consumed_by_their_cycle.

(* One cycle preserves the invariant, advances time to exactly the cached next time,
   and leaves the new cached next time strictly later. *)
Theorem cycle_step : forall cfgs beh g,
  well_ranked cfgs -> boundary cfgs g -> g_err g = 0 -> g_nst g < MAX_DT ->
  g_err (evaluate_graph cfgs beh (g_nst g) g) = 0 ->
  boundary cfgs (evaluate_graph cfgs beh (g_nst g) g) /\
  g_now (evaluate_graph cfgs beh (g_nst g) g) = g_nst g /\
  g_now (evaluate_graph cfgs beh (g_nst g) g) < g_nst (evaluate_graph cfgs beh (g_nst g) g).
Proof. intros cfgs beh g WR B _. exact (EngineFacts.evaluate_graph_boundary cfgs beh g WR B). Qed.
Print Assumptions cycle_step.

(* The run loop terminates: with fuel (end - start) + 1 a run never runs out of fuel, for any
   ranked graph and user code (cycle times strictly increase, so there are at most end - start
   cycles).  The error code 9 is the model's out-of-fuel value; 2 is an exception thrown by user
   code, 3 the graph refusing a raw request for a past time. *)
Theorem run_terminates : forall cfgs beh start end_,
  well_ranked cfgs -> start_ops_ok beh start -> start <= MAX_DT -> end_ <= MAX_DT ->
  g_err (run_sim cfgs beh start end_ (Z.to_nat (end_ - start) + 1)) <> 9.
Proof.
  intros cfgs beh start end_ WR SO Hs He. apply (sim_run_invariant cfgs beh start end_ _ WR SO Hs He). lia.
Qed.
Print Assumptions run_terminates.

(* Non-vacuity: a concrete ranked program with two scheduler nodes, tags, a
   replacement and an input edge meets every hypothesis and runs 5 cycles (at 1, 3, 4, 6, 7). *)
Definition ex_case : wire :=
  [[1; 1; 20];
   [2; 0; 1; 1; 1; 0; 0];
   [2; 1; 1; 0; 1; 1; 0; 0; 1; 1];
   [3; 0; -2; 6; 5; 0]; [3; 0; 0; 1; 3; 1]; [3; 0; 0; 1; 6; 2]; [3; 0; 1; 1; 2; 1];
   [3; 1; -1; 1; 2; 3]; [3; 1; -2; 6; 100; 0]].

(* [start_ops_ok] speaks of every node index: beyond the two nodes the behaviour is cut off, so that
   [ex_start_ops_ok] computes *)
Definition ex_beh : behaviour :=
  fun i k now ivs s => if (i <? 2)%nat then script_beh ex_case i k now ivs s else [].

Example ex_hypotheses_hold :
  let cfgs := parse_cfgs ex_case in
  g_err (run_sim cfgs ex_beh 1 20 20) = 0 /\
  cycle_times cfgs ex_beh 20 20 (start_graph cfgs ex_beh 1) = [1; 3; 4; 6; 7].
Proof. vm_compute. split; reflexivity. Qed.

Example ex_well_ranked : well_ranked (parse_cfgs ex_case).
Proof.
  intros i s Hi Hin. simpl in Hi.
  destruct i as [|[|i]]; [| |vm_compute in Hi; lia]; unfold cfg in Hin; vm_compute in Hin.
  - destruct Hin.
  - destruct Hin as [<-|[]]. vm_compute. lia.
Qed.

Example ex_start_ops_ok : start_ops_ok ex_beh 1.
Proof.
  intros i ivs s o Hin. unfold ex_beh in Hin.
  destruct i as [|[|i]]; [vm_compute in Hin; destruct Hin| |simpl in Hin; destruct Hin].
  vm_compute in Hin. destruct Hin as [<-|[]]. vm_compute. reflexivity.
Qed.
