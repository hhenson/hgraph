(* Props/C10.v — property C10: map_ runs one isolated instance per key and mirrors the key set.
   LEVEL (DESIGN.md "proof, partial"):
     PROVED   of the specification model MapSpec, for every body family, key universe and history:
              map_keyset_mirrors, valid_elements_have_output, map_key_isolated, map_key_runs_alone,
              other_keys_invisible, readd_is_fresh.
     PROVED   of the mirror model MapSched (map_node.cpp's child schedule queue), for every sequence of
              ticks, child schedules, erases, key removals / additions / slot reuse and child behaviours:
              map_no_child_wake_lost, owner_cannot_skip_child_time, due_child_is_in_evaluation_set.
     PROVED   refinement of the WHOLE-NODE mirror MapNode (slot store of MapEval entries + MapSched scheduling,
              the evaluation set taken from MapSched, not assumed) to MapSpec, for every body family whose due
              wake-ups are consumed by a step, every key universe, every history and every environment (slot
              allocation by the key set, sparse candidate hints) respecting the engine's and the key set's
              contracts: map_cycle_refines_spec (one cycle, per key), map_link_preserved, map_refines_spec (the
              whole log, hence the output dictionary stream).  No capacity restriction: slots are unbounded
              naturals and growth is part of the model.  Per-entry lemmas refines_*_partial are its ingredients.
              Cycles of the owning graph that pass the map node by (its slot does not hold the time and no input
              ticked) are part of the run ([node_idle]); that nothing is due in them is derived from
              map_no_child_wake_lost's invariant.  NOT covered by the mirror: key-set erase callbacks (invisible:
              a stopped and an absent entry mean the same), pause/resume, key-source replacement.
     TESTED   (not proved): that the real map node refines MapSpec - by the differential check of
              cxx/map_driver.cpp against MapSpec.run_map and by the Python oracle of gen/map.py. *)
Require Import Base MapSpec MapFacts MapSched MapSchedFacts MapEval MapEvalFacts MapNode MapNodeFacts.
From Coq Require Import ZifyBool.

(* The set of live instances follows the union key set of the multiplexed dictionaries (defined
   independently of the map, [dicts_after]); only keys with a live instance can be output elements. *)
Theorem map_keyset_mirrors : forall (S : Type) (B : Z -> body S) ndict keys h j ks,
  kget j (r_st (run B (start_state ndict keys) h)) = Some ks ->
  (is_some (k_inst ks) = true <-> exists i, (i < ndict)%nat /\ dicts_after h i j <> None) /\
  (k_valid ks = true -> is_some (k_inst ks) = true).
Proof.
  intros S B ndict keys h j ks H. destruct (reach_kinv _ _ _ _ _ _ H) as [Hl Hv]. destruct (reach_vals _ _ _ _ _ _ H) as [Hn Hd].
  split; [|exact Hv]. rewrite Hl, bound_somewhere_spec, Hn.
  split; intros [i [Hi Hx]]; exists i; (split; [exact Hi|]); [rewrite <- Hd|rewrite Hd]; assumption.
Qed.
Print Assumptions map_keyset_mirrors.

(* ... restricted to children whose output is valid: an output tick makes the key an element. *)
Theorem valid_elements_have_output : forall (S : Type) (B : body S) t bc j ks ops v,
  ev_out (snd (key_step B t bc j ks ops)) = Some v ->
  k_valid (fst (key_step B t bc j ks ops)) = true /\ is_some (k_inst (fst (key_step B t bc j ks ops))) = true.
Proof.
  intros S B t bc j ks ops v. ks_cases; cbn [fst snd ev_out no_ev k_valid k_inst is_some]; try discriminate; auto.
Qed.
Print Assumptions valid_elements_have_output.

(* Keys are isolated.  Two runs - different body families (so the other keys' code, state and failures
   differ arbitrarily), different histories - from states that agree on key j, with the same body at j and
   histories that look the same to j (same cycle times, same broadcast arguments, same operations ON j): key j's state
   and key j's whole trace (starts, stops, outputs, removals, errors per cycle) are equal. *)
Theorem map_key_isolated : forall (S : Type) (B1 B2 : Z -> body S) j h1 h2 r1 r2,
  B1 j = B2 j -> agree_on j r1 r2 -> Forall2 (same_for j) h1 h2 ->
  key_trace j (r_log r1) = key_trace j (r_log r2) ->
  agree_on j (run B1 r1 h1) (run B2 r2 h2) /\
  key_trace j (r_log (run B1 r1 h1)) = key_trace j (r_log (run B2 r2 h2)).
Proof. exact @MapFacts.isolated_gen. Qed.
Print Assumptions map_key_isolated.

(* ... which is the property's "as if run alone": key j's trace in the map equals its trace in a map whose key
   universe is {j} alone and whose history contains only the operations on j (same times, same broadcast). *)
Theorem map_key_runs_alone : forall (S : Type) (B : Z -> body S) ndict keys h j,
  In j keys ->
  key_trace j (r_log (run B (start_state ndict keys) h)) =
  key_trace j (r_log (run B (start_state ndict [j]) (map (restrict_to j) h))).
Proof.
  intros S B ndict keys h j Hin.
  apply (isolated_gen B B j h (map (restrict_to j) h)); [reflexivity| |apply same_for_restrict|reflexivity].
  unfold agree_on. rewrite !kget_start. cbn [existsb]. rewrite Z.eqb_refl. cbn [orb].
  rewrite (existsb_keys j keys Hin). reflexivity.
Qed.
Print Assumptions map_key_runs_alone.

(* A cycle that does not concern key j - no operation on j, no broadcast argument modified, no wake-up of j due - leaves
   j untouched and silent: the cycles other keys cause (their ticks, their timers) are invisible to j. *)
Theorem other_keys_invisible : forall (S : Type) (B : body S) t bc j (ks : kstate S),
  kinv ks ->
  any_mod bc = false ->
  match k_inst ks with Some s => wake_due B s t = false | None => True end ->
  key_step B t bc j ks [] = (ks, no_ev).
Proof. exact @MapFacts.untouched_cycle_identity. Qed.
Print Assumptions other_keys_invisible.

(* A key that was removed and is added again starts from fresh state: after ANY history in which j ended
   absent, j's trace under ANY continuation equals its trace in a newly created map. *)
Theorem readd_is_fresh : forall (S : Type) (B : Z -> body S) ndict keys h1 h2 j ks,
  kget j (r_st (run B (start_state ndict keys) h1)) = Some ks -> k_inst ks = None ->
  let r1 := clear_log (run B (start_state ndict keys) h1) in
  key_trace j (r_log (run B r1 h2)) = key_trace j (r_log (run B (fresh_state ndict keys) h2)).
Proof.
  intros S B ndict keys h1 h2 j ks Hk Hn r1.
  apply (isolated_gen B B j h2 h2 r1 (fresh_state ndict keys)); [reflexivity| |apply same_for_refl|reflexivity].
  unfold agree_on. cbn [r1 clear_log r_st]. rewrite Hk, (absent_is_initial _ _ _ _ _ _ Hk Hn).
  change (fresh_state ndict keys) with (start_state (S:=S) ndict keys). rewrite kget_start.
  destruct (existsb (Z.eqb j) keys) eqn:E; [reflexivity|].
  rewrite (kget_run_none B j h1) in Hk; [discriminate|]. rewrite kget_start, E. reflexivity.
Qed.
Print Assumptions readd_is_fresh.

(* In every reachable state of the mirror of map_node.cpp's child schedule queue: a live child whose
   earliest pending time is T is not overdue; the owning graph is bound to evaluate the map node at a time
   P <= T (the parent's slot); and the queue holds a non-stale entry for the child with time <= T. *)
Theorem map_no_child_wake_lost : forall ops k e,
  let s := reach ops in
  s_ent s k = Some e -> e_started e = true -> e_next e < MAX_DT ->
  (s_now s < e_next e \/ (s_now s = e_next e /\ s_done s = false)) /\
  (exists P, pend s = Some P /\ P <= e_next e) /\
  covered s k (e_next e).
Proof. exact MapSchedFacts.no_child_wake_lost. Qed.
Print Assumptions map_no_child_wake_lost.

(* The owning graph cannot begin a cycle beyond a live child's pending time. *)
Theorem owner_cannot_skip_child_time : forall ops k e t,
  let s := reach ops in
  s_ent s k = Some e -> e_started e = true -> e_next e < MAX_DT -> tick_ok t s = true -> t <= e_next e.
Proof. intros ops k e t s He Hs Hn Ht. pose proof (tick_cannot_skip t s k e (reach_good ops) He Hs Hn Ht). lia. Qed.
Print Assumptions owner_cannot_skip_child_time.

(* When the map node is evaluated, every child that is due is in the evaluation set - whatever the sparse
   candidate sources are (adversarial ticked-slot list and full-scan flag), after any removals, additions
   and slot reuse in the same evaluation. *)
Theorem due_child_is_in_evaluation_set : forall ops rm ad tk full k,
  let s := reach ops in
  s_done s = false ->
  let s1 := fst (prepare ad tk full (reconcile rm ad s)) in
  forall e, s_ent s1 k = Some e -> e_started e = true -> e_next e < MAX_DT -> e_next e <= s_now s ->
  evaluated_in rm ad tk full s k = true.
Proof.
  intros ops rm ad tk full k s Hd s1 e He Hs Hlt Hn.
  pose proof (due_is_candidate rm ad tk full s k (reach_good ops) e He Hs Hlt Hn) as Hc.
  unfold evaluated_in. subst s1. destruct (prepare _ _ _ _) as [s1 c]. cbn [fst snd] in *. rewrite Hc, He, Hs. cbn [andb]. lia.
Qed.
Print Assumptions due_child_is_in_evaluation_set.

(* remove_entry_at_slot computes the "key left every dictionary" branch of the specification. *)
Theorem refines_remove_partial : forall (S : Type) (B : body S) t bc (e : sentry S) vals ops,
  se_started e = true ->
  any_bound (new_vals 0 vals ops) = false ->
  let '(e', ev) := slot_remove e in
  key_step B t bc (se_key e) (abs_entry vals (Some e)) ops = (abs_entry (map fst (new_vals 0 vals ops)) (Some e'), ev).
Proof. exact @MapEvalFacts.refines_remove_partial. Qed.
Print Assumptions refines_remove_partial.

(* create_entry_at_slot + the first evaluation of the new child compute the "key appeared" branch, whatever
   stopped entry occupied the slot before (slot reuse). *)
Theorem refines_create_partial : forall (S : Type) (B : body S) t bc key vals ops (old : option (sentry S)),
  match old with Some e => se_started e = false | None => True end ->
  any_bound (new_vals 0 vals ops) = true ->
  let '(e', ev) := slot_eval B t (new_vals 0 vals ops ++ bc) true true (slot_create B key) in
  key_step B t bc key (abs_entry vals old) ops = (abs_entry (map fst (new_vals 0 vals ops)) (Some e'), ev).
Proof. exact @MapEvalFacts.refines_create_partial. Qed.
Print Assumptions refines_create_partial.

(* The evaluation loop computes the "key stays" branch provided the evaluation set contains every child with
   a ticked input or a due wake-up (the guarantee of due_child_is_in_evaluation_set for the scheduling mirror). *)
Theorem refines_eval_partial : forall (S : Type) (B : body S) t bc (e : sentry S) vals ops in_set,
  se_started e = true ->
  any_bound (new_vals 0 vals ops) = true ->
  (any_mod (new_vals 0 vals ops ++ bc) || wake_due B (se_inst e) t = true -> in_set = true) ->
  let '(e', ev) := slot_eval B t (new_vals 0 vals ops ++ bc) false in_set e in
  key_step B t bc (se_key e) (abs_entry vals (Some e)) ops = (abs_entry (map fst (new_vals 0 vals ops)) (Some e'), ev).
Proof. exact @MapEvalFacts.refines_eval_partial. Qed.
Print Assumptions refines_eval_partial.

(* One cycle of the node mirror - tick, input notifications of the children whose arguments ticked, then
   map_evaluate_impl with reconciliation, candidate set, queue drains, evaluation loop and re-arm - does to every
   key exactly what the specification's key_step does, the evaluation set being MapSched's own. *)
Theorem map_cycle_refines_spec : forall (S : Type) (B : Z -> body S) (keys : list Z) (n : nstate S) (c : cyc) (x : env),
  Link B keys n -> step_ok keys n c x ->
  forall j, In j keys ->
  (nabs (node_cycle B keys n c x) j, c_ev B keys n c x j) =
  key_step (B j) (c_t c) (c_bc c j) j (nabs n j) (ops_on j (c_ops c)).
Proof. exact @MapNodeFacts.key_refines. Qed.
Print Assumptions map_cycle_refines_spec.

(* The link invariant (key set <-> slot store bijection; every started entry has a started scheduling entry
   whose time is the pending wake-up of the child's state, e_next = b_next; MapSched's invariant) is
   re-established by every cycle in which the node is evaluated ([node_cycle]).  A cycle that passes the node by keeps
   it as well (MapNodeFacts.link_idle); both kinds are covered by the second conjunct of map_refines_spec. *)
Theorem map_link_preserved : forall (S : Type) (B : Z -> body S) (keys : list Z),
  (forall j s bi, bi_now bi < MAX_ET ->
     match b_next (B j) (fst (b_step (B j) s bi)) with Some w => bi_now bi < w /\ w < MAX_DT | None => True end) ->
  forall (n : nstate S) (c : cyc) (x : env),
  Link B keys n -> step_ok keys n c x -> Link B keys (node_cycle B keys n c x).
Proof. exact @MapNodeFacts.link_cycle. Qed.
Print Assumptions map_link_preserved.

(* map_refines_spec: over any history, the node mirror's log - per cycle the time and every key's start, stop,
   removal, output and error events, from which the output dictionary stream is printed - equals the
   specification's. *)
Theorem map_refines_spec : forall (S : Type) (B : Z -> body S) (keys : list Z),
  (forall j s bi, bi_now bi < MAX_ET ->
     match b_next (B j) (fst (b_step (B j) s bi)) with Some w => bi_now bi < w /\ w < MAX_DT | None => True end) ->
  forall (ndict : nat) (h : list (cyc * env)),
  run_ok B keys (ninit ndict) h ->
  n_log (node_run B keys (ninit ndict) h) = r_log (run B (start_state ndict keys) (map fst h)) /\
  Link B keys (node_run B keys (ninit ndict) h).
Proof.
  intros S B keys Hw ndict h Hok.
  destruct (rel_run B keys Hw h (ninit ndict) (start_state ndict keys) (rel_init B keys ndict) Hok) as [A [_ [_ E]]].
  split; [symmetry; exact E|exact A].
Qed.
Print Assumptions map_refines_spec.

(* ... and so are the printed observations: the output dictionary delta and value per tick, and the lifecycle lines. *)
Corollary map_output_stream_refines_spec : forall (S : Type) (B : Z -> body S) (keys : list Z),
  (forall j s bi, bi_now bi < MAX_ET ->
     match b_next (B j) (fst (b_step (B j) s bi)) with Some w => bi_now bi < w /\ w < MAX_DT | None => True end) ->
  forall (ndict : nat) (h : list (cyc * env)) (usekey counts : bool),
  run_ok B keys (ninit ndict) h ->
  print_log usekey counts (rev (n_log (node_run B keys (ninit ndict) h))) [] [] =
  print_log usekey counts (rev (r_log (run B (start_state ndict keys) (map fst h)))) [] [].
Proof.
  intros S B keys Hw ndict h usekey counts Hok. destruct (map_refines_spec S B keys Hw ndict h Hok) as [-> _]. reflexivity.
Qed.
Print Assumptions map_output_stream_refines_spec.

(* A concrete history over the driver's vocabulary (acc body): key 5 is added, updated, removed, re-added;
   key 6 lives alongside.  The re-added key restarts from 0 (3, not 14); key 6 is unaffected. *)
Example c10_spec_nontrivial :
  let B := fun _ : Z => vbody (mkV false false [SAcc]) in
  let h := [mkCyc 1 (fun _ => []) [(0%nat, 1, 5, 10); (0%nat, 1, 6, 20)];
            mkCyc 2 (fun _ => []) [(0%nat, 1, 5, 1)];
            mkCyc 3 (fun _ => []) [(0%nat, 2, 5, 0); (0%nat, 1, 6, 7)];
            mkCyc 4 (fun _ => []) [(0%nat, 1, 5, 3)]] in
  let r := run B (start_state 1 [5; 6]) h in
  map (fun te => (fst te, option_map ev_out (snd te))) (rev (key_trace 5 (r_log r)))
    = [(1, Some (Some 10)); (2, Some (Some 11)); (3, Some None); (4, Some (Some 3))] /\
  map (fun te => (fst te, option_map ev_out (snd te))) (rev (key_trace 6 (r_log r)))
    = [(1, Some (Some 20)); (2, Some None); (3, Some (Some 27)); (4, Some None)] /\
  option_map (fun ks => is_some (k_inst ks)) (kget 5 (r_st (run B (start_state 1 [5; 6]) (firstn 3 h)))) = Some false.
Proof. vm_compute. repeat split; reflexivity. Qed.

(* the hypotheses of refines_eval_partial are met by a timer child whose wake-up is due and in the set *)
Example c10_refine_nontrivial :
  let B := vbody (mkV false false [STimer 3 false]) in
  let e := mkSE 5 true (fst (b_step B (b_init B) (mkBI 1 5 true [(Some 10, true)]))) false in
  wake_due B (se_inst e) 4 = true /\
  snd (slot_eval B 4 (new_vals 0 [Some 10] [] ++ []) false true e) = mkEv false false false (Some 510) false.
Proof. vm_compute. split; reflexivity. Qed.

(* The hypotheses of map_refines_spec are satisfiable and the conclusion is not trivial: a body with a real
   self-wake-up (tbody_wake proves the hypothesis on bodies), two keys in two slots, a cycle that passes the
   node by (t = 3), a wake-up cycle with no input (t = 4: the node runs only because its slot holds), a key
   removal, and the re-use of its slot by the re-added key. *)
Definition c10_node_hist : list (cyc * env) :=
  let x := mkEnv (fun j => if j =? 5 then 0%nat else 1%nat) [] false false in
  [(mkCyc 1 (fun _ => []) [(0%nat, 1, 5, 10)], x);
   (mkCyc 2 (fun _ => []) [(0%nat, 1, 6, 20)], x);
   (mkCyc 3 (fun _ => []) [], x);
   (mkCyc 4 (fun _ => []) [], x);
   (mkCyc 5 (fun _ => []) [(0%nat, 2, 5, 0)], x);
   (mkCyc 6 (fun _ => []) [(0%nat, 1, 5, 7)], x);
   (mkCyc 9 (fun _ => []) [], x)].

Example c10_node_nontrivial :
  (forall j s bi, bi_now bi < MAX_ET ->
     match b_next ((fun _ : Z => tbody) j) (fst (b_step ((fun _ : Z => tbody) j) s bi)) with
     | Some w => bi_now bi < w /\ w < MAX_DT | None => True end) /\
  run_ok (fun _ => tbody) [5; 6] (ninit 1) c10_node_hist /\
  map (fun te => (fst (fst te), map (fun p => (fst p, ev_out (snd p))) (snd te)))
      (rev (n_log (node_run (fun _ => tbody) [5; 6] (ninit 1) c10_node_hist)))
  = [(1, [(5, None); (6, None)]); (2, [(5, None); (6, None)]); (3, [(5, None); (6, None)]); (4, [(5, Some 510); (6, None)]);
     (5, [(5, None); (6, Some 520)]); (6, [(5, None); (6, None)]); (9, [(5, Some 507); (6, None)])].
Proof.
  split; [exact MapNodeFacts.tbody_wake|]. split; [|vm_compute; reflexivity].
  unfold c10_node_hist. cbn [run_ok fst snd].
  repeat match goal with
         | |- _ /\ _ => split
         | |- step_ok _ _ _ _ => unfold step_ok; cbn [c_t x_alloc]
         | |- tick_ok _ _ = true => vm_compute; reflexivity
         | |- _ < MAX_ET => vm_compute; reflexivity
         | |- True => exact I
         | |- forall j, In j _ -> _ = None -> match _ with _ => _ end =>
             let H := fresh in let K := fresh in intros ? H K; cbn [In] in H;
             destruct H as [H|[H|[]]]; subst; vm_compute in K |- *; try discriminate K; try exact I; try reflexivity
         | |- forall j j', In j _ -> In j' _ -> _ =>
             let H := fresh in let H' := fresh in let K := fresh in let K' := fresh in let E := fresh in
             intros ? ? H H' K K' E; cbn [In] in H, H';
             destruct H as [H|[H|[]]]; destruct H' as [H'|[H'|[]]]; subst;
             vm_compute in K, K', E; try reflexivity; try discriminate
         end.
Qed.

(* A concrete run of the scheduling mirror with a timer child, an input-driven sibling, a key removal and
   slot reuse: the hypotheses of the three mechanism theorems are met by a reachable state. *)
Definition c10_ops : list op :=
  [Tick 1; Eval [] [mkAdd 0 MAX_DT true; mkAdd 1 MAX_DT true] [] false (fun k => if Nat.eqb k 0 then 4 else MAX_DT);
   Tick 2; Push 1 2; Eval [] [] [1%nat] false (fun _ => MAX_DT);
   Tick 3; Eval [0%nat] [] [] false (fun _ => MAX_DT);
   Erase 0;
   Tick 4; Eval [] [mkAdd 0 MAX_DT true] [] false (fun _ => 9)].

Example c10_sched_nontrivial :
  let s := reach c10_ops in
  s_now s = 4 /\ s_done s = true /\ pend s = Some 9 /\
  option_map e_next (s_ent s 0) = Some 9 /\ option_map e_started (s_ent s 0) = Some true /\
  tick_ok 9 s = true /\ tick_ok 10 s = false.
Proof. vm_compute. repeat split; reflexivity. Qed.

Example c10_due_child_nontrivial :
  let s := reach (c10_ops ++ [Tick 9]) in
  s_done s = false /\
  option_map e_next (s_ent (fst (prepare [] [] false (reconcile [] [] s))) 0) = Some 9 /\
  evaluated_in [] [] [] false s 0 = true.
Proof. vm_compute. repeat split; reflexivity. Qed.
