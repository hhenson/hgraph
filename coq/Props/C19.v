(* Props/C19.v — property C19: operator resolution picks the unique most specific
   match, consistently.

   Model: Resolve.v (mirror of OperatorRegistry::resolve, try_match, the pattern
   matchers of type_pattern.cpp, ResolutionMap::bind_*, RankAccumulator).
   "Specificity" is the effective rank the code computes (candidate rank +
   adaptation adjustments); lower is more specific. *)
Require Import Base Resolve ResolveFacts ResolveMatchFacts ResolveSubstFacts ResolveCompleteFacts ResolveInheritFacts.
From Coq Require Import ZifyBool Permutation.

(* For the same registered overloads (any permutation of the overload list) and the same
   query, resolution gives the same outcome ([outcome_equiv]): the same selected candidate with the
   same bindings and rank, or no match, or an ambiguity whose tied list is a permutation of the
   other's, or the same escaping exception. *)
Theorem resolve_perm_invariant : forall cs cs' q,
  Permutation cs cs' -> outcome_equiv (resolve cs q) (resolve cs' q).
Proof.
  intros cs cs' q HP. unfold resolve.
  destruct (collect cs q) as [l|] eqn:E, (collect cs' q) as [l'|] eqn:E'; cbn [outcome_equiv]; auto.
  - apply decide_sort_perm. rewrite (collect_some _ _ _ E), (collect_some _ _ _ E'). apply Permutation_flat_map, HP.
  - apply collect_none in E'. rewrite <- HP in E'. apply collect_none in E'. congruence.
  - apply collect_none in E. rewrite HP in E. apply collect_none in E. congruence.
Qed.
Print Assumptions resolve_perm_invariant.

(* the same theorem under the name used in the seeded-change report (the effective rank in the verdict
   includes the defaults-used term) *)
Theorem resolve_permutation_invariant : forall cs cs' q,
  Permutation cs cs' -> outcome_equiv (resolve cs q) (resolve cs' q).
Proof. exact resolve_perm_invariant. Qed.
Print Assumptions resolve_permutation_invariant.

(* wherever a candidate stands in the list, what its own [try_match] accepts is among the survivors, with that
   map and rank: the right-to-left half of [survivors_are_the_matching_candidates] below, at a split list.
   (That the verdict depends on the candidate and the query alone is the type of [try_match]; in the code it is
   the freshness of NormalizedCall / ResolutionMap / rank_adjustment per loop iteration.) *)
Theorem survivor_verdict_is_local : forall cs1 cs2 c q l,
  collect (cs1 ++ c :: cs2) q = Some l ->
  forall m k, try_match c q = TMOk m k -> In (c, m, k) l.
Proof.
  intros cs1 cs2 c q l H m k HT. apply (collect_in _ _ _ H (c, m, k)). split; [apply in_elt | exact HT].
Qed.
Print Assumptions survivor_verdict_is_local.

(* s is selected iff it is a surviving candidate whose rank is strictly below the rank of
   every other surviving candidate (other = any other position of the survivor list). *)
Theorem selects_unique_min_rank : forall cs q s,
  resolve cs q = OSel s <->
  exists l l1 l2, collect cs q = Some l /\ l = l1 ++ s :: l2 /\ forall x, In x (l1 ++ l2) -> s_rank s < s_rank x.
Proof.
  intros cs q s. unfold resolve. destruct (collect cs q) as [l|].
  - rewrite decide_sort_sel. split; [intros [l1 [l2 H]]; exists l, l1, l2; auto | intros [l' [l1 [l2 [[= <-] H]]]]; eauto].
  - split; [discriminate | intros [l [l1 [l2 [[=] _]]]]].
Qed.
Print Assumptions selects_unique_min_rank.

Theorem survivors_are_the_matching_candidates : forall cs q l,
  collect cs q = Some l ->
  forall s, In s l <-> (In (s_cand s) cs /\ try_match (s_cand s) q = TMOk (s_map s) (s_rank s)).
Proof. exact ResolveFacts.collect_in. Qed.
Print Assumptions survivors_are_the_matching_candidates.

Theorem nomatch_iff_none_matches : forall cs q,
  resolve cs q = ONoMatch <-> forall c, In c cs -> try_match c q = TMRej.
Proof.
  intros cs q. rewrite <- Forall_forall, <- collect_nil. unfold resolve.
  destruct (collect cs q) as [l|]; [|split; discriminate].
  rewrite decide_sort_nomatch. split; [intros -> | intros [= ->]]; reflexivity.
Qed.
Print Assumptions nomatch_iff_none_matches.

(* ambiguity iff the best (least) rank among the survivors is shared; the reported tied set is
   all survivors of that rank, in registration order *)
Theorem ambiguous_iff_best_shared : forall cs q tied,
  resolve cs q = OAmb tied <->
  exists l r, collect cs q = Some l /\ is_min r l /\ tied = filter (rank_is r) l /\ (2 <= length tied)%nat.
Proof.
  intros cs q tied. unfold resolve. destruct (collect cs q) as [l|].
  - rewrite decide_sort_amb. split; [intros [r H]; exists l, r; auto | intros [l' [r [[= <-] H]]]; eauto].
  - split; [discriminate | intros [l [r [[=] _]]]].
Qed.
Print Assumptions ambiguous_iff_best_shared.

(* the only other outcome: an exception that is not a resolution error escapes iff [try_match] raises for
   some candidate.  ([TMErr] has one source in [try_match]: [bind_hints] refusing a caller-pinned size hint
   against the caller-supplied resolution, for a candidate that passed normalisation and the arity check;
   no theorem says so.) *)
Theorem error_iff_some_candidate_raises : forall cs q,
  resolve cs q = OErr <-> exists c, In c cs /\ try_match c q = TMErr.
Proof.
  intros cs q. rewrite <- Exists_exists, <- collect_none. unfold resolve.
  destruct (collect cs q) as [l|]; [|tauto]. split; [intros H; destruct (decide_not_err _ H) | discriminate].
Qed.
Print Assumptions error_iff_some_candidate_raises.

(* A successful match (in each direction the code has) extends the map it was given — no
   existing binding is changed — and under the resulting map, used as ONE substitution for
   the whole pattern, the pattern accepts the argument type.  [sinst]/[tinst]/[iinst]/[oinst]
   are the acceptance checks with the state threading removed (ResolveMatchFacts.v). *)
Theorem match_sound :
  (forall p s m m', smatch p s m = Some m' -> extends m m' /\ sinst m' p s = true) /\
  (forall p t m m', tmatch p t m = Some m' -> extends m m' /\ tinst m' p t = true) /\
  (forall p t m m', imatch p t m = Some m' -> extends m m' /\ iinst m' p t = true) /\
  (forall p t m m', omatch p t m = Some m' -> extends m m' /\ oinst m' p t = true).
Proof.
  split; [|split; [|split]]; intros p t;
    [apply smatch_sound | apply tmatch_sound | apply imatch_least | apply omatch_least].
Qed.
Print Assumptions match_sound.

(* Completeness: whenever SOME substitution sg above the current map makes the pattern an
   instance of the argument, the matcher succeeds and its result stays below sg — it is the least
   consistent assignment.  So a failed match means that no consistent assignment exists.
   Three directions: nothing of the kind is claimed for the output matcher [omatch], whose top-level variable
   compares a requested REF up to dereferencing.
   ([no_bv]: no TSB schema variable, which compares up to bundle names.  [no_bundle_binding]: no scalar
   variable bound to a named bundle — the input direction lets such a variable take any descendant bundle,
   which makes f(TS[~T], TS[~T]) accept (TS[Base], TS[Derived]) but not (TS[Derived], TS[Base]).) *)
Theorem match_complete :
  (forall p s m sg, extends m sg -> sinst sg p s = true -> exists m', smatch p s m = Some m' /\ extends m' sg) /\
  (forall p, no_bv p = true -> forall t m sg, extends m sg -> tinst sg p t = true ->
             exists m', tmatch p t m = Some m' /\ extends m' sg) /\
  (forall p, no_bv p = true -> forall t m sg, no_bundle_binding sg -> extends m sg -> iinst sg p t = true ->
             exists m', imatch p t m = Some m' /\ extends m' sg).
Proof.
  split; [|split].
  - intros p s m sg. apply (smatch_least (fun _ => True) p s), I.
  - intros p HB t m sg. apply (tmatch_least (fun _ => True) p t). auto.
  - intros p HB t m sg NB. apply (imatch_least p t). auto.
Qed.
Print Assumptions match_complete.

(* acceptance is stable under extension, so the final map of a candidate serves all positions *)
Theorem instance_stable_under_extension : forall m m', extends m m' ->
  (forall p s, sinst m p s = true -> sinst m' p s = true) /\
  (forall p t, tinst m p t = true -> tinst m' p t = true) /\
  (forall p t, iinst m p t = true -> iinst m' p t = true) /\
  (forall p t, oinst m p t = true -> oinst m' p t = true).
Proof.
  intros m m' X. split; [|split; [|split]]; intros p t;
    [apply (smatch_least (fun _ => True) p t) | apply (tmatch_least (fun _ => True) p t) | apply (imatch_least p t) |
     apply (omatch_least p t)]; exact X.
Qed.
Print Assumptions instance_stable_under_extension.

(* ResolutionMap::bind_*: the first binding wins: a second, different binding is rejected
   (std::logic_error); an accepted bind only extends the map and leaves the variable bound to the value *)
Theorem bind_rejects_inconsistent_rebinding :
  (forall m v t b, afind v (r_ts m) = Some b -> b <> t -> bind_ts m v t = None) /\
  (forall m v s b, afind v (r_sc m) = Some b -> b <> s -> bind_sc m v s = None) /\
  (forall m v n b, afind v (r_sz m) = Some b -> b <> n -> bind_sz m v n = None) /\
  (forall m v t m', bind_ts m v t = Some m' -> extends m m' /\ afind v (r_ts m') = Some t) /\
  (forall m v s m', bind_sc m v s = Some m' -> extends m m' /\ afind v (r_sc m') = Some s) /\
  (forall m v n m', bind_sz m v n = Some m' -> extends m m' /\ afind v (r_sz m') = Some n).
Proof.
  exact (conj ResolveMatchFacts.bind_ts_rejects (conj ResolveMatchFacts.bind_sc_rejects
        (conj ResolveMatchFacts.bind_sz_rejects (conj ResolveMatchFacts.bind_ts_extends
        (conj ResolveMatchFacts.bind_sc_extends ResolveMatchFacts.bind_sz_extends))))).
Qed.
Print Assumptions bind_rejects_inconsistent_rebinding.

(* Whatever try_match accepts: the caller's initial resolution is kept; every parameter
   accepts its argument under the one final map (every type variable has one type across
   all positions); a requested output is accepted by the output pattern; the output
   pattern resolves; the output_required flag is honoured; the effective rank is the
   candidate's rank plus the number of defaults used plus, per argument ([arg_cost]): the inheritance
   distance for a concrete TS[Base] leaf taking a TS[Derived], 1 for a promoted constant, 1 for a coerced scalar.
   [nargs] is the normalised call (see [normalize_call_spec]). *)
Theorem accepted_candidate_matches : forall c q m k,
  try_match c q = TMOk m k ->
  exists nargs dused,
  normalize (c_defaults c) (q_args q) = Some (nargs, dused) /\
  extends (q_init q) m /\
  Forall2 (arg_inst m) (c_params c) nargs /\
  (c_has_out c = true -> exists t, tresolve (c_out c) m = Some t) /\
  (c_has_out c = true -> forall e, q_expected q = Some e -> oinst m (c_out c) e = true) /\
  (forall b, q_outreq q = Some b -> c_has_out c = b) /\
  k = c_rank c + dused + args_cost (c_params c) nargs.
Proof.
  intros c q m k. unfold try_match.
  destruct (normalize (c_defaults c) (q_args q)) as [[nargs dused]|]; [|discriminate].
  destruct (negb (length (c_params c) =? length nargs)%nat); [discriminate|].
  destruct (match q_hints q with [] => Some (q_init q) | _ :: _ => bind_hints (size_vars c) (q_hints q) (q_init q) end)
    as [m0|] eqn:E0; [|discriminate].
  destruct (match q_outreq q with Some b => negb (Bool.eqb (c_has_out c) b) | None => false end) eqn:EO; [discriminate|].
  destruct (match q_expected q with Some t => if c_has_out c then omatch (c_out c) t m0 else Some m0 | None => Some m0 end)
    as [m1|] eqn:E1; [|discriminate].
  destruct (match_args (c_params c) nargs (m1, dused)) as [[m2 adj]|] eqn:E2; [|discriminate].
  apply match_args_sound in E2 as [X2 [G2 ->]]. intros H. exists nargs, dused. split; [reflexivity|].
  assert (extends (q_init q) m0) as X0.
  { destruct (q_hints q); [injection E0 as <-; apply extends_refl | eapply bind_hints_extends, E0]. }
  assert (extends m0 m1 /\ (c_has_out c = true -> forall e, q_expected q = Some e -> oinst m1 (c_out c) e = true)) as [X1 G1].
  { destruct (q_expected q) as [e|], (c_has_out c); try (injection E1 as <-; split; [apply extends_refl | discriminate]).
    apply omatch_least in E1 as [X G]. split; [exact X|]. intros _ e' [= <-]. exact G. }
  assert (m = m2 /\ k = c_rank c + (dused + args_cost (c_params c) nargs) /\
          (c_has_out c = true -> exists t, tresolve (c_out c) m2 = Some t)) as [-> [-> R]].
  { destruct (c_has_out c); [destruct (tresolve (c_out c) m2) as [t|]; [|discriminate]|]; injection H as <- <-;
      (split; [reflexivity | split; [reflexivity|]]); [eauto | discriminate]. }
  split; [eauto using extends_trans|]. split; [exact G2|]. split; [exact R|].
  split; [intros HO e He; exact (proj1 (omatch_least _ _) _ _ X2 (G1 HO e He))|]. split; [|lia].
  intros b Hb. rewrite Hb in EO. destruct (c_has_out c), b; auto; discriminate.
Qed.
Print Assumptions accepted_candidate_matches.

(* normalize_call: the normalised call is the supplied arguments followed by a suffix, one argument per
   parameter in all; each element of the suffix is the declared default of some parameter (that they are
   those of the omitted trailing parameters, in order, is not stated), and defaults_used is the length of
   the suffix, i.e. the number of omitted parameters *)
Theorem normalize_call_spec : forall defs al nargs k,
  normalize defs al = Some (nargs, k) ->
  exists suffix, nargs = al ++ suffix /\ k = Z.of_nat (length suffix) /\ length nargs = length defs /\
                 Forall (fun a => In (Some a) defs) suffix.
Proof.
  induction defs as [|d ds IH]; intros [|a al] nargs k; cbn [normalize]; try discriminate.
  - intros [= <- <-]. exists []. auto.
  - destruct d as [a|]; [|discriminate]. destruct (normalize ds []) as [[l k0]|] eqn:E; intros [= <- <-].
    destruct (IH _ _ _ E) as [suf [-> [-> [E3 E4]]]].
    exists (a :: suf). cbn [app length In] in *. repeat split; try lia.
    constructor; [auto|]. eapply Forall_impl, E4. auto.
  - destruct (normalize ds al) as [[l k0]|] eqn:E; intros [= <- <-].
    destruct (IH _ _ _ E) as [suf [-> [-> [E3 E4]]]].
    exists suf. cbn [app length In] in *. repeat split; try lia. eapply Forall_impl, E4. auto.
Qed.
Print Assumptions normalize_call_spec.

Theorem selected_is_a_matching_candidate : forall cs q s,
  resolve cs q = OSel s -> In (s_cand s) cs /\ try_match (s_cand s) q = TMOk (s_map s) (s_rank s).
Proof.
  intros cs q s. unfold resolve. destruct (collect cs q) as [l|] eqn:E; [|discriminate].
  intros [l1 [l2 [-> _]]]%decide_sort_sel. apply (collect_in _ _ _ E s), in_elt.
Qed.
Print Assumptions selected_is_a_matching_candidate.

(* the resulting output type is the substitution of the selection's bindings into its output
   pattern, and it exists whenever the candidate has an output *)
Theorem output_is_substitution : forall cs q s,
  resolve cs q = OSel s -> c_has_out (s_cand s) = true ->
  exists t, output_of s = Some t /\ tresolve (c_out (s_cand s)) (s_map s) = Some t.
Proof.
  intros cs q s [_ HT]%selected_is_a_matching_candidate HO. unfold output_of. rewrite HO.
  destruct (accepted_candidate_matches _ _ _ _ HT) as [nargs [dused [_ [_ [_ [[t Ht] _]]]]]]; eauto.
Qed.
Print Assumptions output_is_substitution.

(* Substituting the bindings into a pattern gives the argument type up to exactly the slack
   the matcher allows: [srel] (a tuple[T, ...] pattern also takes a fixed tuple of equal
   fields), [accepts_in t' t] = [drel (deref t') (deref t)] (REF wrappers transparent,
   bundle names ignored, SIGNAL accepts anything, TSL size 0 accepts any size, a TS of a named
   bundle takes a TS of any descendant bundle). *)
Theorem substitution_gives_argument_type :
  (forall m p s s', sinst m p s = true -> sresolve p m = Some s' -> srel s' s = true) /\
  (forall m p t t', tinst m p t = true -> tresolve p m = Some t' -> drel (deref t') (deref t) = true) /\
  (forall m p t t', iinst m p t = true -> tresolve p m = Some t' -> accepts_in t' t = true) /\
  (forall m p t t', oinst m p t = true -> tresolve p m = Some t' -> accepts_in t' t = true).
Proof.
  exact (conj ResolveSubstFacts.s_subst_rel (conj ResolveSubstFacts.t_subst_rel
        (conj ResolveSubstFacts.i_subst_rel ResolveSubstFacts.o_subst_rel))).
Qed.
Print Assumptions substitution_gives_argument_type.

(* for an accepted candidate: each substituted parameter pattern accepts its argument *)
Theorem selected_params_accept_arguments : forall c q m k,
  try_match c q = TMOk m k ->
  exists nargs dused, normalize (c_defaults c) (q_args q) = Some (nargs, dused) /\
  Forall2 (fun pr a => match pr, a with
                       | PIn p, ATs t => forall t', tresolve p m = Some t' -> accepts_in t' t = true
                       | PScal sp, ASc v => forall s', sresolve sp m = Some s' -> srel s' v = true \/ coercible v s' = true
                       | _, _ => True
                       end) (c_params c) nargs.
Proof.
  intros c q m k H. destruct (accepted_candidate_matches _ _ _ _ H) as [nargs [dused [HN [_ [HF _]]]]].
  exists nargs, dused. split; [exact HN|]. clear HN.
  induction HF as [|pr a ps al HI _ IH]; constructor; auto.
  destruct pr as [p|sp], a as [t|v| |]; cbn [arg_inst] in HI; auto.
  - intros t' Ht. exact (i_subst_rel _ _ _ _ HI Ht).
  - destruct sp; try (intros s' Hs; left; exact (s_subst_rel _ _ _ _ HI Hs)).
    intros s' [= <-]. destruct HI as [->|HC]; [left; apply srel_refl | right; exact HC].
Qed.
Print Assumptions selected_params_accept_arguments.

Theorem selected_output_satisfies_request : forall cs q s e,
  resolve cs q = OSel s -> c_has_out (s_cand s) = true -> q_expected q = Some e ->
  exists t, output_of s = Some t /\ accepts_in t e = true.
Proof.
  intros cs q s e [_ HT]%selected_is_a_matching_candidate HO HE. unfold output_of. rewrite HO.
  destruct (accepted_candidate_matches _ _ _ _ HT) as [nargs [dused [_ [_ [_ [[t Ht] [HX _]]]]]]]; auto.
  exists t. split; [exact Ht | exact (o_subst_rel _ _ _ _ (HX HO e HE) Ht)].
Qed.
Print Assumptions selected_output_satisfies_request.

(* the relations are not trivial *)
Example c19_relations_discriminate :
  srel (SList (SAtom 1)) (STuple [SAtom 1; SAtom 1]) = true /\
  srel (SList (SAtom 1)) (STuple [SAtom 1; SAtom 3]) = false /\
  srel (SAtom 1) (SAtom 3) = false /\
  accepts_in (TTsl (TTs (SAtom 1)) 0) (TRef (TTsl (TRef (TTs (SAtom 1))) 2)) = true /\
  accepts_in (TTsl (TTs (SAtom 1)) 3) (TTsl (TTs (SAtom 1)) 2) = false /\
  accepts_in (TTs (SAtom 1)) (TTs (SAtom 3)) = false /\
  accepts_in (TTs (SAtom 1)) TSignal = false /\ accepts_in TSignal (TTs (SAtom 1)) = true.
Proof. vm_compute. repeat split; reflexivity. Qed.

(* A statement that is FALSE of the faithful model (finding S1, docs/notes-resolve.md):
   "If candidate A accepts a subset of what candidate B accepts (A is strictly more
    specific) and both match, A is selected."  Refuted for scalar parameters: the generic
   Scalar[~T] (rank 1) is selected over Scalar[Map[~K, ~V]] (rank 3) for a mapping
   argument.  The witness is replayed on the implementation (corpus/resolve/S1-*.case). *)
Theorem specific_scalar_pattern_wins_refuted :
  exists generic specific q s,
    c_params generic = [PScal (PSVar 1 [])] /\
    c_params specific = [PScal (PSMap (PSVar 2 []) (PSVar 3 []))] /\
    (forall v, exists m', smatch (PSVar 1 []) v empty_rmap = Some m') /\
    smatch (PSMap (PSVar 2 []) (PSVar 3 [])) (SAtom 1) empty_rmap = None /\
    (exists m k, try_match specific q = TMOk m k) /\
    c_rank generic < c_rank specific /\
    resolve [specific; generic] q = OSel s /\ s_cand s = generic.
Proof.
  exists (mk_cand 1 false PSignal [PScal (PSVar 1 [])]),
         (mk_cand 2 false PSignal [PScal (PSMap (PSVar 2 []) (PSVar 3 []))]),
         (mkQuery None None empty_rmap [] [ASc (SMap (SAtom 1) (SAtom 3))]).
  eexists. split; [reflexivity|]. split; [reflexivity|]. split; [intros v; cbn; eexists; reflexivity|].
  split; [reflexivity|]. split; [vm_compute; eexists; eexists; reflexivity|]. split; vm_compute; auto.
Qed.
Print Assumptions specific_scalar_pattern_wins_refuted.

(* the same inversion inside a time-series parameter: TS[~T] (101) is selected over
   TS[Mapping[~K, ~V]] (102) for a TS[Mapping[int, str]] argument *)
Theorem specific_ts_pattern_wins_refuted :
  exists generic specific q s,
    c_params generic = [PIn (PTs (PSVar 1 []))] /\
    c_params specific = [PIn (PTs (PSMap (PSVar 2 []) (PSVar 3 [])))] /\
    (forall t m m', imatch (PTs (PSMap (PSVar 2 []) (PSVar 3 []))) t m = Some m' -> exists m'', imatch (PTs (PSVar 1 [])) t empty_rmap = Some m'') /\
    imatch (PTs (PSMap (PSVar 2 []) (PSVar 3 []))) (TTs (SAtom 1)) empty_rmap = None /\
    imatch (PTs (PSVar 1 [])) (TTs (SAtom 1)) empty_rmap <> None /\
    (exists m k, try_match specific q = TMOk m k) /\
    c_rank generic = 101 /\ c_rank specific = 102 /\
    resolve [specific; generic] q = OSel s /\ s_cand s = generic.
Proof.
  exists (mk_cand 1 false PSignal [PIn (PTs (PSVar 1 []))]),
         (mk_cand 2 false PSignal [PIn (PTs (PSMap (PSVar 2 []) (PSVar 3 [])))]),
         (mkQuery None None empty_rmap [] [ATs (TTs (SMap (SAtom 1) (SAtom 3)))]).
  eexists. split; [reflexivity|]. split; [reflexivity|]. split.
  { intros t m m'. cbn [imatch]. destruct (strip_refs t); try discriminate. intros _. cbn. eexists. reflexivity. }
  split; [reflexivity|]. split; [cbn; discriminate|]. split; [vm_compute; eexists; eexists; reflexivity|].
  split; [vm_compute; reflexivity|]. split; [vm_compute; reflexivity|]. split; vm_compute; reflexivity.
Qed.
Print Assumptions specific_ts_pattern_wins_refuted.

(* bundle_inheritance_distance does not depend on the order in which any bundle of the ancestry declares
   its parents ([hsame]: the same hierarchy up to parent order at every level); so neither do bundle_is_a
   and the adaptation rank built from it *)
Theorem inheritance_distance_order_independent : forall b c c',
  hsame c c' ->
  bdist b c = bdist b c' /\
  (forall base, bundle_id base = Some b -> bundle_is_a c base = bundle_is_a c' base /\
                                            bundle_distance c base = bundle_distance c' base).
Proof.
  intros b c c' H. pose proof (bdist_hsame b c c' H) as E. split; auto.
  intros base Hb. destruct base; cbn in Hb; try discriminate. inversion Hb; subst.
  inversion H; subst; auto. cbn [bundle_is_a bundle_distance]. rewrite E. auto.
Qed.
Print Assumptions inheritance_distance_order_independent.

(* ... and it is the length of the SHORTEST chain of parent edges ([bpath b k c]: a chain of k parent
   edges from c up to the bundle named b); None exactly when there is no chain *)
Theorem inheritance_distance_is_shortest_path : forall b c,
  (forall k, bdist b c = Some k -> bpath b k c /\ forall j, bpath b j c -> (k <= j)%nat) /\
  (bdist b c = None -> forall j, ~ bpath b j c).
Proof.
  intros b c. split.
  - intros k H. split; [apply bdist_is_path; auto|]. intros j Hj.
    destruct (path_bounds_bdist _ _ _ Hj) as [k' [E Hk]]. rewrite H in E. inversion E; subst. auto.
  - intros H j Hj. destruct (path_bounds_bdist _ _ _ Hj) as [k' [E _]]. congruence.
Qed.
Print Assumptions inheritance_distance_is_shortest_path.

(* the hierarchy of seeded change C19w3-inheritance-distance-first-path: two paths of different length to
   the shared ancestor Tradable; ListedOption(Listed, Option) and its mirror OptionListed(Option, Listed) *)
Definition h_instrument := SBundle 1 [].
Definition h_tradable := SBundle 2 [h_instrument].
Definition h_derivative := SBundle 3 [h_tradable].
Definition h_option := SBundle 4 [h_derivative].
Definition h_record := SBundle 5 [].
Definition h_reportable := SBundle 6 [h_record].
Definition h_regulated := SBundle 7 [h_reportable].
Definition h_listed := SBundle 8 [h_tradable; h_regulated].
Definition h_listed_option := SBundle 9 [h_listed; h_option].
Definition h_option_listed := SBundle 10 [h_option; h_listed].
Example c19_diamond_distances :
  map (fun leaf => map (fun b => bdist b leaf) [1; 2; 6; 5; 3; 9; 10]) [h_listed_option; h_option_listed] =
    [[Some 3; Some 2; Some 3; Some 4; Some 2; Some 0; None]; [Some 3; Some 2; Some 3; Some 4; Some 2; None; Some 0]]%nat /\
  (forall leaf, In leaf [h_listed_option; h_option_listed] ->
     let on (label : Z) (b : sty) := mk_cand label false PSignal [PIn (PConc (TTs b))] in
     let call := mkQuery None None empty_rmap [] [ATs (TTs leaf)] in
     (* Instrument (3) and Reportable (3) tie; Record (4) loses; Tradable (2) beats Instrument (3) *)
     (exists tied, resolve [on 1 h_instrument; on 2 h_reportable; on 3 h_record] call = OAmb tied /\ length tied = 2%nat) /\
     (exists s, resolve [on 1 h_instrument; on 2 h_tradable; on 3 h_record] call = OSel s /\ c_label (s_cand s) = 2 /\ s_rank s = 2) /\
     resolve [on 1 (SBundle 11 [])] call = ONoMatch).
Proof.
  split; [vm_compute; reflexivity|]. intros leaf [<-|[<-|[]]]; vm_compute;
    (split; [eexists; split; reflexivity | split; [eexists; repeat split; reflexivity | reflexivity]]).
Qed.

(* RankAccumulator::total sums an unordered_map: the iteration order is irrelevant *)
Theorem rank_total_order_independent : forall st vs vs',
  Permutation vs vs' -> racc_total (mkA st vs) = racc_total (mkA st vs').
Proof.
  intros st vs vs' HP. unfold racc_total. cbn [ra_vars ra_struct].
  revert st. induction HP; intros st; cbn [fold_left]; auto.
  - f_equal. lia.
  - rewrite IHHP1. auto.
Qed.
Print Assumptions rank_total_order_independent.

Definition ts_int : tty := TTs (SAtom 1).
Definition ex_concrete : cand := mk_cand 1 true (PConc ts_int) [PIn (PConc ts_int)].
Definition ex_generic_scalar : cand := mk_cand 2 true (PTs (PSVar 1 [])) [PIn (PTs (PSVar 1 []))].
Definition ex_generic_ts : cand := mk_cand 3 true (PVar 1 []) [PIn (PVar 1 [])].
Definition ex_query : query := mkQuery None None empty_rmap [] [ATs ts_int].

(* the probe of DESIGN.md: concrete (rank 0) beats TS[~T] (101) beats ~T (10000), in any order *)
Example c19_selects_most_specific :
  map c_rank [ex_concrete; ex_generic_scalar; ex_generic_ts] = [0; 101; 10000] /\
  (forall cs, In cs [[ex_concrete; ex_generic_scalar; ex_generic_ts]; [ex_generic_ts; ex_generic_scalar; ex_concrete];
                     [ex_generic_scalar; ex_generic_ts; ex_concrete]] ->
              resolve cs ex_query = OSel (ex_concrete, empty_rmap, 0)) /\
  resolve [ex_generic_ts; ex_generic_scalar] ex_query = OSel (ex_generic_scalar, mkR [] [(1, SAtom 1)] [], 101) /\
  output_of (ex_generic_scalar, mkR [] [(1, SAtom 1)] [], 101) = Some ts_int.
Proof. split; [|split; [intros cs [<-|[<-|[<-|[]]]]|split]]; reflexivity. Qed.

(* defaulted parameters (the family of seeded change C19w2-defaults-counter-leaks-across-candidates):
   X(ts), Y(ts, k: int = 1), D(ts, a: int = 1, b: int = 2); each default used costs 1, so a call
   (TS[int]) selects X (ranks 0 / 1 / 2), (TS[int], 5) selects Y (X takes no second argument;
   Y 0, D 1), (TS[int], 5, 6) selects D — in all six registration orders *)
Definition ex_int_default : param * option arg := (PScal (PSConc (SAtom 1)), Some (ASc (SAtom 1))).
Definition ex_X : cand := mk_cand_d 1 true (PConc ts_int) [(PIn (PConc ts_int), None)].
Definition ex_Y : cand := mk_cand_d 2 true (PConc ts_int) [(PIn (PConc ts_int), None); ex_int_default].
Definition ex_D : cand := mk_cand_d 3 true (PConc ts_int) [(PIn (PConc ts_int), None); ex_int_default; ex_int_default].
Example c19_defaults_all_six_orders :
  forall cs, In cs [[ex_X; ex_Y; ex_D]; [ex_X; ex_D; ex_Y]; [ex_Y; ex_X; ex_D]; [ex_Y; ex_D; ex_X]; [ex_D; ex_X; ex_Y]; [ex_D; ex_Y; ex_X]] ->
    resolve cs (mkQuery (Some true) None empty_rmap [] [ATs ts_int]) = OSel (ex_X, empty_rmap, 0) /\
    resolve cs (mkQuery (Some true) None empty_rmap [] [ATs ts_int; ASc (SAtom 1)]) = OSel (ex_Y, empty_rmap, 0) /\
    resolve cs (mkQuery (Some true) None empty_rmap [] [ATs ts_int; ASc (SAtom 1); ASc (SAtom 1)]) = OSel (ex_D, empty_rmap, 0) /\
    resolve cs (mkQuery (Some true) None empty_rmap [] [ATs (TTs (SAtom 3))]) = ONoMatch /\
    try_match ex_D (mkQuery (Some true) None empty_rmap [] [ATs ts_int]) = TMOk empty_rmap 2.
Proof. intros cs H. repeat (destruct H as [<-|H]; [vm_compute; repeat split; reflexivity|]). destruct H. Qed.

(* an ambiguity (two overloads equal up to variable renaming), a no-match, and the escaping exception *)
Example c19_ambiguous_nomatch_error :
  let g1 := mk_cand 4 false PSignal [PIn (PTs (PSVar 1 [])); PIn (PTs (PSVar 1 []))] in
  let g2 := mk_cand 5 false PSignal [PIn (PTs (PSVar 2 [])); PIn (PTs (PSVar 2 []))] in
  let sz := mk_cand 6 false PSignal [PIn (PTsl (SzVar 1 []) (PVar 1 []))] in
  (exists tied, resolve [g1; g2] (mkQuery None None empty_rmap [] [ATs ts_int; ATs ts_int]) = OAmb tied /\ length tied = 2%nat) /\
  resolve [g1; g2] (mkQuery None None empty_rmap [] [ATs ts_int; ATs (TTs (SAtom 3))]) = ONoMatch /\
  resolve [sz] (mkQuery None None (mkR [] [] [(1, 3)]) [2] [ATs (TTsl ts_int 2)]) = OErr.
Proof. vm_compute. split; [eexists; split; reflexivity | split; reflexivity]. Qed.

(* REF transparency in the input direction, a repeated variable, a size variable, and the
   substitution: TSL[REF[TS[int]], 2] against TSL[TS[~T], ~N] binds T = int, N = 2 *)
Example c19_match_binds_consistently :
  imatch (PTsl (SzVar 7 []) (PTs (PSVar 1 []))) (TTsl (TRef ts_int) 2) empty_rmap = Some (mkR [] [(1, SAtom 1)] [(7, 2)]) /\
  tresolve (PTsl (SzVar 7 []) (PTs (PSVar 1 []))) (mkR [] [(1, SAtom 1)] [(7, 2)]) = Some (TTsl ts_int 2) /\
  iinst (mkR [] [(1, SAtom 1)] [(7, 2)]) (PTsl (SzVar 7 []) (PTs (PSVar 1 []))) (TTsl (TRef ts_int) 2) = true /\
  bind_sc (mkR [] [(1, SAtom 1)] []) 1 (SAtom 3) = None /\
  tmatch (PRef (PVar 1 [])) ts_int empty_rmap = None /\
  imatch (PRef (PVar 1 [])) ts_int empty_rmap = Some (mkR [(1, ts_int)] [] []).
Proof. vm_compute. repeat split; reflexivity. Qed.
