(* Props/C12.v — property C12: the output of switch_ follows only the branch
   selected by the current key, which starts fresh.

   [mirror_run]/[reach] are the mirror of src/hgraph/runtime/switch_node.cpp
   (two graph slots, parent/child schedule slots, push/pull scheduling,
   sampled binding); [spec_run] is "the selected branch, alone".  Everything is
   universal over the branch set [sp] (arbitrary user code [b_step]), the key
   and input history [h], the window and the number of cycles.  [mirror_run]
   iterates the cycle with fuel, [reach] without: theorems 1 are about the
   first, 2 to 6 about the second, and no theorem relates the two.  Hypotheses
   common to all statements: at most two time-series arguments (what the
   driver wires), start >= MIN_ST, and times stay below MAX_DT (end_ + the
   largest timer delay a body asks for). *)
Require Import Base Sched Switch SwitchFacts.

(* 1. The output stream of the switch (the recorder lines: value, and for a TSS
      output value and delta, of every tick) — and the output container, its error,
      its cycle times, and the live instance — is that of the specification: at every moment the one
      selected branch, running alone from the fresh instance created when it was
      selected.  For every fuel (length of the run). *)
Theorem switch_follows_active : forall sp h D start end_ fuel,
  (s_nts sp <= 2)%nat -> sp_bounded D sp -> 1 <= start -> end_ <= MAX_DT -> end_ + D <= MAX_DT ->
  let m := mirror_run sp h start end_ fuel in
  let s := spec_run sp h start end_ fuel in
  outs_of (m_log m) = s_outs s /\ cycles_of (m_log m) = s_cycles s /\ m_err m = s_err s /\
  active_inst m = s_cur s /\ m_out m = s_out s.
Proof.
  intros sp h D start end_ fuel Hn Hsp Hs _ HeD m s. unfold m, s.
  rewrite <- (refines sp h D end_ Hn Hsp HeD start Hs fuel). repeat split; reflexivity.
Qed.
Print Assumptions switch_follows_active.

(* the whole abstraction, as one equation *)
Theorem mirror_refines_alone_branch : forall sp h D start end_ fuel,
  (s_nts sp <= 2)%nat -> sp_bounded D sp -> 1 <= start -> end_ <= MAX_DT -> end_ + D <= MAX_DT ->
  abs (mirror_run sp h start end_ fuel) = spec_run sp h start end_ fuel.
Proof. intros. apply (refines sp h D); assumption. Qed.
Print Assumptions mirror_refines_alone_branch.

(* 2. In every reachable state, a key tick that selects (a different key, or any
      key tick under reload_on_ticked, or the first key) leaves as the live
      instance exactly: a FRESH instance of the selected branch (state 0, empty
      scheduler, new id), started, and run once alone at the switch time on the
      held inputs.  Of the state before the switch only the instance counter, the
      held inputs and the output container enter the right-hand side; the
      container is emptied when an instance is replaced ([reset_out]: a
      collection is cleared, a scalar keeps its value). *)
Theorem new_branch_fresh_and_sampled : forall sp h D start end_,
  (s_nts sp <= 2)%nat -> sp_bounded D sp -> 1 <= start -> end_ <= MAX_DT -> end_ + D <= MAX_DT ->
  forall n k br,
  let m := reach sp h start end_ n in
  cycle_due sp h end_ m ->
  let t := mirror_next sp h m in
  tick_of sp h 0 t = Some k -> need_switch sp (w_akey (m_w m)) k = true -> select_branch sp k = Some br ->
  let srcs' := apply_ticks t (m_srcs m) (ticks_at sp h t) in
  let m' := mirror_cycle sp h t m in
  let run := alone_cycle sp t srcs' (fst (inst_start t (fresh_inst br (m_ninst m) t))) in
  let emptied := match active_inst m with Some _ => reset_out (s_set sp) t (m_out m) | None => m_out m end in
  m_err m' = 0 /\ m_ninst m' = m_ninst m + 1 /\
  active_inst m' = Some (k, fst run) /\
  m_out m' = match snd run with Some v => emit_out (s_set sp) t v emptied | None => emptied end.
Proof.
  intros sp h D start end_ Hn Hsp Hs _ HeD n k br m Hd t Etk Eneed Esel srcs' m' run emptied.
  pose proof (reach_due_good sp h D end_ Hn Hsp HeD start Hs n Hd) as G.
  destruct (cycle_start sp h D end_ Hn Hsp HeD m G Hd) as (Eabs & Hkt & Hak & _). fold t m' in Eabs, Hkt.
  (* nothing below needs what m' is; left let-bound, the kernel unfolds mirror_cycle at each [change] and at Qed *)
  clearbody m'. unfold active_inst at 1. change (m_err m') with (s_err (abs m')). change (m_ninst m') with (s_ninst (abs m')).
  change (m_out m') with (s_out (abs m')). rewrite Eabs.
  unfold spec_se, spec_switch. rewrite Hkt, Etk. proj.
  rewrite Hak, Eneed, Esel. unfold spec_rec, spec_eval. proj. cbn [Z.eqb]. proj.
  fold srcs' run emptied. destruct run as [i' em]. proj.
  match goal with |- context [if ?b then _ else _] => destruct b end; repeat split; reflexivity.
Qed.
Print Assumptions new_branch_fresh_and_sampled.

(* 2b. Collection-shaped (TSS) output owned by the switch: after ANY selection —
      another branch, the same branch re-selected, reload_on_ticked on a key
      re-tick, another unmatched key falling to the same default branch — the
      set holds exactly what the NEW instance published at the switch time;
      nothing the replaced instance published survives.  The output ticks at the
      switch time whenever an instance was replaced, and the delta of that tick
      is taken against the members the replaced instance had published. *)
Theorem reselected_container_is_fresh : forall sp h D start end_,
  (s_nts sp <= 2)%nat -> sp_bounded D sp -> 1 <= start -> end_ <= MAX_DT -> end_ + D <= MAX_DT ->
  forall n k br,
  let m := reach sp h start end_ n in
  cycle_due sp h end_ m ->
  let t := mirror_next sp h m in
  tick_of sp h 0 t = Some k -> need_switch sp (w_akey (m_w m)) k = true -> select_branch sp k = Some br ->
  s_set sp = true ->
  let srcs' := apply_ticks t (m_srcs m) (ticks_at sp h t) in
  let m' := mirror_cycle sp h t m in
  let run := alone_cycle sp t srcs' (fst (inst_start t (fresh_inst br (m_ninst m) t))) in
  o_set (m_out m') = opt_list (snd run) /\
  o_lmt (m_out m') = (if is_some (active_inst m) || is_some (snd run) then t else o_lmt (m_out m)) /\
  (is_some (active_inst m) = true -> o_old (m_out m') = o_set (m_out m)).
Proof.
  intros sp h D start end_ Hn Hsp Hs He HeD n k br m Hd t Etk Eneed Esel Hset srcs' m' run.
  destruct (new_branch_fresh_and_sampled sp h D start end_ Hn Hsp Hs He HeD n k br Hd Etk Eneed Esel) as (_ & _ & _ & Eo).
  fold m t srcs' m' run in Eo.
  pose proof (reach_due_good sp h D end_ Hn Hsp HeD start Hs n Hd) as G. fold m in G.
  destruct (cycle_start sp h D end_ Hn Hsp HeD m G Hd) as (_ & _ & _ & Hlt). fold t in Hlt.
  assert (Hlm : (o_lmt (m_out m) <? t) = true) by (destruct G as (_ & _ & _ & Hl & _); lia).
  assert (Hnone : active_inst m = None -> o_set (m_out m) = [])
    by (intros E; rewrite (proj2 (good_active D m G) E); reflexivity).
  rewrite Eo, Hset. unfold emit_out, reset_out, touch. rewrite Hlm.
  destruct (active_inst m); destruct (snd run); cbn; rewrite ?Hlm, ?Z.ltb_irrefl; cbn; try rewrite (Hnone eq_refl);
    repeat split; try reflexivity; discriminate.
Qed.
Print Assumptions reselected_container_is_fresh.

(* ... and what that fresh instance is and sees at the switch time: state 0, only
   its start-hook timer pending, every held input presented as modified with its
   current value; it is evaluated at the switch time iff its start hook armed it
   for the switch time itself ([b_sos] with [b_sd] = 0; a later start timer does
   not make it due) or some held input is valid. *)
Theorem fresh_instance_sees_held_inputs : forall sp br id t srcs,
  0 <= b_sd (br_body br) -> t + b_sd (br_body br) < MAX_DT ->
  let i0 := fst (inst_start t (fresh_inst br id t)) in
  i_state i0 = 0 /\ i_id i0 = id /\ i_br i0 = br /\ i_samp i0 = t /\
  events (i_sch i0) = (if b_sos (br_body br) then [(t + b_sd (br_body br), 0)] else []) /\
  views sp t srcs i0 = map (fun s => mkIv (is_some (fst s)) true (match fst s with Some v => v | None => 0 end))
                           (bound_srcs sp br srcs) /\
  due t (views sp t srcs i0) i0 =
    (b_sos (br_body br) && (b_sd (br_body br) =? 0)) || existsb (fun s => is_some (fst s)) (bound_srcs sp br srcs).
Proof.
  intros sp br id t srcs H0 Ht i0. unfold i0, due, views, is_scheduled_now.
  rewrite (inst_start_fresh br id t H0 Ht). unfold fresh_inst.
  assert (X : existsb (fun v => v_valid v && v_mod v) (map (view_of t t) (bound_srcs sp br srcs)) =
              existsb (fun s => is_some (fst s)) (bound_srcs sp br srcs))
    by (induction (bound_srcs sp br srcs) as [|s r IH]; cbn; [|rewrite IH, view_of_sampled, Bool.andb_true_r]; reflexivity).
  destruct (b_sos (br_body br)); proj; rewrite X, (map_ext _ _ (view_of_sampled t)); repeat split.
  f_equal. lia.
Qed.
Print Assumptions fresh_instance_sees_held_inputs.

(* 3. The previous branch: in every reachable state the graph in the non-active
      slot is stopped; a stopped graph receives no notification, is not touched
      by the evaluation of the active graph ([eval_phase]; what overwrites that
      slot is the next selection, in [select_phase]), and the runtime would
      refuse to evaluate it.  That its pending timers neither
      wake the parent nor reach the output is part of theorem 1: the cycle times
      and the output ticks of the mirror are those of the specification, which
      keeps nothing of a replaced instance. *)
Theorem old_branch_silent : forall sp h D start end_ n,
  (s_nts sp <= 2)%nat -> sp_bounded D sp -> 1 <= start -> end_ <= MAX_DT -> end_ + D <= MAX_DT ->
  let m := reach sp h start end_ n in
  m_err m = 0 ->
  forall a, w_active (m_w m) = Some a ->
  forall c', getg (negb a) (m_w m) = Some c' ->
    c_started c' = false /\
    (forall t tks, notify_child sp t tks (negb a) m = m) /\
    (forall t, getg (negb a) (m_w (eval_phase sp t m)) = Some c') /\
    (forall t ivs, cr_err (child_evaluate t ivs c') = 5 /\ cr_emit (child_evaluate t ivs c') = None).
Proof.
  intros sp h D start end_ n Hn Hsp Hs _ HeD m E0 a Ha c' Hg.
  pose proof (good_slots D m (proj1 (reach_good sp h D end_ Hn Hsp HeD start Hs n) E0)) as Hsl.
  unfold slots_ok in Hsl. rewrite Ha, Hg in Hsl. destruct Hsl as [_ [Hst _]].
  split; [exact Hst|]. split; [intros; apply notify_skip; rewrite Hg; exact Hst|].
  split; [intros; rewrite eval_phase_other; assumption|]. intros. apply child_evaluate_stopped. exact Hst.
Qed.
Print Assumptions old_branch_silent.

(* 4. Selecting a key again — whatever was selected before, including this very
      key — creates a new instance: its id is the instance counter, strictly
      above the id of the instance it replaces (and, by theorem 2, its state is
      computed from a fresh instance, not from any retired graph). *)
Theorem reselect_is_new_instance : forall sp h D start end_,
  (s_nts sp <= 2)%nat -> sp_bounded D sp -> 1 <= start -> end_ <= MAX_DT -> end_ + D <= MAX_DT ->
  forall n k br,
  let m := reach sp h start end_ n in
  cycle_due sp h end_ m ->
  let t := mirror_next sp h m in
  tick_of sp h 0 t = Some k -> need_switch sp (w_akey (m_w m)) k = true -> select_branch sp k = Some br ->
  let m' := mirror_cycle sp h t m in
  exists i', active_inst m' = Some (k, i') /\ i_id i' = m_ninst m /\
             (forall k0 i0, active_inst m = Some (k0, i0) -> i_id i0 < i_id i').
Proof.
  intros sp h D start end_ Hn Hsp Hs He HeD n k br m Hd t Etk Eneed Esel m'.
  destruct (new_branch_fresh_and_sampled sp h D start end_ Hn Hsp Hs He HeD n k br Hd Etk Eneed Esel) as (_ & _ & Ea & _).
  eexists. split; [exact Ea|]. rewrite alone_cycle_id, (proj1 (proj2 (inst_start_frame _ _))).
  split; [reflexivity|]. intros k0 i0 H0.
  pose proof (reach_id_ok sp h D end_ Hn Hsp HeD start Hs n) as Hid. unfold sid_ok in Hid.
  fold m in Hid. unfold active_inst in H0. rewrite H0 in Hid. exact Hid.
Qed.
Print Assumptions reselect_is_new_instance.

(* 5. A cycle ends in the "no branch registered" error exactly when the key
      ticked with a value that has to be selected, matches no case, and there
      is no default branch. *)
Theorem unmatched_is_error : forall sp h D start end_,
  (s_nts sp <= 2)%nat -> sp_bounded D sp -> 1 <= start -> end_ <= MAX_DT -> end_ + D <= MAX_DT ->
  forall n,
  let m := reach sp h start end_ n in
  cycle_due sp h end_ m ->
  let t := mirror_next sp h m in
  (m_err (mirror_cycle sp h t m) = 2 <->
   exists k, tick_of sp h 0 t = Some k /\ need_switch sp (w_akey (m_w m)) k = true /\
             (forall b, ~ In (k, b) (s_cases sp)) /\ s_default sp = None).
Proof.
  intros sp h D start end_ Hn Hsp Hs _ HeD n m Hd t.
  pose proof (reach_due_good sp h D end_ Hn Hsp HeD start Hs n Hd) as G.
  destruct (cycle_start sp h D end_ Hn Hsp HeD m G Hd) as (Eabs & Hkt & Hak & _). fold t in Eabs, Hkt.
  change (m_err (mirror_cycle sp h t m)) with (s_err (abs (mirror_cycle sp h t m))). rewrite Eabs.
  unfold spec_se, spec_switch. rewrite Hkt. cbn [s_cur s_err]. rewrite Hak.
  destruct (tick_of sp h 0 t) as [k|];
    [destruct (need_switch sp (w_akey (m_w m)) k) eqn:Eneed; [destruct (select_branch sp k) eqn:Esel|]|];
    cbn [s_err Z.eqb negb]; rewrite ?spec_rec_err, ?spec_eval_err; cbn [s_err].
  - split; [discriminate|]. intros (k' & [= <-] & _ & Hk'). apply select_branch_none in Hk'. congruence.
  - split; [intros _; exists k; split; [reflexivity|split; [exact Eneed|apply select_branch_none; exact Esel]]|reflexivity].
  - split; [discriminate|]. intros (k' & [= <-] & Hk' & _). congruence.
  - split; [discriminate|]. intros (k' & [=] & _).
Qed.
Print Assumptions unmatched_is_error.

(* 6. The A/B slot protocol, over all key histories: the mirror never raises
      "previous graph does not occupy the reusable slot" (4) nor destroys a
      running graph (6); in every reachable state the slot the next switch will
      reuse holds nothing or a stopped graph, and is the recorded previous slot. *)
Theorem slot_protocol_safe : forall sp h D start end_ n,
  (s_nts sp <= 2)%nat -> sp_bounded D sp -> 1 <= start -> end_ <= MAX_DT -> end_ + D <= MAX_DT ->
  let m := reach sp h start end_ n in
  m_err m <> 4 /\ m_err m <> 6 /\
  (m_err m = 0 ->
   slots_ok (m_w m) /\
   match getg (reuse_slot (m_w m)) (m_w m) with Some c => c_started c = false | None => True end /\
   match w_prev (m_w m) with Some p => p = reuse_slot (m_w m) | None => True end).
Proof.
  intros sp h D start end_ n Hn Hsp Hs _ HeD m.
  destruct (reach_good sp h D end_ Hn Hsp HeD start Hs n) as [HG Herr]. fold m in HG, Herr.
  split; [lia|]. split; [lia|]. intros E0. pose proof (good_slots D m (HG E0)) as Hsl.
  split; [exact Hsl|]. unfold slots_ok in Hsl. unfold reuse_slot.
  destruct (w_active (m_w m)) as [a|]; [|rewrite Hsl; cbn; auto].
  destruct Hsl as [_ Ho]. destruct (getg (negb a) (m_w m)); [destruct Ho as [A ->]|rewrite Ho]; auto.
Qed.
Print Assumptions slot_protocol_safe.

(* The only error a state of [reach] can carry is "unmatched key" (2), and without it the
   invariant holds. *)
Theorem reachable_errors : forall sp h D start end_ n,
  (s_nts sp <= 2)%nat -> sp_bounded D sp -> 1 <= start -> end_ <= MAX_DT -> end_ + D <= MAX_DT ->
  (m_err (reach sp h start end_ n) = 0 -> Good D (reach sp h start end_ n)) /\
  (m_err (reach sp h start end_ n) = 0 \/ m_err (reach sp h start end_ n) = 2).
Proof. intros. apply reach_good; assumption. Qed.
Print Assumptions reachable_errors.

(* The boundedness hypothesis holds of a decoded case whose table asks for timer delays of at
   most D and start delays within 0 .. D: what gen/switch.py draws; [decode] and [case_ok] do
   not check it. *)
Theorem harness_cases_are_covered : forall D d,
  1 <= D -> Forall (fun p => p_d p <= D /\ 0 <= p_sd p <= D) (d_tab d) -> sp_bounded D (spec_of d).
Proof.
  intros D d H1 Hf.
  assert (Hb : forall sl uk, body_bounded D (br_body (mk_branch d sl uk))).
  { intros. apply table_bounded; destruct (nth_in_or_default (Z.to_nat sl) (d_tab d) dflt_bp) as [Hin| ->];
      try (cbn; lia); rewrite Forall_forall in Hf; apply (Hf _ Hin). }
  apply sp_bounded_intro; cbn [spec_of s_cases s_default].
  - apply Forall_map, Forall_forall. intros; apply Hb.
  - destruct (d_dflt d) as [[sl uk]|]; [apply Hb|exact I].
Qed.
Print Assumptions harness_cases_are_covered.

(* key 1 -> a running sum, key 2 -> a timer body (arms now+3 on every tick, emits
   when it fires), default -> a self-scheduling ticker taking the key. *)
Definition ex_acc    : bparams := mkBP false true false false false 1 0 1 0 1 0 0 false 0.
Definition ex_timer  : bparams := mkBP false false true true false 3 100 1 0 1 0 0 false 0.
Definition ex_ticker : bparams := mkBP true true true false true 2 200 1 1 0 0 1 false 0.
Definition ex_sp : swspec :=
  mkSw 1 false [(1, mkBr false (table_body ex_acc)); (2, mkBr false (table_body ex_timer))]
       (Some (mkBr true (table_body ex_ticker))) false.
Definition ex_sp_nodefault : swspec := mkSw 1 false (s_cases ex_sp) None false.
(* a ticks at 1,3,5,7; key: 1 at 2, 2 at 4 (timer armed for 7), 1 at 6 (third
   activation: slot 0 is reused, the timer of the stopped instance is pending),
   9 at 8 (default / unmatched) *)
Definition ex_h : hist :=
  [(1, 1, 5); (0, 2, 1); (1, 3, 6); (0, 4, 2); (1, 5, 7); (0, 6, 1); (1, 7, 8); (0, 8, 9); (1, 9, 1)].

Example ex_bounded : sp_bounded 3 ex_sp /\ sp_bounded 3 ex_sp_nodefault.
Proof.
  split; apply sp_bounded_intro; simpl;
    try (repeat (apply Forall_cons; [apply table_bounded; simpl; lia|]); apply Forall_nil);
    try (apply table_bounded; simpl; lia); exact I.
Qed.

(* the hypotheses of theorems 2, 4, 5 are met: after 5 cycles the third selection
   (key 1 again, re-using slot 0) is due *)
Example ex_third_switch_due :
  let m := reach ex_sp ex_h 1 20 5 in
  cycle_due ex_sp ex_h 20 m /\ mirror_next ex_sp ex_h m = 6 /\
  tick_of ex_sp ex_h 0 6 = Some 1 /\ need_switch ex_sp (w_akey (m_w m)) 1 = true /\
  w_active (m_w m) = Some true /\ w_prev (m_w m) = Some false /\ reuse_slot (m_w m) = false /\
  (exists c, getg true (m_w m) = Some c /\ events (i_sch (c_inst c)) = [(7, 0); (8, 0)]) /\
  (exists k0 i0, active_inst m = Some (k0, i0) /\ k0 = 2 /\ i_id i0 = 1).
Proof.
  intros m.
  (* everything asked of [m] is small: it is computed once, then [m] is forgotten *)
  assert (E : (fun m => (m_err m, mirror_next ex_sp ex_h m, w_akey (m_w m), w_active (m_w m), w_prev (m_w m),
                         match w_g1 (m_w m) with Some c => events (i_sch (c_inst c)) | None => [] end,
                         match active_inst m with Some (k0, i0) => Some (k0, i_id i0) | None => None end)) m =
              (0, 6, Some 2, Some true, Some false, [(7, 0); (8, 0)], Some (2, 1))) by (vm_compute; reflexivity).
  clearbody m. injection E as Eerr Enext Ekey Eact Eprev Eev Ecur.
  unfold cycle_due, reuse_slot. rewrite Eerr, Enext, Ekey, Eact, Eprev.
  split; [split; [reflexivity|split; [discriminate|reflexivity]]|]. do 6 (split; [reflexivity|]). split.
  - cbn [getg]. destruct (w_g1 (m_w m)) as [c|]; [exists c; split; [reflexivity|exact Eev]|discriminate].
  - destruct (active_inst m) as [[k0 i0]|]; [|discriminate]. injection Ecur as -> Hid. exists 2, i0. auto.
Qed.

(* the run: output ticks 5, 11 (branch 1), nothing from the timer branch before it
   is replaced at 6 (its timers at 7 and 8 never fire), then the FRESH running sum
   7, 15 (not 18, 26), then the default branch; mirror and specification agree *)
Example ex_run :
  map (fun l => (nthz 1 l, nthz 4 l)) (rev (outs_of (m_log (mirror_run ex_sp ex_h 1 20 30)))) =
    [(2, 5); (3, 11); (6, 7); (7, 15); (8, 218); (9, 211); (10, 212); (12, 213); (14, 214); (16, 215); (18, 216)] /\
  s_outs (spec_run ex_sp ex_h 1 20 30) = outs_of (m_log (mirror_run ex_sp ex_h 1 20 30)) /\
  m_err (mirror_run ex_sp ex_h 1 20 30) = 0.
Proof. vm_compute. repeat split; reflexivity. Qed.

(* TSS output, reload_on_ticked, ONE branch that publishes its input: the key re-ticks at 4
   while the set is {1,2,3} and the held input is 3.  The same branch graph is rebuilt; the
   hypotheses of theorem 2b hold there, the output at 4 is {3} with removed {1,2} (3 is
   re-published, so it is in neither added nor removed), and 4 joins at 5. *)
Definition ex_pub : bparams := mkBP false true false false false 1 0 0 1 0 0 0 false 0.
Definition ex_set_sp : swspec := mkSw 1 true [(1, mkBr false (table_body ex_pub))] None true.
Definition ex_set_h : hist := [(0, 1, 1); (1, 1, 1); (1, 2, 2); (1, 3, 3); (0, 4, 1); (1, 5, 4)].
Example ex_same_branch_rebuilt :
  let m := reach ex_set_sp ex_set_h 1 10 3 in
  cycle_due ex_set_sp ex_set_h 10 m /\ mirror_next ex_set_sp ex_set_h m = 4 /\
  tick_of ex_set_sp ex_set_h 0 4 = Some 1 /\ need_switch ex_set_sp (w_akey (m_w m)) 1 = true /\
  w_akey (m_w m) = Some 1 /\ o_set (m_out m) = [1; 2; 3] /\
  o_set (m_out (mirror_cycle ex_set_sp ex_set_h 4 m)) = [3] /\
  rev (outs_of (m_log (mirror_run ex_set_sp ex_set_h 1 10 30))) =
    [[21; 1; 1; 1; 1; 1; 0; 1; 1]; [21; 2; 1; 1; 2; 1; 0; 1; 2; 2]; [21; 3; 1; 1; 3; 1; 0; 1; 2; 3; 3];
     [21; 4; 1; 1; 1; 0; 2; 3; 1; 2]; [21; 5; 1; 1; 2; 1; 0; 3; 4; 4]].
Proof. vm_compute. repeat split; try discriminate; reflexivity. Qed.

(* an unmatched key without default: the error case of theorem 5 is reachable *)
Example ex_unmatched :
  let m := reach ex_sp_nodefault ex_h 1 20 7 in
  cycle_due ex_sp_nodefault ex_h 20 m /\ tick_of ex_sp_nodefault ex_h 0 (mirror_next ex_sp_nodefault ex_h m) = Some 9 /\
  m_err (mirror_cycle ex_sp_nodefault ex_h (mirror_next ex_sp_nodefault ex_h m) m) = 2 /\
  m_err (mirror_run ex_sp_nodefault ex_h 1 20 30) = 2.
Proof. vm_compute. repeat split; try discriminate; reflexivity. Qed.

(* a body whose START hook arms a LATER timer (now + 3) and which reads a held input: it is
   evaluated in the selection cycle (3) on the sampled input, and again when its timer fires (6) *)
Definition ex_startarm : bparams := mkBP true true true false false 1 0 0 1 0 0 0 false 3.
Definition ex_sa_sp : swspec := mkSw 1 false [(1, mkBr false (table_body ex_startarm))] None false.
Example ex_start_armed_timer_does_not_hide_sampling :
  rev (outs_of (m_log (mirror_run ex_sa_sp [(1, 1, 5); (0, 3, 1)] 1 10 30))) = [[20; 3; 1; 1; 5]; [20; 6; 1; 1; 5]] /\
  sp_bounded 3 ex_sa_sp.
Proof.
  split; [vm_compute; reflexivity|].
  apply sp_bounded_intro; simpl; [repeat (apply Forall_cons; [apply table_bounded; simpl; lia|]); apply Forall_nil|exact I].
Qed.
