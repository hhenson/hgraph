(* C15 — captured errors tick once, where they happen, and do not disturb the rest.

   Model: Nested.v.  An exception is the world's [w_err] (code 100+a = runtime_error("hgv boom a"),
   3 = "Graph cannot schedule a node in the past"); every step is the identity while it is set.
   node.cpp evaluate_impl with captures_errors = [capture] inside [eval_plain]; try_except_node.cpp
   try_except_evaluate_impl = [caught] then [pull] inside [eval_nested]; graph.cpp evaluate_impl's
   cursor / evaluation_failed / resuming = [eval_graph] (rr = true: the repaired rule of /repo commit
   "graph evaluate must not resume mid-cycle after a failed cycle"; rr = false: the rule before it).
   All statements are universal over trees, behaviours and worlds. *)
Require Import Base Sched Nested NestedWitness NestedFacts NestedInv NestedOnce NestedMsg.

(* node-level capture: an exception e raised by the user code of a capturing node becomes exactly one
   tick of THAT node's error output, stamped with the current time and carrying e; no other error
   output changes; the exception is cleared *)
Theorem captured_error_one_tick_same_cycle :
  forall T, parents_lt T -> forall g i now w e,
    c_kind (ncfg_at T g i) = 3 -> w_err w = e -> e <> 0 ->
    (g < length (w_gs w))%nat -> (i < length (g_nodes (gat g w)))%nat ->
    let w' := capture T g i now w in
    w_err w' = 0
    /\ errp (node_at g i w') = (Some e, now)
    /\ forall g' i', (g', i') <> (g, i) -> errp (node_at g' i' w') = errp (node_at g' i' w).
Proof.
  intros T HP g i now w e Hk He Hne. unfold capture, ok. rewrite Hk, He. replace (e =? 0) with false by lia. simpl.
  rewrite <- He. apply error_tick; auto.
Qed.
Print Assumptions captured_error_one_tick_same_cycle.

(* the whole evaluation of a capturing node whose user code throws e: the tick is there after the
   evaluation, at this cycle's time, and the scheduler re-arm still ran (on the captured state) *)
Theorem captured_error_evaluation :
  forall T beh, parents_lt T -> forall g i w e,
    c_kind (ncfg_at T g i) = 3 -> n_started (node_at g i w) = true ->
    (match c_ins (ncfg_at T g i) with [] => true | _ => ready (ncfg_at T g i) (now_of g w) w end) = true ->
    w_err (run_user T beh g i w) = e -> e <> 0 ->
    (g < length (w_gs w))%nat -> (i < length (g_nodes (gat g w)))%nat ->
    let now := now_of g w in
    let w1 := capture T g i now (run_user T beh g i w) in
    eval_plain T beh g i w
      = rearm T g i (c_sched (ncfg_at T g i) && is_scheduled_now now (n_sch (node_at g i w))) now w1
    /\ w_err w1 = 0
    /\ errp (node_at g i (eval_plain T beh g i w)) = (Some e, now).
Proof.
  intros T beh HP g i w e Hk Hs Hr He Hne Lg Li. cbv zeta.
  assert (K : Keep w (run_user T beh g i w)) by (apply Keep_step; auto with step).
  destruct (captured_error_one_tick_same_cycle T HP g i (now_of g w) (run_user T beh g i w) e Hk He Hne) as (E0 & E1 & _).
  { rewrite (proj1 K). exact Lg. }
  { rewrite (kg_nnodes _ _ (proj2 K g)). exact Li. }
  set (w1 := capture T g i (now_of g w) (run_user T beh g i w)) in *.
  assert (Ee : eval_plain T beh g i w
               = rearm T g i (c_sched (ncfg_at T g i) && is_scheduled_now (now_of g w) (n_sch (node_at g i w))) (now_of g w) w1).
  { unfold eval_plain. rewrite Hs. cbn [negb]. rewrite Hr. fold w1. unfold ok. rewrite E0. reflexivity. }
  repeat split; auto. rewrite Ee, <- E1. apply (ErrEq_step w1). auto with step.
Qed.
Print Assumptions captured_error_evaluation.

(* exactly one: an evaluation whose user code does not throw changes no error output at all *)
Theorem no_error_no_tick :
  forall T beh g i w, w_err (run_user T beh g i w) = 0 -> ErrEq w (eval_plain T beh g i w).
Proof.
  intros T beh g i w H. apply ErrEq_step, step_eval_plain_if; auto with step.
  rewrite capture_none by exact H. auto with step.
Qed.
Print Assumptions no_error_no_tick.

(* try_except: whatever exception e escapes the child graph's evaluation becomes exactly one tick of the
   try_except node's `exception` field at the current time; no other error output changes; it is cleared *)
Theorem try_except_one_tick_same_cycle :
  forall T, parents_lt T -> forall g i now w e,
    w_err w = e -> e <> 0 ->
    (g < length (w_gs w))%nat -> (i < length (g_nodes (gat g w)))%nat ->
    let w' := caught T g i now w in
    w_err w' = 0
    /\ errp (node_at g i w') = (Some e, now)
    /\ forall g' i', (g', i') <> (g, i) -> errp (node_at g' i' w') = errp (node_at g' i' w).
Proof.
  intros T HP g i now w e He Hne. unfold caught, ok. rewrite He. replace (e =? 0) with false by lia. simpl.
  rewrite <- He. apply error_tick; auto.
Qed.
Print Assumptions try_except_one_tick_same_cycle.

Theorem try_except_no_error_no_tick :
  forall T g i now w, w_err w = 0 -> caught T g i now w = w.
Proof. intros T g i now w H. unfold caught, ok. rewrite H. reflexivity. Qed.
Print Assumptions try_except_no_error_no_tick.

(* CARRYING THE EXCEPTION'S MESSAGE, at any depth.  The error slot carries the message id (100+a for
   "hgv boom a", 2 for a non-std exception = "unknown error", 3 for the engine's schedule-in-the-past).
   Whatever code leaves the evaluation of a graph - with any number of plain nested levels below, none of
   them a try_except or a re-entering owner - is 9 / 3 (the engine's own tail codes) or the code raised by
   the evaluation of ONE non-nested node from an error-free world: no nesting level rewrites it. *)
Theorem message_not_rewritten_by_nesting :
  forall T beh, wf_tree T -> forall c rr, no_try_from c T -> forall f g t w,
    (c <= g)%nat -> ok w = true -> w_err (eval_graph f T beh rr g t w) <> 0 ->
    origin T beh (w_err (eval_graph f T beh rr g t w)).
Proof. intros T beh HT c rr HN f. exact (eval_graph_origin T beh HT c rr HN f). Qed.
Print Assumptions message_not_rewritten_by_nesting.

(* ... hence the message ticked by try_except is exactly the message thrown, whatever depth lies between *)
Theorem try_except_ticks_the_thrown_message :
  forall T beh, wf_tree T -> forall rr f g i now w e,
    no_try_from (c_child (ncfg_at T g i)) T ->
    ok w = true ->
    let w1 := eval_graph f T beh rr (c_child (ncfg_at T g i)) now w in
    w_err w1 = e -> e <> 0 ->
    (g < length (w_gs w1))%nat -> (i < length (g_nodes (gat g w1)))%nat ->
    errp (node_at g i (caught T g i now w1)) = (Some e, now) /\ w_err (caught T g i now w1) = 0 /\ origin T beh e.
Proof.
  intros T beh HT rr f g i now w e HN Hok w1 He Hne Lg Li.
  destruct (try_except_one_tick_same_cycle T (proj1 HT) g i now w1 e He Hne Lg Li) as (A & B & _).
  split; [exact B|split; [exact A|]]. rewrite <- He.
  apply (message_not_rewritten_by_nesting T beh HT (c_child (ncfg_at T g i)) rr HN f); auto. fold w1. rewrite He. exact Hne.
Qed.
Print Assumptions try_except_ticks_the_thrown_message.

(* the capture leaves no error behind (above: w_err = 0), the notification of the error output's readers
   cannot fail, and the pull after a catch cannot fail while the child's cache is not behind the clock *)
Theorem run_continues_notify :
  forall T, parents_lt T -> forall g i code now w, w_err (write_err T g i code now w) = w_err w.
Proof. exact write_err_err. Qed.
Print Assumptions run_continues_notify.

Theorem run_continues_pull :
  forall T, parents_lt T -> forall g i c w, now_of g w <= g_nst (gat c w) -> w_err (pull T g i c w) = w_err w.
Proof. intros T HT g i c w H. unfold pull. destruct (_ =? _); auto. apply sched_at_top_err; auto. Qed.
Print Assumptions run_continues_pull.

(* non_interference, FULL STATEMENT (not proved; carried by the paired faulty / fault-free runs of the correspondence and
   the oracle's `interference` check): for every program, every node not reachable from the failing
   node through edges, bindings or forwarding has the same sequence of evaluations, inputs read and
   values emitted in the run with the fault as in the run without it.
   What is missing: a trace-level simulation between the two runs (their root cycle sets differ).
   Proved: the footprint of a capture.  One error tick changes NO other node at all, and of the failing
   node neither its value output, nor its scheduler, run counter or lifecycle flag; all it adds is the
   scheduling of the readers of that error output. *)
Theorem non_interference_footprint :
  forall T g i code now w g' i',
    let n := node_at g' i' w in
    let n' := node_at g' i' (write_err T g i code now w) in
    ((g', i') <> (g, i) -> n' = n)
    /\ n_val n' = n_val n /\ n_lmt n' = n_lmt n /\ n_sch n' = n_sch n /\ n_runs n' = n_runs n /\ n_started n' = n_started n.
Proof. exact write_err_footprint. Qed.
Print Assumptions non_interference_footprint.

(* After a cycle of a (nested) graph that ended with an exception - whichever node index failed, i.e.
   wherever the evaluation cursor was left - the next evaluation is the same as from a reset cursor: a
   fresh cycle that announces itself, resets the cache and scans every node from index 0. *)
Theorem recovers_next_cycle :
  forall f T beh g t w k,
    g_failed (gat g w) = true ->
    eval_graph (S f) T beh true g t (upd_g g (g_set_cursor k) w) = eval_graph (S f) T beh true g t w.
Proof.
  intros f T beh g t w k Hf. rewrite !eval_graph_S.
  rewrite !cycle_begin_fresh by (unfold resuming; rewrite ?(gat_upd_proj g_failed) by reflexivity; rewrite Hf; reflexivity).
  rewrite (upd_g_twice g _ _ (fun s => g_set_cursor 0 (g_set_nst MAX_DT (g_set_flags (g_started s) true false (g_set_now t s))))); auto.
Qed.
Print Assumptions recovers_next_cycle.

(* History (DESIGN.md 8.1): under the rule before the repair the statement is false.  Witness: try_except
   over the child [ident(x)+100; boom], x = 1,2,3,4, boom (child index 1) throwing on its 2nd run.
   The recorder of `out` sees 101,-,-,104 under the old rule and 101,-,103,104 under the repaired one;
   both see exactly one error tick (code 107) at t = 2. *)
Theorem recovers_next_cycle_old_rule_refuted :
  exists case : wire,
    rec_ticks 0 2 (run_nest_rule false case) = [(1, 101); (4, 104)]
    /\ rec_ticks 0 2 (run_nest_rule true case) = [(1, 101); (3, 103); (4, 104)]
    /\ rec_ticks 0 3 (run_nest_rule false case) = [(2, 107)]
    /\ rec_ticks 0 3 (run_nest_rule true case) = [(2, 107)].
Proof. exists boom_ident_case. vm_compute. auto. Qed.
Print Assumptions recovers_next_cycle_old_rule_refuted.

(* the old rule, stated: with the cursor left at k <> 0 the next cycle skips the per-cycle set-up and
   starts its scan at k *)
Theorem old_rule_resumes_at_stale_cursor :
  forall f T beh g t w,
    g_failed (gat g w) = true -> g_cursor (gat g w) <> 0 -> g_cursor (gat g w) <> -1 ->
    eval_graph (S f) T beh false g t w =
    (let w0 := upd_g g (fun s => g_set_flags (g_started s) true false (g_set_now t s)) w in
     let n := length (gc_nodes (gcfg_at T g)) in
     let st := Z.to_nat (g_cursor (gat g w0)) in
     let w2 := scan T beh (eval_graph f T beh false) g st (n - st) w0 in
     if negb (ok w2) then upd_g g (fun s => g_set_flags (g_started s) false (negb (w_err w2 =? PAUSED)) s) w2
     else
       let w3 := upd_g g (g_set_cursor 0) w2 in
       let w4 := match gc_parent (gcfg_at T g) with
                 | None => w3
                 | Some (pg, pn) => let nx := g_nst (gat g w3) in
                                    if nx <? MAX_DT then sched_at (length T) T pg pn nx w3 else w3
                 end in
       upd_g g (fun s => g_set_flags (g_started s) false (g_failed s) s) w4).
Proof.
  intros f T beh g t w Hf H0 H1. rewrite eval_graph_S. unfold cycle_begin, resuming.
  destruct (Z.eqb_spec (g_cursor (gat g w)) 0); [contradiction|]. destruct (Z.eqb_spec (g_cursor (gat g w)) (-1)); [contradiction|].
  reflexivity.
Qed.
Print Assumptions old_rule_resumes_at_stale_cursor.

(* non-vacuity: a reachable state with a failed cycle behind it and the cursor on a non-zero index: the child graph of
   the witness after the cycle at t = 2 (run until end_time 3) *)
Example failed_state_inhabited :
  let T := decode boom_ident_case in
  let w := run_sim T (script_beh boom_ident_case) true 1 3 3 in
  w_err w = 0 /\ g_failed (gat 1 w) = true /\ g_cursor (gat 1 w) = 1
  /\ errp (node_at 0 1 w) = (Some 107, 2).
Proof. vm_compute. repeat split; reflexivity. Qed.

(* the hypotheses of the capture theorems are met: a world carrying an exception, a capturing node *)
Example capture_hypotheses_inhabited :
  let T := [mkGC None [mkCfg 3 false false true 0 [] 0 (-1) [] (fun _ => 0)]] in
  let w := set_err 105 (init_world T) in
  parents_lt T /\ c_kind (ncfg_at T 0 0) = 3 /\ w_err w = 105 /\ (0 < length (w_gs w))%nat
  /\ (0 < length (g_nodes (gat 0 w)))%nat
  /\ errp (node_at 0 0 (capture T 0 0 7 w)) = (Some 105, 7) /\ w_err (capture T 0 0 7 w) = 0.
Proof.
  repeat split; try (vm_compute; reflexivity); try (vm_compute; lia).
  intros g pg pn. destruct g as [|[|g]]; vm_compute; intros H; discriminate.
Qed.

(* two levels: the thrower's message (107 = "hgv boom 7") is what the try_except two levels above ticks, at the
   throw's time (t = 2), and the run continues to the end *)
Example message_through_two_levels :
  let T := decode try_nested_boom_case in
  let w := run_sim T (script_beh try_nested_boom_case) true 1 9 9 in
  w_err w = 0 /\ errp (node_at 0 1 w) = (Some 107, 2) /\ c_kind (ncfg_at T 0 1) = 2 /\ c_kind (ncfg_at T 1 0) = 1.
Proof. vm_compute. repeat split; reflexivity. Qed.

