(* Props/C06.v — property C06 (wiring half):
     "Behaviour depends on the dataflow, not on wiring order or node sharing: wiring the same nodes
      and connections in any statement order that respects port availability yields identical
      output streams; the same node definition with equal inputs and equal scalars may share one
      instance without changing any output, whereas nodes that differ in any input, scalar or
      resolved type, and all sink nodes, always remain distinct."
   Model: Intern.v, the mirror of Wiring::add_node / add_unique_node / add_rank_dependency /
   delayed_binding and of the part of Wiring::finish that builds the rank graph; Rank.v for the
   ranking itself.  A program is a list of statements (label = position); an order is the sequence
   of labels in which they are executed.  "The dataflow" of statement l is its unfolding
   [punf prog fuel l]: definition, resolved types, scalars and, recursively, what feeds each input
   — a function of the program alone.  A node whose behaviour is a function of its definition,
   types, scalars and input histories therefore produces a stream that is a function of its
   unfolding; the theorems below show the wired graph has, at every statement, exactly the
   program's unfolding — whatever the order, with or without sharing.  (Equality of the streams
   themselves on the implementation is checked by the correspondence; its derivation from a
   denotational semantics belongs to the engine family.) *)
Require Import Base Rank RankLemmas RankFacts Intern InternFacts InternWf InternShare.
From Coq Require Import Arith Permutation.

(* The key comparison used by the intern table is equality of the whole key
   (definition, resolved schemas, InputKey list, scalars): nothing is left out.  Since the repair
   (hooks/fix_passive_marker_in_key.patch) an InputKey carries the passive marker of its slot too. *)
Theorem intern_key_injective : forall a b : key, key_eqb a b = true <-> a = b.
Proof. exact InternFacts.key_eqb_eq. Qed.
Print Assumptions intern_key_injective.

(* Two calls get equal keys iff they agree on the definition, every resolved schema, the scalars and
   the inputs after the code's normalisation of target paths ... *)
Theorem make_key_injective : forall d ins d' ins',
  make_key d ins = make_key d' ins' <->
  nd_def d = nd_def d' /\ nd_sch d = nd_sch d' /\ nd_scal d = nd_scal d' /\ key_inputs ins = key_inputs ins'.
Proof. exact InternFacts.make_key_inj. Qed.
Print Assumptions make_key_injective.

(* ... and equal normalised inputs means: same number of inputs and, slot by slot, the same source
   (producing instance with path / placeholder / structure), the same rank flag and the same
   target path, where an empty target path stands for the slot's own index ([0 + j]: slots are
   counted from 0).  So swapped inputs, a different producer, a different path, a different rank flag
   or a different PASSIVE marker (`passive(port)`) all change the key. *)
Theorem inputs_equal_slotwise : forall ins ins',
  key_inputs ins = key_inputs ins' <->
  length ins = length ins' /\
  forall j a b, nth_error ins j = Some a -> nth_error ins' j = Some b ->
    in_src a = in_src b /\ in_rank a = in_rank b /\ in_passive a = in_passive b /\
    (match in_tpath a with [] => [(0 + j)%nat] | p => p end) = (match in_tpath b with [] => [(0 + j)%nat] | p => p end).
Proof. exact (InternFacts.norm_from_eq 0). Qed.
Print Assumptions inputs_equal_slotwise.

(* Two statements that were given the same node are configured identically — same definition,
   same resolved schemas, same scalars, same inputs (by identity of the producing NODE, path, target
   slot, rank flag, passive marker; [eff_inputs]: add_unique_node ignores markers) — and, if they
   are different statements, both are shareable (have an output, were not added as unique).
   Contrapositive: statements differing in any input, scalar or resolved type remain distinct. *)
Theorem shared_only_if_identical : forall sharing prog order w l1 l2 i,
  NoDup order -> wire_prog sharing prog order = Ok w ->
  alookup l1 (w_env w) = Some i -> alookup l2 (w_env w) = Some i ->
  exists d1 ins1 r1 d2 ins2 r2,
    nth_error prog l1 = Some (StNode d1 ins1) /\ nth_error prog l2 = Some (StNode d2 ins2) /\
    resolve_inputs (w_env w) (w_phs w) ins1 = Some r1 /\ resolve_inputs (w_env w) (w_phs w) ins2 = Some r2 /\
    nd_def d1 = nd_def d2 /\ nd_sch d1 = nd_sch d2 /\ nd_scal d1 = nd_scal d2 /\
    key_inputs (eff_inputs d1 r1) = key_inputs (eff_inputs d2 r2) /\
    (l1 <> l2 -> interns d1 = true /\ interns d2 = true).
Proof.
  intros sharing prog order w l1 l2 i Hnd Hw H1 H2. pose proof (wire_prog_inv _ _ _ _ Hnd Hw) as I.
  destruct (wi_env _ _ _ I l1 i H1) as (d1 & ins1 & r1 & it1 & A1 & B1 & C1 & D1 & E1 & F1 & G1 & N1 & L1).
  destruct (wi_env _ _ _ I l2 i H2) as (d2 & ins2 & r2 & it2 & A2 & B2 & C2 & D2 & E2 & F2 & G2 & N2 & L2).
  rewrite B1 in B2. injection B2 as <-.
  exists d1, ins1, r1, d2, ins2, r2. repeat (split; [congruence|]).
  (* both statements have the flag of the instance; one made outside the table carries the label of its one statement *)
  intros Hne. destruct (interns d1) eqn:X; [split; congruence|]. destruct Hne. rewrite <- L1, L2; congruence.
Qed.
Print Assumptions shared_only_if_identical.

(* In particular two different statements that share a node carry the same passive markers: nodes
   differing in the marker of any input remain distinct. *)
Theorem shared_only_if_same_markers : forall sharing prog order w l1 l2 i d1 ins1 d2 ins2,
  NoDup order -> wire_prog sharing prog order = Ok w -> l1 <> l2 ->
  alookup l1 (w_env w) = Some i -> alookup l2 (w_env w) = Some i ->
  nth_error prog l1 = Some (StNode d1 ins1) -> nth_error prog l2 = Some (StNode d2 ins2) ->
  map in_passive ins1 = map in_passive ins2.
Proof.
  intros sharing prog order w l1 l2 i d1 ins1 d2 ins2 Hnd Hw Hne H1 H2 N1 N2.
  destruct (shared_only_if_identical _ _ _ _ _ _ _ Hnd Hw H1 H2) as (? & ? & r1 & ? & ? & r2 & A1 & A2 & R1 & R2 & _ & _ & _ & K & Hi).
  rewrite N1 in A1. injection A1 as <- <-. rewrite N2 in A2. injection A2 as <- <-.
  destruct (Hi Hne) as [I1 I2]. unfold eff_inputs in K.
  rewrite (interns_not_uniq _ I1), (interns_not_uniq _ I2) in K.
  apply (f_equal (map in_passive)) in K. unfold key_inputs, norm_inputs in K. rewrite !norm_from_passive in K.
  rewrite <- (resolve_inputs_passive _ _ _ _ R1), <- (resolve_inputs_passive _ _ _ _ R2). exact K.
Qed.
Print Assumptions shared_only_if_same_markers.

(* Sinks (no output schema) and nodes added with add_unique_node never share a node with any other
   statement. *)
Theorem sinks_distinct : forall sharing prog order w l1 l2 i d ins,
  NoDup order -> wire_prog sharing prog order = Ok w ->
  nth_error prog l1 = Some (StNode d ins) -> interns d = false ->
  alookup l1 (w_env w) = Some i -> alookup l2 (w_env w) = Some i -> l1 = l2.
Proof.
  intros sharing prog order w l1 l2 i d ins Hnd Hw Hn Hi H1 H2.
  destruct (shared_only_if_identical _ _ _ _ _ _ _ Hnd Hw H1 H2) as (? & ? & ? & ? & ? & ? & A1 & _ & _ & _ & _ & _ & _ & _ & Hs).
  rewrite Hn in A1. injection A1 as <- <-.
  destruct (Nat.eq_dec l1 l2) as [E|Hne]; [exact E|]. destruct (Hs Hne). congruence.
Qed.
Print Assumptions sinks_distinct.

(* Sharing is COMPLETE (sharing on): two executed statements that intern and have equal keys — same
   definition, schemas, scalars, inputs resolved to the same nodes — get ONE node, whatever was executed
   in between.  In particular a consumer of the first one's hidden error output
   (exception_time_series(p): Wiring::activate_error_capture amends p's instance in place) wired between
   two equal statements does not separate them: error capture is not part of the key and does not
   move the instance in the table ([captured] is read off the wired inputs). *)
Theorem equal_keys_share : forall prog order w l1 l2 k,
  NoDup order -> wire_prog true prog order = Ok w -> In l1 order -> In l2 order ->
  shared_key prog w l1 k -> shared_key prog w l2 k ->
  exists i, alookup l1 (w_env w) = Some i /\ alookup l2 (w_env w) = Some i.
Proof. exact InternShare.equal_keys_share. Qed.
Print Assumptions equal_keys_share.

(* Whatever the order and whether or not sharing is on, the node a statement is given unfolds, to
   every depth, to the dataflow the PROGRAM ascribes to that statement — passive markers included
   ([TIn] shows the marker in force on each input). *)
Theorem graph_unfolds_to_program : forall sharing prog order w,
  complete_order prog order -> single_bind prog -> wire_prog sharing prog order = Ok w ->
  forall l d ins, nth_error prog l = Some (StNode d ins) ->
  exists i, alookup l (w_env w) = Some i /\ forall fuel, gunf w fuel i = punf prog fuel l.
Proof. exact InternFacts.run_unfolds. Qed.
Print Assumptions graph_unfolds_to_program.

(* Sharing one instance does not change what any statement (in particular any sink) computes from. *)
Theorem intern_preserves_dataflow : forall prog order w_shared w_unshared,
  complete_order prog order -> single_bind prog ->
  wire_prog true prog order = Ok w_shared -> wire_prog false prog order = Ok w_unshared ->
  forall l d ins, nth_error prog l = Some (StNode d ins) ->
  exists i1 i0, alookup l (w_env w_shared) = Some i1 /\ alookup l (w_env w_unshared) = Some i0 /\
                forall fuel, gunf w_shared fuel i1 = gunf w_unshared fuel i0.
Proof. exact InternFacts.intern_preserves_dataflow. Qed.
Print Assumptions intern_preserves_dataflow.

(* Two admissible statement orders of the same program give graphs with equal unfoldings at every
   statement ... *)
Theorem order_independent : forall prog o1 o2 w1 w2,
  complete_order prog o1 -> complete_order prog o2 -> single_bind prog ->
  wire_prog true prog o1 = Ok w1 -> wire_prog true prog o2 = Ok w2 ->
  forall l d ins, nth_error prog l = Some (StNode d ins) ->
  exists i1 i2, alookup l (w_env w1) = Some i1 /\ alookup l (w_env w2) = Some i2 /\
                forall fuel, gunf w1 fuel i1 = gunf w2 fuel i2.
Proof. exact (InternFacts.runs_agree true true). Qed.
Print Assumptions order_independent.

(* The rank graph of any wired state is well formed (every edge joins two instances), so the
   theorems of C01 apply to it unconditionally.  (The graph [compile] ranks is that of the wired
   state with the service rank dependencies added; it is well formed too, [InternWf.compile_graph_wf],
   which is why the two theorems below carry no [rg_wf] hypothesis.) *)
Theorem wired_rank_graph_wf : forall sharing prog order w g,
  wire_prog sharing prog order = Ok w -> rgraph_of w = Some g -> rg_wf g.
Proof. intros sharing prog order w g Hw. exact (InternWf.rgraph_of_wf w g (InternWf.wf_wire_prog sharing prog order w Hw)). Qed.
Print Assumptions wired_rank_graph_wf.

(* What finish compiles, for each order, is a valid ranking of its own rank graph (so by
   C01 every node is evaluated after its producers, in both). *)
Theorem compiled_order_is_ranking : forall prog order w g o es,
  compile prog order = Built w g o es -> kahn g = KOk o /\ is_ranking g o.
Proof. exact InternWf.compile_ranked. Qed.
Print Assumptions compiled_order_is_ranking.

(* A wired program is rejected as cyclic exactly when the rank graph finish builds — the wired state
   with the service rank dependencies applied — has a cycle and no push source with a rank dependency
   (that refusal comes first: [kahn_push_dep]). *)
Theorem compile_rejects_exactly_cycles : forall prog order w sv g,
  wire_prog true prog order = Ok w -> collect_svc prog order (w_env w) svc0 = Ok sv ->
  rgraph_of (finalize w sv) = Some g ->
  (compile prog order = Rejected E_CYCLE <-> cyclic g /\ ~ has_push_dep g).
Proof.
  intros prog order w sv g Hw Hs Hg. unfold compile, finish. rewrite Hw, Hs, Hg.
  rewrite <- (kahn_complete g (compile_graph_wf prog order w sv g Hw Hs Hg)).
  destruct (kahn g); [destruct (emit_from _ 0 _)| |]; split; intros H; (discriminate H || reflexivity).
Qed.
Print Assumptions compile_rejects_exactly_cycles.

(* non-vacuity: a concrete program, evaluated by the kernel *)
Definition dsrc (k : nat) (s : Z) : ndef := {| nd_def := k; nd_sch := [1]; nd_scal := Some [s]; nd_uniq := false; nd_push := false |}.
Definition dadd : ndef := {| nd_def := 3; nd_sch := [1]; nd_scal := None; nd_uniq := false; nd_push := false |}.
Definition dsink : ndef := {| nd_def := 0; nd_sch := [0]; nd_scal := None; nd_uniq := false; nd_push := false |}.
Definition pin (l : nat) : input := {| in_src := SPeer l [] 0; in_tpath := []; in_rank := true; in_passive := false |}.
(* 0: a = src(7)  1: b = src(8)  2: add(a,b)  3: add(a,b) again  4: add(b,a)  5: sink(2)  6: sink(3)  7: sink(4) *)
Definition ex_prog : list stmt :=
  [StNode (dsrc 0 7) []; StNode (dsrc 0 8) []; StNode dadd [pin 0; pin 1]; StNode dadd [pin 0; pin 1];
   StNode dadd [pin 1; pin 0]; StNode dsink [pin 2]; StNode dsink [pin 3]; StNode dsink [pin 4]]%nat.
Definition ex_o1 : list nat := [0; 1; 2; 3; 4; 5; 6; 7]%nat.
Definition ex_o2 : list nat := [1; 0; 4; 3; 2; 7; 6; 5]%nat.

Definition env_of (r : res wst) : list (nat * nat) := match r with Ok w => w_env w | Err _ => [] end.
Definition count_of (r : res wst) : nat := match r with Ok w => length (w_insts w) | Err _ => O end.

(* statements 2 and 3 share a node, 4 (swapped inputs) does not; the three identical sinks stay three *)
Example ex_shared : (alookup 2 (env_of (wire_prog true ex_prog ex_o1)), alookup 3 (env_of (wire_prog true ex_prog ex_o1)),
                     alookup 4 (env_of (wire_prog true ex_prog ex_o1))) = (Some 2, Some 2, Some 3)%nat.
Proof. vm_compute. reflexivity. Qed.
Example ex_counts : (count_of (wire_prog true ex_prog ex_o1), count_of (wire_prog true ex_prog ex_o2),
                     count_of (wire_prog false ex_prog ex_o1)) = (7, 7, 8)%nat.
Proof. vm_compute. reflexivity. Qed.
Example ex_complete1 : NoDup ex_o1 /\ NoDup ex_o2.
Proof. split; apply nodupb_NoDup; vm_compute; reflexivity. Qed.
Example ex_built : match compile ex_prog ex_o2 with Built _ g o _ => rg_wfb g && valid_ranking g o | Rejected _ => false end = true.
Proof. vm_compute. reflexivity. Qed.
(* a loop through a placeholder: rejected; the same loop closed by a rank-free input: built *)
Definition ex_loop (rank : bool) : list stmt :=
  [StPlace; StNode (dsrc 0 1) [];
   StNode dadd [{| in_src := SPeer 1 [] 0; in_tpath := []; in_rank := true; in_passive := false |}; {| in_src := SDelay 0 []; in_tpath := []; in_rank := rank; in_passive := false |}];
   StNode dadd [pin 2]; StBind 0 3 []; StNode dsink [pin 3]]%nat.
Example ex_loop_rejected : compile (ex_loop true) [0; 1; 2; 3; 4; 5]%nat = Rejected E_CYCLE.
Proof. vm_compute. reflexivity. Qed.
Example ex_loop_broken_built : match compile (ex_loop false) [0; 1; 2; 3; 4; 5]%nat with Built _ _ o _ => o | _ => [] end = [0; 1; 2; 3]%nat.
Proof. vm_compute. reflexivity. Qed.
Definition ex_w2 : wst := match wire_prog true ex_prog ex_o2 with Ok w => w | Err _ => w0 end.
Example ex_unfold : gunf ex_w2 3 (match alookup 6 (w_env ex_w2) with Some i => i | None => 99 end) = punf ex_prog 3 6.
Proof. vm_compute. reflexivity. Qed.

(* Before hooks/fix_passive_marker_in_key.patch the key did not contain the passive marker
   ([wire_prog_old], [make_key_old]).  Under that rule the two full-strength statements above fail:
   x = src, y = src, sum(passive(x), y), sum(x, y) share one node, and which markers are in force on
   it — hence the unfolding [gunf], which shows them — depends on the statement order.
   A change that reverts the repair makes the implementation follow [wire_prog_old] again; the
   correspondence and the oracle kind passive_marker_not_in_key then fail (mutants/C06/revert_passive_marker_fix). *)
Theorem passive_marker_distinct_old_rule_refuted :
  exists prog order w l1 l2 i d1 ins1 d2 ins2,
    NoDup order /\ wire_prog_old true prog order = Ok w /\ l1 <> l2 /\
    alookup l1 (w_env w) = Some i /\ alookup l2 (w_env w) = Some i /\
    nth_error prog l1 = Some (StNode d1 ins1) /\ nth_error prog l2 = Some (StNode d2 ins2) /\
    map in_passive ins1 <> map in_passive ins2.
Proof. exact InternFacts.passive_marker_distinct_old_rule_refuted. Qed.
Print Assumptions passive_marker_distinct_old_rule_refuted.

Theorem order_independent_old_rule_refuted :
  exists prog o1 o2 w1 w2 l i1 i2 fuel,
    complete_order prog o1 /\ complete_order prog o2 /\ single_bind prog /\
    wire_prog_old true prog o1 = Ok w1 /\ wire_prog_old true prog o2 = Ok w2 /\
    alookup l (w_env w1) = Some i1 /\ alookup l (w_env w2) = Some i2 /\
    gunf w1 fuel i1 <> gunf w2 fuel i2.
Proof. exact InternFacts.order_independent_old_rule_refuted. Qed.
Print Assumptions order_independent_old_rule_refuted.

(* Under the repaired rule the pair is two nodes, each with its own active list, in either order. *)
Definition ppin (l : nat) : input := {| in_src := SPeer l [] 0; in_tpath := []; in_rank := true; in_passive := true |}.
Definition px_prog : list stmt :=
  [StNode (dsrc 0 7) []; StNode (dsrc 0 8) []; StNode dadd [ppin 0; pin 1]; StNode dadd [pin 0; pin 1];
   StNode dsink [pin 2]; StNode dsink [pin 3]]%nat.
Example px_two_nodes :
  (match compile px_prog [0; 1; 2; 3; 4; 5]%nat with Built w _ _ _ => map (fun it => (i_label it, active_slots it)) (w_insts w) | _ => [] end,
   match compile px_prog [0; 1; 3; 2; 4; 5]%nat with Built w _ _ _ => map (fun it => (i_label it, active_slots it)) (w_insts w) | _ => [] end)
  = ([(0, []); (1, []); (2, [1]); (3, [0; 1]); (4, [0]); (5, [0])],
     [(0, []); (1, []); (3, [0; 1]); (2, [1]); (4, [0]); (5, [0])])%nat.
Proof. vm_compute. reflexivity. Qed.

(* error capture interleaved with duplicate wires: p, a consumer of p's error output, a duplicate q of p,
   in the orders "p err q" and "p q err": q shares p's node in both, and p is captured in both *)
Definition ec_err (l : nat) : input := {| in_src := SPeer l [] 1; in_tpath := []; in_rank := true; in_passive := false |}.
Definition ec_prog : list stmt :=
  [StNode (dsrc 0 7) []; StNode dadd [pin 0]; StNode dadd [pin 0]; StNode dsink [ec_err 1]; StNode dsink [pin 2]]%nat.
Example ec_orders :
  (match wire_prog true ec_prog [0; 1; 3; 2; 4]%nat with Ok w => (alookup 1 (w_env w), alookup 2 (w_env w), length (w_insts w), captured w 1) | Err _ => (None, None, O, false) end,
   match wire_prog true ec_prog [0; 1; 2; 3; 4]%nat with Ok w => (alookup 1 (w_env w), alookup 2 (w_env w), length (w_insts w), captured w 1) | Err _ => (None, None, O, false) end)
  = ((Some 1, Some 1, 4, true), (Some 1, Some 1, 4, true))%nat.
Proof. vm_compute. reflexivity. Qed.
