(* Props/C11.v — property C11: "reduce equals the fold over exactly the currently
   valid elements".  The statements, each with an [exact] or a short proof from ReduceFacts.v.

   The objects: Reduce.v mirrors runtime/reduce_node.cpp (dense leaf maps, power-of-two
   capacity, heap-indexed combine points, resolve_aggregate with its alias descent,
   rebuild_structure's structural pass, the evaluation pass).  Positions are written in
   coordinates: [pos k j u] is the combine point of height j (its subtree spans 2^j
   dense leaves, starting at leaf u * 2^j) in a tree of capacity 2^k.

   FULL STATEMENT AIMED AT (reduce_eq_fold): for every history of add / remove / update
   cycles and every associative f, after every cycle the published root is
   [spec_result f cf vals], vals = the values of the live leaves in dense order.
   WHAT IS PROVED HERE: that, under three restrictions (the first two are hypotheses of every pass,
   cycle and history theorem below, the third is how [run] is written).  The combiner
   is the lifted kernel (c_lifted cf = true).  A declared zero has a value
   (c_has_zero cf = true -> c_zero_valid cf = true): a live zero before its first tick is outside.
   The configuration cf is ONE constant for the whole history, while the model's run_cycle builds
   it anew each cycle for a live zero: a live zero whose value changes is outside as well.
   [reduce_eq_fold] over every list of cycles from the empty reduction, by induction with
   fold_left over [reduce_eq_fold_cycle], which covers EVERY evaluated cycle of the model's own
   [reduce_cycle] (first observation, collection not yet valid, steady state, partial rebuild,
   full rebuild, growth with bank swap), the capacity arithmetic (bit_ceil) being proved
   ([capacity_is_a_power_of_two]); [reduce_order_independent_histories] over whole histories.  The
   hypotheses of the history theorem are about the SOURCE collection only and are kept as the
   explicit predicate [hist_ok]/[src_ok] (property C05: every leaf the reconciliation keeps has a
   value in the new store; values of leaves neither structural nor ticked are unchanged unless the
   tree is rebuilt in full).  WHAT IS STILL MISSING: (1) [src_ok] is not derived from the
   slot-store model of the TSD (it is inhabited by a concrete history, c11_history_inhabited);
   (2) the scheduling argument for generic (node / sub-graph) combiners, which re-evaluate only
   when notified - the generic mode is in the model and in the differential (operand logs line by
   line) but not in a theorem; (3) unreachability of the modelled "inactive bank still occupied" error. *)
Require Import Base Reduce ReduceFacts.
From Coq Require Import PeanoNat Permutation.
Local Open Scope nat_scope.

(* resolve_aggregate, read recursively: nothing live under it -> Empty; one live leaf -> that
   leaf; live leaves only in the left half -> whatever the LEFT child resolves to (the alias);
   otherwise this combine point. *)
Theorem aggregate_alias_rule : forall k j u live, 1 <= j -> j <= k -> u < 2 ^ (k - j) ->
  resolve (2 ^ k) live (pos k j u) =
    if live <=? u * 2 ^ j then AEmpty
    else if live =? u * 2 ^ j + 1 then ALeaf (u * 2 ^ j)
    else if live <=? u * 2 ^ j + 2 ^ (j - 1) then resolve (2 ^ k) live (pos k (j - 1) (2 * u))
    else ANode (pos k j u).
Proof. exact ReduceFacts.resolve_rec. Qed.
Print Assumptions aggregate_alias_rule.

(* The path re-evaluated for dense leaf i is exactly the set of combine points whose interval
   contains i. *)
Theorem path_is_the_ancestors : forall k i j u, i < 2 ^ k -> 1 <= j -> j <= k -> u < 2 ^ (k - j) ->
  (In (pos k j u) (leaf_path (2 ^ k) (internals (2 ^ k)) i) <-> u * 2 ^ j <= i /\ i < (u + 1) * 2 ^ j).
Proof. exact ReduceFacts.leaf_path_iff. Qed.
Print Assumptions path_is_the_ancestors.

(* The structural pass touches only the positions it is given, and there makes "a combiner is
   present" equal to "both halves are non-empty (or: root, zero given, one live)". *)
Theorem structural_pass_sets_presence : forall cf C live positions combs cr rt combs1 cr1 rt1,
  fold_left (phase1_at cf C live) positions (combs, cr, rt) = (combs1, cr1, rt1) ->
  length combs1 = length combs /\
  (forall p, ~ In p positions -> nth_opt p combs1 = nth_opt p combs) /\
  (forall p, In p positions -> p < length combs -> present combs1 p = needed cf C live p) /\
  (forall p c, nth_opt p combs1 = Some (Some c) -> nth_opt p combs = Some (Some c) \/ (c = fresh_comb /\ In p positions)).
Proof. exact ReduceFacts.phase1_spec. Qed.
Print Assumptions structural_pass_sets_presence.

(* Static form, for every capacity, live count, leaves, store and ASSOCIATIVE combiner: in a tree
   whose combiners are locally consistent (each holds f of its two child aggregates), the
   aggregate of the subtree (j, u) is the fold of f over exactly its live leaves, in dense order.
   With j = k, u = 0 this is the root. *)
Theorem reduce_eq_fold_static : forall f cf,
  (forall a b c, f (f a b) c = f a (f b c)) ->
  forall st L combs vals k, leaf_vals st L vals -> tree_ok f cf st L combs k ->
  forall j u, j <= k -> u < 2 ^ (k - j) -> u * 2 ^ j < length L ->
    aval cf st L combs (resolve (2 ^ k) (length L) (pos k j u)) =
    fold1 f (seg vals (u * 2 ^ j) (Nat.min (2 ^ j) (length L - u * 2 ^ j))).
Proof.
  intros f cf Ha st L combs vals k Hvals Htree j u H2 H3 H4. apply (aval_sem f cf st L vals k Hvals); try assumption.
  intros j' u' B1 B2. apply (tree_ok_sem f cf Ha st L combs vals k Hvals Htree j' u' B1). lia.
Qed.
Print Assumptions reduce_eq_fold_static.

(* What the invariant gives: the published root aggregate is the fold over the live values, with
   the zero rules by live count (spec_result). *)
Theorem invariant_gives_fold : forall f cf, (forall a b c, f (f a b) c = f a (f b c)) -> c_lifted cf = true -> (c_has_zero cf = true -> c_zero_valid cf = true) ->
  forall st L vals k combs, tree_inv f cf st L vals k combs ->
  src_value cf st combs (agg_src cf L combs (root_aggregate (c_has_zero cf) (2 ^ k) (length L) (length combs)))
  = spec_result f cf vals.
Proof. intros f cf Ha Hl Hz. exact (ReduceFacts.tree_inv_result f cf Hz). Qed.
Print Assumptions invariant_gives_fold.

(* The evaluation pass: visiting positions in descending heap order, when every present combine
   point that is NOT visited already holds the fold of its interval, leaves every present
   combine point holding the fold of its interval. *)
Theorem evaluation_pass_correct : forall f cf, (forall a b c, f (f a b) c = f a (f b c)) -> c_lifted cf = true -> (c_has_zero cf = true -> c_zero_valid cf = true) ->
  forall st L vals k, leaf_vals st L vals -> length L <= 2 ^ k ->
  forall R combs log w, desc_sorted R -> wf_presence cf L k combs ->
  (forall p, p < internals (2 ^ k) -> ~ In p R -> present combs p = true -> good f cf L vals k combs p) ->
  exists combs' log' w', fold_left (eval_at f cf st L (2 ^ k)) R (combs, log, w) = (combs', log', w') /\
    wf_presence cf L k combs' /\
    (forall p, p < internals (2 ^ k) -> present combs' p = true -> good f cf L vals k combs' p).
Proof. intros f cf Ha Hl Hz st L vals k Hv _. exact (ReduceFacts.eval_loop f cf Ha Hl Hz st L vals k Hv). Qed.
Print Assumptions evaluation_pass_correct.

(* One cycle without growth (adds, removes by swap-last, value ticks; several per cycle): if the
   leaf maps changed only at the recorded structural leaves [sleaves] and values changed only
   there or at the ticked leaves [dm], then the structural pass over the paths of [sleaves]
   followed by the evaluation pass over (structural positions holding a combiner) + (paths of
   [dm]) re-establishes the invariant for the new leaves: the root is again the fold.  Positions
   outside those paths are neither rebuilt nor re-evaluated, and need not be. *)
Theorem reduce_eq_fold_partial : forall f cf, (forall a b c, f (f a b) c = f a (f b c)) -> c_lifted cf = true -> (c_has_zero cf = true -> c_zero_valid cf = true) ->
  forall st st' k L vals L' vals' combs sleaves dm extra combs1 cr rt,
  tree_inv f cf st L vals k combs ->
  leaf_vals st' L' vals' -> length L' <= 2 ^ k ->
  (forall i, ~ In i sleaves -> nth_opt i L' = nth_opt i L) ->
  (forall i, ~ In i sleaves -> ~ In i dm -> nth_opt i vals' = nth_opt i vals) ->
  let spos := sort_desc_unique (concat (map (leaf_path (2 ^ k) (length combs)) sleaves)) in
  fold_left (phase1_at cf (2 ^ k) (length L')) spos (combs, [], []) = (combs1, cr, rt) ->
  exists combs2 log w,
    fold_left (eval_at f cf st' L' (2 ^ k)) (visited k combs1 spos dm extra) (combs1, [], []) = (combs2, log, w) /\
    tree_inv f cf st' L' vals' k combs2 /\ (forall p, present combs2 p = present combs1 p).
Proof. intros f cf Ha Hl Hz st st' k. exact (ReduceFacts.cycle_partial f cf Ha Hl Hz (2 ^ k) k (or_introl eq_refl) st st'). Qed.
Print Assumptions reduce_eq_fold_partial.

(* One cycle with a full rebuild: first publication, or growth into the other bank with every
   combine point created afresh ("any capacity history"): no assumption on the old tree. *)
Theorem reduce_eq_fold_growth_partial : forall f cf, (forall a b c, f (f a b) c = f a (f b c)) -> c_lifted cf = true -> (c_has_zero cf = true -> c_zero_valid cf = true) ->
  forall st' k L' vals' combs0 combs1 cr rt dm extra,
  leaf_vals st' L' vals' -> length L' <= 2 ^ k -> (c_has_zero cf = true -> 1 <= k) ->
  length combs0 = internals (2 ^ k) ->
  let spos := down_from (length combs0) in
  fold_left (phase1_at cf (2 ^ k) (length L')) spos (combs0, [], []) = (combs1, cr, rt) ->
  exists combs2 log w,
    fold_left (eval_at f cf st' L' (2 ^ k)) (visited k combs1 spos dm extra) (combs1, [], []) = (combs2, log, w) /\
    tree_inv f cf st' L' vals' k combs2 /\ (forall p, present combs2 p = present combs1 p).
Proof. intros f cf Ha Hl Hz st' k. exact (ReduceFacts.cycle_full f cf Ha Hl Hz (2 ^ k) k (or_introl eq_refl) st'). Qed.
Print Assumptions reduce_eq_fold_growth_partial.

(* erase by moving the last leaf into the hole: every index other than the hole and the last one
   keeps its leaf; the moved leaf lands in the hole and the map is one shorter *)
Theorem swap_last_erase : forall (l : list leaf) i,
  (forall j, i < length l -> j <> i -> j <> length l - 1 -> nth_opt j (remove_leaf_at i l) = nth_opt j l) /\
  (i < length l - 1 -> nth_opt i (remove_leaf_at i l) = nth_opt (length l - 1) l /\
                       length (remove_leaf_at i l) = length l - 1).
Proof. intros l i. split; [intros j _; exact (ReduceFacts.remove_leaf_at_frame l i j)|exact (ReduceFacts.remove_leaf_at_moved l i)]. Qed.
Print Assumptions swap_last_erase.

(* reconcile_leaf_state, for ANY store and ANY delta (coherent or not), any number of removals, adds
   and modifications in one cycle: a dense index that is not recorded in structural_leaves still
   holds the leaf it held before, and "not structural" means nothing moved.  This is the fourth
   hypothesis of reduce_eq_fold_partial (the leaf frame), discharged for the model's own reconciliation. *)
Theorem structural_leaf_record_complete : forall st d L,
  let '(L', sl, stc) := reconcile_sparse st d L in
  (forall j, ~ In j sl -> nth_opt j L' = nth_opt j L) /\ (stc = false -> L' = L /\ sl = []).
Proof. exact ReduceFacts.reconcile_sparse_frame. Qed.
Print Assumptions structural_leaf_record_complete.

(* rebuild_structure's capacity: from a power of two (or 0 = never grown) to a power of two (or 0)
   that holds the live leaves, and at least 2 when a zero is given *)
Theorem capacity_is_a_power_of_two : forall cf cap live k0, capk cap k0 ->
  exists k, capk (next_capacity cf cap live) k /\ live <= 2 ^ k /\ (c_has_zero cf = true -> 1 <= k).
Proof. exact ReduceFacts.next_capacity_spec. Qed.
Print Assumptions capacity_is_a_power_of_two.

(* EVERY evaluated cycle of the model's OWN top-level step [reduce_cycle] (the function that is
   extracted and compared with the C++): whatever branch reduce_reconcile takes - first observation,
   collection not yet valid, sparse reconciliation with any number of swap-last removals, adds and
   value ticks, no rebuild / partial rebuild / full rebuild / growth into the other bank - the
   invariant is re-established for the reconciled leaves L', the node is published, and the result
   is the fold (with the zero rules) over the new live values.  Hypotheses about the cycle concern
   the source collection only. *)
Theorem reduce_eq_fold_cycle : forall f cf, (forall a b c, f (f a b) c = f a (f b c)) -> c_lifted cf = true -> (c_has_zero cf = true -> c_zero_valid cf = true) ->
  forall st0 st d coll zero s vals L' sl stc full pr vals',
  cycle_inv f cf st0 s vals -> coll || zero = true ->
  reconcile_leaves cf st d coll s = (L', sl, stc, full, pr) ->
  leaf_vals st L' vals' ->
  (full && (stc || negb (r_published s)) = false ->
     forall i, ~ In i sl -> ~ In i (ticked_eff cf st d coll L') -> nth_opt i vals' = nth_opt i vals) ->
  let s2 := o_state (reduce_cycle f cf st d coll zero s) in
  r_published s2 = true /\ r_leaves s2 = L' /\ pub_inv f cf st s2 vals' /\ result_of cf st s2 = spec_result f cf vals'.
Proof. exact ReduceFacts.reduce_cycle_correct. Qed.
Print Assumptions reduce_eq_fold_cycle.

(* reduce_eq_fold: for every history (list of cycles: adds, swap-last removes, updates, several per
   cycle, empty ticks, zero ticks, shrink to empty and regrow, any capacity growth) from the empty
   reduction and every associative combiner, once the node has published - which every evaluated
   cycle makes it do (published_after_evaluation) - the published root is the fold of f over the
   values of the live leaves in dense order, with the zero rules.  [hist_ok] is the explicit
   source-collection hypothesis (C05), cycle by cycle. *)
Theorem reduce_eq_fold : forall f cf, (forall a b c, f (f a b) c = f a (f b c)) -> c_lifted cf = true -> (c_has_zero cf = true -> c_zero_valid cf = true) ->
  forall h, hist_ok f cf rstate0 [] h -> r_published (run f cf h) = true ->
  result_of cf (fst (final (store0, []) h)) (run f cf h) = spec_result f cf (snd (final (store0, []) h)).
Proof.
  intros f cf Ha Hl Hz h Hok Hpub.
  assert (H0 : cycle_inv f cf store0 rstate0 []) by (split; reflexivity).
  pose proof (ReduceFacts.run_inv f cf Ha Hl Hz h store0 rstate0 [] H0 Hok) as Hinv. fold (run f cf h) in Hinv.
  unfold cycle_inv in Hinv. rewrite Hpub in Hinv. exact (ReduceFacts.pub_inv_result f cf Hz _ _ _ Hinv).
Qed.
Print Assumptions reduce_eq_fold.

Theorem published_after_evaluation : forall f cf, (forall a b c, f (f a b) c = f a (f b c)) -> c_lifted cf = true -> (c_has_zero cf = true -> c_zero_valid cf = true) ->
  forall st s vals c, cycle_inv f cf st s vals -> src_ok cf s vals c ->
  (cy_coll c || cy_zero c = true \/ r_published s = true) -> r_published (step f cf s c) = true.
Proof. intros f cf Ha Hl Hz st s vals c Hinv Hsrc. exact (proj2 (ReduceFacts.step_inv f cf Ha Hl Hz st s vals c Hinv Hsrc)). Qed.
Print Assumptions published_after_evaluation.

(* For an associative-commutative combiner the result depends only on the multiset of live
   values: two trees (any add / remove / tick order, any capacity, any dense order) whose live
   values are permutations of each other publish the same result. *)
Theorem reduce_order_independent : forall f cf,
  (forall a b c, f (f a b) c = f a (f b c)) -> (forall a b, f a b = f b a) -> c_lifted cf = true -> (c_has_zero cf = true -> c_zero_valid cf = true) ->
  forall st1 L1 vals1 k1 combs1 st2 L2 vals2 k2 combs2,
  tree_inv f cf st1 L1 vals1 k1 combs1 -> tree_inv f cf st2 L2 vals2 k2 combs2 ->
  Permutation vals1 vals2 ->
  src_value cf st1 combs1 (agg_src cf L1 combs1 (root_aggregate (c_has_zero cf) (2 ^ k1) (length L1) (length combs1))) =
  src_value cf st2 combs2 (agg_src cf L2 combs2 (root_aggregate (c_has_zero cf) (2 ^ k2) (length L2) (length combs2))).
Proof. exact ReduceFacts.order_independent. Qed.
Print Assumptions reduce_order_independent.

(* ... and over whole histories: two histories (any order of adds / removes / ticks, any capacity
   history) whose final live values are permutations of each other publish the same result *)
Theorem reduce_order_independent_histories : forall f cf,
  (forall a b c, f (f a b) c = f a (f b c)) -> (forall a b, f a b = f b a) -> c_lifted cf = true -> (c_has_zero cf = true -> c_zero_valid cf = true) ->
  forall h1 h2, hist_ok f cf rstate0 [] h1 -> hist_ok f cf rstate0 [] h2 ->
  r_published (run f cf h1) = true -> r_published (run f cf h2) = true ->
  Permutation (snd (final (store0, []) h1)) (snd (final (store0, []) h2)) ->
  result_of cf (fst (final (store0, []) h1)) (run f cf h1) = result_of cf (fst (final (store0, []) h2)) (run f cf h2).
Proof.
  intros f cf Ha Hc Hl Hz h1 h2 O1 O2 P1 P2 HP.
  rewrite (reduce_eq_fold f cf Ha Hl Hz h1 O1 P1), (reduce_eq_fold f cf Ha Hl Hz h2 O2 P2).
  apply ReduceFacts.spec_result_perm; assumption.
Qed.
Print Assumptions reduce_order_independent_histories.

(* invalid when empty without zero; the zero when empty with zero; f value zero for a singleton
   with zero (the value itself without); the plain fold, zero not involved, once two are live *)
Theorem zero_rules : forall f cf,
  (spec_result f cf [] = if c_has_zero cf then Some (c_zero cf) else None) /\
  (forall v, spec_result f cf [v] = if c_has_zero cf then Some (f v (c_zero cf)) else Some v) /\
  (forall vals, 2 <= length vals -> spec_result f cf vals = fold1 f vals).
Proof.
  repeat split; intros; try reflexivity.
  destruct vals as [|a [|b r]]; simpl in *; try lia. reflexivity.
Qed.
Print Assumptions zero_rules.

(* ... and inside the tree: once two are live, every combiner that exists holds the fold of a
   segment of the live values; the zero is an operand of none. *)
Theorem zero_not_an_operand_once_two_live : forall f cf st L vals k combs,
  tree_inv f cf st L vals k combs -> 2 <= length L ->
  forall j u, 1 <= j -> j <= k -> u < 2 ^ (k - j) -> present combs (pos k j u) = true ->
    sem_at f L vals k combs j u.
Proof.
  intros f cf st L vals k combs T Hl j u H1 H2 H3 Hp.
  apply (ReduceFacts.tree_inv_sem f cf st L vals k combs T); try assumption.
  destruct T as [_ _ _ [_ T4] _]. rewrite T4 in Hp by (apply pos_internal; assumption).
  apply needed_iff in Hp; try assumption. destruct Hp as [(_ & _ & Hone)|Hn]; [lia|exact Hn].
Qed.
Print Assumptions zero_not_an_operand_once_two_live.

(* a combiner exists exactly where both halves are non-empty, or at the root of a singleton with
   a zero (the count n - 1, resp. 1, follows: one combiner per live leaf index 1 .. n-1, namely
   the one whose right half starts there; it is [combiner_count] below) *)
Theorem combiner_presence : forall cf (L : list leaf) k, length L <= 2 ^ k ->
  forall j u, 1 <= j -> j <= k -> u < 2 ^ (k - j) ->
  (needed cf (2 ^ k) (length L) (pos k j u) = true <->
   (pos k j u = 0 /\ c_has_zero cf = true /\ length L = 1) \/ u * 2 ^ j + 2 ^ (j - 1) < length L).
Proof. intros cf L k _. apply ReduceFacts.needed_iff. Qed.
Print Assumptions combiner_presence.

(* combiner_count: in every state satisfying the invariant (after every evaluated cycle, by
   reduce_eq_fold_cycle): n >= 2 live leaves use exactly n - 1 combiners, a singleton with a zero one,
   an empty collection or a singleton without zero none - whatever the capacity history *)
Theorem combiner_count : forall f cf st s vals, pub_inv f cf st s vals ->
  Reduce.combiner_count s =
    if 2 <=? length (r_leaves s) then length (r_leaves s) - 1
    else if c_has_zero cf && (length (r_leaves s) =? 1) then 1 else 0.
Proof.
  intros f cf st s vals (k & _ & [_ T2 T3 T4 _] & _).
  exact (ReduceFacts.combiner_count_number cf (r_leaves s) k (r_combs s) T2 T3 T4).
Qed.
Print Assumptions combiner_count.

Local Open Scope Z_scope.

(* the mirror, executed on a history that adds five keys over two cycles (growth 2 -> 8), updates,
   removes a middle key (swap-last) and empties the dictionary: node combiner, no zero *)
Example c11_model_runs :
  run_reduce [[1; 0; 1; 0; 0; 5]; [2; 0; 10; 1]; [2; 0; 11; 2]; [2; 1; 12; 4]; [2; 1; 13; 8]; [2; 1; 14; 16];
              [2; 2; 10; 32]; [3; 3; 12]; [3; 4; 10]; [3; 4; 11]; [3; 4; 13]; [3; 4; 14]] =
  [[20; 1]; [21; 1; 0; 10; 1; 11]; [22; 1; 0; 10; 1; 11]; [30; 1; 1; 2]; [32; 1; 2; 1; 1; 3; 1]; [31; 1; 1; 3];
   [20; 2]; [21; 2; 2; 12; 3; 13; 4; 14]; [22; 2; 2; 12; 3; 13; 4; 14];
   [30; 2; 4; 8]; [30; 2; 1; 2]; [30; 2; 3; 12]; [30; 2; 15; 16]; [32; 2; 5; 4; 1; 31; 1]; [31; 2; 1; 31];
   [20; 3]; [21; 3]; [22; 3; 0; 10]; [30; 3; 32; 2]; [30; 3; 34; 12]; [30; 3; 46; 16]; [32; 3; 5; 4; 1; 62; 1]; [31; 3; 1; 62];
   [20; 4; 2; 12]; [21; 4]; [22; 4]; [30; 4; 16; 8]; [30; 4; 34; 24]; [32; 4; 4; 3; 1; 58; 1]; [31; 4; 1; 58];
   [20; 5; 0; 10; 1; 11; 3; 13; 4; 14]; [21; 5]; [22; 5]; [32; 5; 0; 0; 0; 0; 1]; [31; 5; 0; 0]].
Proof. vm_compute. reflexivity. Qed.

(* a concrete state satisfying the invariant (two live leaves, one combiner holding their sum) and
   a concrete instance of every hypothesis of reduce_eq_fold_partial (a value tick of leaf 1) *)
Example c11_invariant_inhabited : ReduceFacts.example_inv.
Proof. exact (ReduceFacts.ex_tree_inv 2). Qed.

Example c11_cycle_hypotheses_inhabited : ReduceFacts.example_cycle.
Proof.
  apply (cycle_partial Z.add ex_cf (fun a b c => eq_sym (Z.add_assoc a b c)) eq_refl (fun _ => eq_refl) (2 ^ 1) 1 (or_introl eq_refl)
           (ex_store 2) (ex_store 64) ex_leaves [1; 2] ex_leaves [1; 64] (ex_combs 3) [] [1%nat] [] (ex_combs 3) [] []).
  - exact (ex_tree_inv 2).
  - apply ex_leaf_vals.
  - simpl. lia.
  - intros i _. reflexivity.
  - intros i _ Hi. destruct i as [|[|i]]; simpl; try reflexivity. exfalso. apply Hi. left. reflexivity.
  - reflexivity.
Qed.

(* a concrete history produced by the slot-store model ({10:1, 11:2} added; 11 ticks to 64; 10 removed
   by swap-last) satisfies the source hypotheses of reduce_eq_fold, publishes, and yields 64 *)
Example c11_history_inhabited : hist_ok Z.add ReduceFacts.exh_cf rstate0 [] ReduceFacts.exh_hist.
Proof. exact ReduceFacts.exh_ok. Qed.

Example c11_history_result :
  r_published (run Z.add ReduceFacts.exh_cf ReduceFacts.exh_hist) = true /\
  result_of ReduceFacts.exh_cf (fst (final (store0, []) ReduceFacts.exh_hist)) (run Z.add ReduceFacts.exh_cf ReduceFacts.exh_hist) = Some 64.
Proof. exact ReduceFacts.exh_result. Qed.
