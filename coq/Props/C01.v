(* Props/C01.v — property C01, run-time half: within one engine cycle every node is
   evaluated at most once, and only after the nodes whose outputs it reads have had
   their turn.  (The build-time half - ranking and rejection of unbroken cycles - is
   Props/C01_rank.v.)  Statements with short proofs from EngineFacts.v.
   Model: coq/Engine.v (graph.cpp evaluate_impl: one forward scan of the node array; a node
   runs iff its slot equals the cycle time). *)
Require Import Base Sched Engine EngineFacts.

(* [n_evals] counts the graph-level evaluations of a node (the lifecycle observer's
   before_node_evaluation events, which the correspondence check compares). *)
Theorem evaluated_at_most_once_per_cycle : forall cfgs beh t g p,
  (p < length (g_nodes g))%nat ->
  n_evals (node_at p g) <= n_evals (node_at p (evaluate_graph cfgs beh t g)) <= n_evals (node_at p g) + 1.
Proof.
  intros cfgs beh t g p H. unfold evaluate_graph.
  match goal with |- context [scan _ _ _ _ ?g0] => exact (scan_evals_le cfgs beh (length cfgs) 0 g0 p H) end.
Qed.
Print Assumptions evaluated_at_most_once_per_cycle.

(* A node that has had its turn keeps its state - output value, last-modified time,
   counters - until the cycle ends: nothing evaluated later in the scan touches it. *)
Theorem earlier_nodes_are_final : forall cfgs beh m k g p,
  (p < k)%nat -> node_at p (scan cfgs beh k m g) = node_at p g.
Proof.
  intros cfgs beh m k g p Hp.
  apply (acts_obs cfgs (U := fun j _ => (k <= j)%nat) (T := any) (W := fun j => (k <= j)%nat) (fun x => x)); try (left; lia).
  apply scan_acts; auto with acts.
Qed.
Print Assumptions earlier_nodes_are_final.

(* Producers first: under the ranking the wiring layer establishes (every input's
   producer has a smaller index), when the scan reaches node i every producer it reads
   has already had its turn and its output is final for the cycle - whatever happens in
   the rest of the scan. *)
Theorem producers_had_their_turn : forall cfgs beh i s m g,
  well_ranked cfgs -> (i < length cfgs)%nat -> In s (c_ins (cfg cfgs i)) ->
  node_at (i_src s) (scan cfgs beh i m g) = node_at (i_src s) g.
Proof. intros cfgs beh i s m g WR Hi Hs. apply earlier_nodes_are_final, (WR i s Hi Hs). Qed.
Print Assumptions producers_had_their_turn.

(* Same-cycle scheduling only reaches nodes the scan has not passed: a write by node
   [src] changes the slot only of nodes with an active input bound to it, which the
   ranking places after [src]. *)
Theorem same_cycle_wakes_only_later_nodes : forall cfgs src g k,
  well_ranked cfgs ->
  slot_at k (notify_from cfgs 0 src g) <> slot_at k g -> (src < k)%nat.
Proof.
  intros cfgs src g k WR H. apply (subscribed_later cfgs src k _ WR (notify_moves cfgs src g k H)).
Qed.
Print Assumptions same_cycle_wakes_only_later_nodes.
