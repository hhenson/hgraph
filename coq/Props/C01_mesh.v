(* C01 for the stdlib mesh_ node — "within one engine cycle every node is evaluated at most once, and never
   before any node whose output it reads (... or through a reference) has had its turn in that cycle; this holds
   ... for every nested child graph".

   Model: Mesh.v, the executable mirror of src/hgraph/runtime/mesh_node.cpp (settle loop, ranks, pause / resume,
   mesh_subscribe, child graph cursor and schedule cache) for the program of cxx/mesh_driver.cpp; it reproduces
   the real node's evaluation trace line for line (family `mesh`).  [m_fix m = true] is the tree as it is
   (settle loop repaired by /repo commit 1c89b1b); [m_fix m = false] is the loop before that commit.

   All statements quantify over EVERY mesh state (any key set, any link graph, any ranks, any pending
   schedules): nothing below assumes the state is reachable.

   (a) at most once.      A child graph that completed its cycle carries settled_time = now and is skipped by
                          every later pass; an evaluated child ends settled or paused (the pause keeps the
                          cursor on the mesh_subscribe node: resumed children are the business of
                          Props/C01_nest.v, whose generic graph model proves that a resumed entry never re-runs
                          a node before the cursor).
   (b) never before what it reads.
                          - a mesh_ref is bound only to a dependency of strictly lower rank that has settled at
                            this cycle's time or is quiescent;
                          - the repaired loop never starts an evaluation above the pending-rank minimum, and
                            whatever became pending inside a pass (scheduled by a sibling's tick, paused)
                            DEFERS every unsettled entry ranked above it for the whole rest of the pass;
                          - ranks follow dependencies: re_rank never returns with a new violated edge;
                          - the loop before the repair violates the property: `snapshot_order_refuted`.
   (c) dependency cycles. A self reference is always reported; a report is sound for the registered edges.

   NOT proved here (kept visible, carried by the correspondence + the oracle of gen/mesh.py on every case):
     * dependency_settled_when_evaluated (trace level, the full (b)): "in the trace of any engine cycle of the
       repaired model no comb(k) precedes comb(j) when k reads j".  Proved: the rank order of the registered
       edges (re_rank_restores_the_rank_order) and the deferral mechanism.  Missing: completeness of the
       candidate set (a child with a due node is a candidate in the pass that follows) and the lift of the
       rank-order invariant through instance creation / removal; with them the theorems below compose to the
       trace statement by induction over the rank.
     * evaluated_at_most_once (trace level, the full (a)): needs the slot store invariant (a free slot holds no
       entry) to show that create_instance never overwrites a settled entry.
     * cycle_report_complete: a cycle among the registered edges through the new edge is always reported. *)
Require Import Base Mesh MeshFacts.

(* (a) at most once *)
Theorem settled_child_is_not_evaluated_again :
  forall m slot t e, get_entry m slot = Some e -> e_settled e = t -> process_entry slot t m = (m, Skipped).
Proof.
  intros m slot t e He Hs. unfold process_entry. rewrite He, Hs, Z.eqb_refl.
  destruct (negb (e_live e)); reflexivity.
Qed.
Print Assumptions settled_child_is_not_evaluated_again.

Theorem evaluated_child_is_settled_or_paused :
  forall m slot t m', process_entry slot t m = (m', Evaluated) -> failed m' = false ->
    exists e', get_entry m' slot = Some e' /\ (e_settled e' = t \/ e_paused e' = true).
Proof.
  intros m slot t m' H Hf. destruct (evaluated_outcome slot t m m' H Hf) as (e' & He & [Hs|[Hp _]]); eauto.
Qed.
Print Assumptions evaluated_child_is_settled_or_paused.

(* (b) never before what it reads *)
(* add_dependency (the test mesh_subscribe makes before it binds and forwards self[item]) *)
Theorem reference_bound_only_to_settled_lower_rank :
  forall k d t m m', add_dependency k d t m = (m', true) ->
    m' = dep_insert d k m /\
    exists ke de, find_entry m' k = Some ke /\ find_entry m' d = Some de /\ e_rank de < e_rank ke /\
                  (e_settled de = t \/ (e_paused de = false /\ t < c_cache (e_child de))).
Proof.
  intros k d t m m'. unfold add_dependency. destruct (k =? d); [discriminate|].
  destruct (find_entry (dep_insert d k m) k) as [ke|] eqn:Ek; [|discriminate].
  destruct (find_entry (dep_insert d k m) d) as [de|] eqn:Ed; [|discriminate].
  destruct (e_rank ke <=? e_rank de) eqn:Er; [discriminate|].
  destruct (e_settled de =? t) eqn:Es.
  - intros [= <-]. split; [reflexivity|]. exists ke, de. repeat split; auto; lia.
  - destruct (e_paused de) eqn:Ep; [discriminate|].
    intros [= <- Hc]. split; [reflexivity|]. exists ke, de. repeat split; auto; lia.
Qed.
Print Assumptions reference_bound_only_to_settled_lower_rank.

Theorem repaired_loop_never_evaluates_above_pending :
  forall m slot t m' e, m_fix m = true -> get_entry m slot = Some e ->
    process_entry slot t m = (m', Evaluated) -> e_rank e <= m_pmin m.
Proof.
  intros m slot t m' e Hf He. unfold process_entry. rewrite He, Hf.
  destruct (negb (e_live e)); [discriminate|]. destruct (e_settled e =? t); [discriminate|].
  destruct (m_pmin m <? e_rank e) eqn:E; [discriminate | lia].
Qed.
Print Assumptions repaired_loop_never_evaluates_above_pending.

Theorem pass_only_moves_forward :
  forall m0 order t m ev, ext m0 m -> ext m0 (fst (fst (pass order t m ev))).
Proof.
  intros m0 order. induction order as [|[r s] rest IH]; intros t m ev H; cbn [pass]; auto.
  assert (H1 := ext_process_entry m0 s t m H). destruct (process_entry s t m) as [m1 v].
  destruct (failed m1); [exact H1|]. destruct v; auto.
Qed.
Print Assumptions pass_only_moves_forward.

Theorem repaired_loop_defers_readers_of_scheduled_child :
  forall m x node t ex m2 s e t',
    m_fix m = true -> get_entry m x = Some ex -> c_started (e_child ex) = true -> c_evalg (e_child ex) = false ->
    t <= m_now m ->
    ext (schedule x node t m) m2 ->
    get_entry m2 s = Some e -> e_live e = true -> e_settled e <> t' -> e_rank ex < e_rank e ->
    process_entry s t' m2 = (m2, Deferred).
Proof.
  intros m x node t ex m2 s e t' Hf He Hs Hv Ht X.
  destruct (schedule_notes m x node t ex Hf He Hs Hv Ht) as (Hn & Hfx).
  exact (deferred_above _ _ m2 s t' e Hfx Hn X).
Qed.
Print Assumptions repaired_loop_defers_readers_of_scheduled_child.

Theorem repaired_loop_defers_readers_of_paused_child :
  forall m x t m1 ex m2 s e,
    m_fix m = true -> process_entry x t m = (m1, Evaluated) -> failed m1 = false ->
    get_entry m1 x = Some ex -> e_settled ex <> t ->
    ext m1 m2 ->
    get_entry m2 s = Some e -> e_live e = true -> e_settled e <> t -> e_rank ex < e_rank e ->
    process_entry s t m2 = (m2, Deferred).
Proof.
  intros m x t m1 ex m2 s e Hf Hp Hfl Hg1 Hns1.
  destruct (evaluated_outcome x t m m1 Hp Hfl) as (e' & He' & [Hs|(_ & Hn)]);
    rewrite Hg1 in He'; injection He' as <-; [contradiction|].
  apply (deferred_above m1 (e_rank ex)); auto.
  destruct (ext_process_entry m x t m (ext_refl m)) as (_ & Hfx & _). rewrite Hp in Hfx. exact (eq_trans Hfx Hf).
Qed.
Print Assumptions repaired_loop_defers_readers_of_paused_child.

(* THE RANKS FOLLOW THE DEPENDENCIES.  [violated m a b]: "a depends on b" is registered, both instances exist
   and a is NOT ranked above b.  Whatever re_rank does (re-ranking through the dependents to any depth), when
   it returns without an error it has introduced no violated edge and has repaired the edge it was called for *)
Theorem re_rank_restores_the_rank_order :
  forall fuel k d stack m, failed m = false -> k <> d -> failed (re_rank fuel k d stack m) = false ->
    forall a b, violated (re_rank fuel k d stack m) a b -> violated m a b /\ ~ (a = k /\ b = d).
Proof. intros fuel k d stack m _ _. apply re_rank_restores. Qed.
Print Assumptions re_rank_restores_the_rank_order.

(* ... so add_dependency, when it returns without an error, leaves no violated edge, provided that with the edge
   registered ([dep_insert d k m]) (k, d) is the only edge that may be violated and d has an instance.  The
   premise speaks of [dep_insert d k m], the conclusion of the returned state: no lemma carries "nothing is
   violated" from [m] across [dep_insert] *)
Theorem add_dependency_keeps_the_rank_order :
  forall k d t m, failed m = false -> k <> d ->
    (forall a b, violated (dep_insert d k m) a b -> a = k /\ b = d) ->
    find_entry (dep_insert d k m) d <> None ->
    failed (fst (add_dependency k d t m)) = false ->
    forall a b, ~ violated (fst (add_dependency k d t m)) a b.
Proof.
  intros k d t m _ Hkd Honly Hd. unfold add_dependency. replace (k =? d) with false by lia. cbv zeta.
  set (m1 := dep_insert d k m) in *.
  assert (Hno : (forall ek ed, find_entry m1 k = Some ek -> find_entry m1 d = Some ed -> e_rank ed < e_rank ek) ->
                forall a b, ~ violated m1 a b).
  { intros H a b Hv. destruct (violated_other m1 k d H a b Hv) as [_ Hne]. auto. }
  destruct (find_entry m1 k) as [ke|] eqn:Ek; [|intros _; apply Hno; congruence].
  destruct (find_entry m1 d) as [de|] eqn:Ed; [|congruence].
  destruct (e_rank ke <=? e_rank de) eqn:Er.
  - intros Hres a b Hv. destruct (re_rank_restores _ k d [] m1 Hres a b Hv) as (Hv1 & Hne). auto.
  - assert (H : forall a b, ~ violated m1 a b) by (apply Hno; intros ek ed [= <-] [= <-]; lia).
    destruct (e_settled de =? t); [|destruct (e_paused de)]; intros _; exact H.
Qed.
Print Assumptions add_dependency_keeps_the_rank_order.

(* the witness: 3 reads 2 reads 1; cycle 2 ticks val[1] and val[3] but not val[2] *)
Definition witness : wire :=
  [[1; 1; 10]; [2; 0];
   [3; 0; 1; 1; 1; 10]; [3; 0; 1; 1; 2; 0]; [3; 0; 1; 1; 3; 0];
   [3; 1; 1; 1; 2; 1]; [3; 1; 1; 1; 3; 2];
   [3; 0; 2; 1; 1; 20]; [3; 0; 2; 1; 3; 5]].

(* the comb evaluations (key, value read through link1, result) of the engine cycle at time t, in order *)
Fixpoint combs_from (on : bool) (t : Z) (w : wire) : list (Z * Z * Z) :=
  match w with
  | [] => []
  | (10 :: t' :: _) :: r => combs_from (t' =? t) t r
  | (13 :: k :: _ :: _ :: _ :: d1 :: _ :: _ :: res :: _) :: r =>
      if on then (k, d1, res) :: combs_from on t r else combs_from on t r
  | _ :: r => combs_from on t r
  end.

(* before the repair: key 3 is evaluated BEFORE key 2, reads 2's value of the previous cycle (30) and keeps the
   stale result 95 = 5 + 3*30; the real node of /repo before 1c89b1b prints exactly this trace
   (corpus/mesh/chain_late_dependency.case, mutants/C01/mesh_unfixed_settle_snapshot.patch) *)
Theorem snapshot_order_refuted :
  exists case, combs_from false 2 (run_mesh_old case) = [(1, 0, 20); (3, 30, 95); (2, 20, 60)].
Proof. exists witness. vm_compute. reflexivity. Qed.
Print Assumptions snapshot_order_refuted.

(* the repaired loop on the same case: 1, 2, 3 and key 3 = 5 + 3*60 *)
Example repaired_order_on_the_witness :
  combs_from false 2 (run_mesh witness) = [(1, 0, 20); (2, 20, 60); (3, 60, 185)].
Proof. vm_compute. reflexivity. Qed.

(* the stale child also keeps next_scheduled_time in the past: a later reader of it can never be resumed and
   the old loop aborts the run with "mesh_ failed to settle within the cycle" (code 4) *)
Definition witness_deadlock : wire :=
  [[1; 1; 10]; [2; 0];
   [3; 0; 1; 1; 1; 10]; [3; 0; 1; 1; 2; 0]; [3; 0; 1; 1; 3; 0]; [3; 0; 1; 1; 4; 0];
   [3; 1; 1; 1; 2; 1]; [3; 1; 1; 1; 3; 2];
   [3; 0; 2; 1; 1; 20]; [3; 0; 2; 1; 3; 5];
   [3; 1; 3; 1; 4; 3]].
Example old_loop_deadlocks_a_later_reader :
  last (run_mesh_old witness_deadlock) [] = [19; 4] /\ combs_from false 3 (run_mesh witness_deadlock) = [(4, 185, 555)].
Proof. vm_compute. split; reflexivity. Qed.

(* (c) dependency cycles *)
Theorem self_dependency_is_a_cycle :
  forall k t m, failed m = false ->
    m_err (fst (add_dependency k k t m)) = E_CYCLE /\ snd (add_dependency k k t m) = false.
Proof.
  intros k t m Hf. unfold add_dependency. rewrite Z.eqb_refl. unfold raise. rewrite Hf. auto.
Qed.
Print Assumptions self_dependency_is_a_cycle.

Theorem cycle_report_is_sound :
  forall fuel k d stack m, failed m = false -> chain m (k :: stack) ->
    m_err (re_rank fuel k d stack m) = E_CYCLE -> exists x, reaches m x x.
Proof.
  intros fuel k d stack m Hf Hc. apply re_rank_cycle; auto. unfold failed, E_CYCLE in *. lia.
Qed.
Print Assumptions cycle_report_is_sound.

(* a genuine two-cycle is reported in the cycle it is wired in *)
Example two_cycle_is_reported :
  last (run_mesh [[1; 1; 5]; [2; 0]; [3; 0; 1; 1; 1; 1]; [3; 0; 1; 1; 2; 2]; [3; 1; 1; 1; 1; 2]; [3; 1; 1; 1; 2; 1]]) []
  = [19; 3].
Proof. vm_compute. reflexivity. Qed.

(* "registered edges" matters: links {1:2}, then link[2]=1 and link[1]=3 in ONE engine cycle.  The end state
   1->3, 2->1 is acyclic, but key 2 (lower rank) registers 2->1 before key 1 has retracted 1->2: the real node
   and the model both report a cycle (observation O1 in docs/notes-mesh.md) *)
Example transient_cycle_is_reported :
  last (run_mesh [[1; 1; 7]; [2; 0]; [3; 0; 1; 1; 1; 1]; [3; 0; 1; 1; 2; 6]; [3; 0; 1; 1; 3; 6]; [3; 1; 1; 1; 1; 2];
                  [3; 1; 2; 1; 2; 1]; [3; 1; 2; 1; 1; 3]]) [] = [19; 3].
Proof. vm_compute. reflexivity. Qed.

(* the state after the first engine cycle of the witness (keys 1, 2, 3 in slots 0, 1, 2 with ranks 0, 1, 2),
   at engine time 2 *)
Definition state1 : mesh :=
  let h := decode witness (mkHdr 1 10 0 []) in
  set_m_pmin MAX_DT (set_m_now 2 (fst (cycle 80 false 1 (filter (fun o => o_t o =? 1) (h_ops h)) (empty_mesh true)))).

Example state1_shape :
  map (fun oe => match oe with Some e => (e_key e, e_rank e, e_settled e) | None => (0, 0, 0) end)
      (firstn 3 (m_entries state1)) = [(1, 0, 1); (2, 1, 1); (3, 2, 1)]
  /\ failed state1 = false /\ m_fix state1 = true.
Proof. vm_compute. repeat split; reflexivity. Qed.

(* hypotheses of repaired_loop_defers_readers_of_scheduled_child: key 2 (slot 1, rank 1) is scheduled by a tick;
   key 3 (slot 2, rank 2) is live, unsettled at time 2 - and is deferred *)
Example scheduled_child_hypotheses_inhabited :
  exists ex e,
    get_entry state1 1 = Some ex /\ c_started (e_child ex) = true /\ c_evalg (e_child ex) = false /\
    2 <= m_now state1 /\
    get_entry (schedule 1 N_SUB1 2 state1) 2 = Some e /\ e_live e = true /\ e_settled e <> 2 /\
    e_rank ex < e_rank e /\
    snd (process_entry 2 2 (schedule 1 N_SUB1 2 state1)) = Deferred.
Proof.
  eexists; eexists. do 8 (split; [vm_compute; try reflexivity; discriminate|]). vm_compute; reflexivity.
Qed.

(* hypotheses of repaired_loop_defers_readers_of_paused_child / evaluated_child_is_settled_or_paused: in state1
   with link[2] retargeted to the new key 9, evaluating key 2 creates 9 and PAUSES *)
Definition state1_retarget : mesh :=
  schedule 1 N_SUB1 2 (set_m_d1 [(2, 9); (3, 2)] state1).
Example paused_child_hypotheses_inhabited :
  exists m1 ex,
    process_entry 1 2 state1_retarget = (m1, Evaluated) /\ failed m1 = false /\
    get_entry m1 1 = Some ex /\ e_settled ex <> 2 /\ e_paused ex = true /\
    snd (process_entry 2 2 m1) = Deferred.
Proof.
  exists (fst (process_entry 1 2 state1_retarget)). eexists.
  do 5 (split; [vm_compute; try reflexivity; discriminate|]). vm_compute; reflexivity.
Qed.

(* hypotheses of reference_bound_only_to_settled_lower_rank: in state1 key 3 asks for key 2, which settled at 1 *)
Example add_dependency_true_inhabited :
  snd (add_dependency 3 2 1 state1) = true.
Proof. vm_compute. reflexivity. Qed.

(* hypotheses of cycle_report_is_sound: a stack of one key is a chain; the two registered edges 3 -> 2 -> 1 are
   shown beside it, the theorem does not ask for them *)
Example cycle_sound_hypotheses_inhabited :
  failed state1 = false /\ chain state1 [3] /\ depends state1 3 2 /\ depends state1 2 1.
Proof. vm_compute. repeat split; auto. Qed.

(* an instance of re_rank_restores_the_rank_order (not of add_dependency_keeps_the_rank_order, which asks for an
   instance of d before the call): in state1 a new key 7 (rank 0, created on demand by key 1) becomes a dependency
   of key 1: 1 is raised above 7, then 2 above 1, then 3 above 2; the ranks are in order along 3 -> 2 -> 1 -> 7
   although three of them changed *)
Example re_rank_chain_inhabited :
  let m := fst (add_dependency 1 7 2 state1) in
  failed m = false /\
  map (fun oe => match oe with Some e => (e_key e, e_rank e) | None => (0, 0) end) (firstn 4 (m_entries m))
  = [(1, 1); (2, 2); (3, 3); (7, 0)].
Proof. vm_compute. split; reflexivity. Qed.
