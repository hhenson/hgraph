(* Props/C13.v — property C13: reading through a reference equals reading its
   current target.  The statements; their proofs rest on the lemmas of RefFacts.v.

   Vocabulary (coq/Ref.v, coq/RefFacts.v).  A history is a list of cycles [cyc]: in
   each cycle the selector source may tick with a value, each target may tick with a
   payload, and the unrelated poke source may tick.  [wf] = times strictly increasing.
     spec_sel op cs     the target the selection designates after cs, a fold over the
                        script alone: for the plain ops (every op with [chained op = false]:
                        if_then_else 0/3/4/5, if_cmp 1, list[key] 8, with or without the flags
                        +10 same producer, +20 wrapped) the target picked by the latest
                        selector value ([plain_designation]);
                        for the CHAINED ops (6: if_then_else(c2, if_then_else(c1,A,B), C),
                        7: if_cmp(cmp2, if_then_else(c1,A,B), C, C)) the composition of the
                        two selectors, same-reference de-duplication at each level
                        ([chained_*] below say what it is in the relevant cases)
     spec_tgt sh i cs   target i as a plain time-series: the fold of ITS OWN ticks
     last_out sh op pre c   what the mechanism does in cycle c after ANY history pre:
                        o_cons = the consumers below the reference that are evaluated,
                        each with its reading (valid, modified, last-modified time,
                        value, delta); o_ref = the reference output ticked.
   Consumers: 0 active; 1 active + poke; 2 passive on the reference + poke; 3 active
   and requires a valid input.  All theorems quantify over every shape (TS / TSS /
   TSD), every op, every history and every next cycle: arbitrary
   relative timings of retargets and target ticks.  By [every_cycle_is_a_last_cycle] every
   cycle of every run is the [last_out] of a prefix, and by [decode_wf] every case file the
   correspondence check runs decodes to a well-formed history. *)
Require Import Base Ref RefFacts.
From Coq Require Import ZifyBool.

Theorem every_cycle_is_a_last_cycle : forall sh op cs o,
  In o (snd (run sh op s0 cs)) -> exists pre c post, cs = pre ++ c :: post /\ o = last_out sh op pre c.
Proof.
  intros sh op cs o. induction cs as [|c cs IH] using rev_ind; intros H.
  - contradiction.
  - rewrite run_snoc in H. apply in_app_or in H as [H|[<-|[]]].
    + destruct (IH H) as (pre & c' & post & -> & ->).
      exists pre, c', (post ++ [c]). now rewrite <- app_assoc.
    + now exists cs, c, [].
Qed.
Print Assumptions every_cycle_is_a_last_cycle.

Theorem decode_wf : forall w,
  let '(s, e, shz, op) := header w in 1 <= s -> wf (snd (decode w)).
Proof.
  intros w. unfold decode. destruct (header w) as [[[s e] shz] op]. intros Hs.
  apply times_wf. lia.
Qed.
Print Assumptions decode_wf.

(* The mechanism's state always agrees with the specification notions: the reference
   output and the dereferencing link designate spec_sel, the targets are their own
   histories, no recorded time lies in the future. *)
Theorem link_follows_selection : forall sh op cs, wf cs -> Inv sh op cs (st_after sh op cs).
Proof. exact RefFacts.inv_reach. Qed.
Print Assumptions link_follows_selection.

(* deref_reads_target (value): at EVERY evaluation, whatever caused it, a consumer
   reads through the reference exactly the validity and value of the currently
   designated target. *)
Theorem deref_reads_target : forall sh op pre c cid r,
  wf (pre ++ [c]) -> In (cid, r) (o_cons (last_out sh op pre c)) ->
  match spec_sel op (pre ++ [c]) with
  | Some j => r_valid r = tvalid (spec_tgt sh j (pre ++ [c])) /\
              r_vals r = (if tvalid (spec_tgt sh j (pre ++ [c])) then tval (spec_tgt sh j (pre ++ [c])) else [])
  | None => r_valid r = false /\ r_vals r = []
  end.
Proof.
  intros sh op pre c cid r Hwf Hin.
  destruct (last_cycle sh op pre c Hwf) as (ts & l1 & Hts & _ & _ & _ & Hl2 & E).
  rewrite E in Hin. apply consumers_in in Hin as [-> _]. unfold read. rewrite Hl2.
  destruct (spec_sel op (pre ++ [c])) as [j|] eqn:Ej; [rewrite Hts by eauto using spec_sel_lt3|];
    split; reflexivity.
Qed.
Print Assumptions deref_reads_target.

(* deref_reads_target (delta): when the designated target ticks, the whole reading —
   valid, modified, time, value and DELTA — is the one a direct reader of that target
   gets in that cycle. *)
Theorem deref_reads_target_delta : forall sh op pre c j cid r,
  wf (pre ++ [c]) ->
  spec_sel op (pre ++ [c]) = spec_sel op pre -> spec_sel op pre = Some j -> ticks c j = true ->
  In (cid, r) (o_cons (last_out sh op pre c)) ->
  r = read_direct (spec_tgt sh j (pre ++ [c])).
Proof.
  intros sh op pre c j cid r Hwf Hsame Hold Htk Hin.
  rewrite (ticked_cycle sh op pre c j) in Hin by assumption. apply consumers_in in Hin. tauto.
Qed.
Print Assumptions deref_reads_target_delta.

(* wakes_on_target_tick: whenever the designated target ticks, every active consumer is
   evaluated in that cycle and sees it as modified. *)
Theorem wakes_on_target_tick : forall sh op pre c j,
  wf (pre ++ [c]) -> spec_sel op (pre ++ [c]) = Some j -> ticks c j = true ->
  exists r, In (0%nat, r) (o_cons (last_out sh op pre c)) /\ In (1%nat, r) (o_cons (last_out sh op pre c)) /\
            In (3%nat, r) (o_cons (last_out sh op pre c)) /\
            r_valid r = true /\ r_mod r = true /\ r_lmt r = c_t c /\ r_vals r = tval (spec_tgt sh j (pre ++ [c])).
Proof.
  intros sh op pre c j Hwf Hcur Htk.
  destruct (spec_tgt_ticked sh j pre c Htk) as [p Ep].
  assert ({spec_sel op pre = Some j} + {spec_sel op pre <> Some j}) as [Hold|Hne]
    by (decide equality; apply Nat.eq_dec).
  - rewrite (ticked_cycle sh op pre c j), Ep by congruence. eexists. repeat split.
    1-3: apply consumers_notified; reflexivity. all: reflexivity.
  - assert (Hv : tvalid (spec_tgt sh j (pre ++ [c])) = true) by (rewrite Ep; reflexivity).
    destruct (retarget_cycle sh op pre c j Hwf Hcur Hne Hv) as [_ ->]. eexists. repeat split.
    1-3: apply consumers_notified; reflexivity. all: reflexivity.
Qed.
Print Assumptions wakes_on_target_tick.

(* retarget_ticks_same_cycle: a retarget to a VALID target — which need NOT tick in this
   cycle — evaluates every active consumer in that same cycle; it sees modified = true
   at the retarget time, the new target's current value, and (scalar) that value as
   the delta. *)
Theorem retarget_ticks_same_cycle : forall sh op pre c j,
  wf (pre ++ [c]) ->
  spec_sel op (pre ++ [c]) = Some j -> spec_sel op pre <> Some j ->
  tvalid (spec_tgt sh j (pre ++ [c])) = true ->
  exists r, In (0%nat, r) (o_cons (last_out sh op pre c)) /\ In (1%nat, r) (o_cons (last_out sh op pre c)) /\
            In (3%nat, r) (o_cons (last_out sh op pre c)) /\
            o_ref (last_out sh op pre c) = true /\
            r_valid r = true /\ r_mod r = true /\ r_lmt r = c_t c /\
            r_vals r = tval (spec_tgt sh j (pre ++ [c])) /\
            (sh = ShTS -> r_upd r = tval (spec_tgt sh j (pre ++ [c])) /\ r_rem r = []).
Proof.
  intros sh op pre c j Hwf Hcur Hne Hv.
  destruct (retarget_cycle sh op pre c j Hwf Hcur Hne Hv) as [Href ->]. eexists. repeat split.
  1-3: apply consumers_notified; reflexivity. all: try subst sh; auto.
Qed.
Print Assumptions retarget_ticks_same_cycle.

(* keyed_retarget_is_diff.
   FULL STATEMENT (the property): on a retarget of a set / dictionary reference to a
   valid target the delta is the difference between the old contents (what the
   consumer saw before this cycle) and the new contents:
       (r_upd r, r_rem r) = sample_delta sh (old_view ..) (tval (spec_tgt sh j (pre ++ [c])))
   It is FALSE of the faithful model and of the code (theorem _refuted, finding
   C13-stale-removed in docs/notes-ref.md).  Proved instead:
     _partial : it holds when the old target's last tick removed nothing or is in this cycle;
     _added   : the added / modified side holds unconditionally;
     _exact   : what is computed in general (the removed side also repeats the keys the
                old target removed in its last tick, unless the new target holds them). *)
Theorem keyed_retarget_is_diff_partial : forall sh op pre c j,
  wf (pre ++ [c]) -> is_keyed sh = true ->
  spec_sel op (pre ++ [c]) = Some j -> spec_sel op pre <> Some j ->
  tvalid (spec_tgt sh j (pre ++ [c])) = true ->
  old_stale sh (spec_sel op pre) pre c = [] ->
  exists r, In (0%nat, r) (o_cons (last_out sh op pre c)) /\ r_mod r = true /\
            (r_upd r, r_rem r) = sample_delta sh (old_view sh (spec_sel op pre) pre) (tval (spec_tgt sh j (pre ++ [c]))).
Proof.
  intros sh op pre c j Hwf Hk Hcur Hne Hv Hst.
  destruct (retarget_cycle sh op pre c j Hwf Hcur Hne Hv) as [_ ->]. eexists.
  split; [apply consumers_notified; reflexivity|]. split; [reflexivity|].
  simpl. rewrite Hst. destruct sh; [discriminate|reflexivity..].
Qed.
Print Assumptions keyed_retarget_is_diff_partial.

Theorem keyed_retarget_added_is_diff : forall sh op pre c j,
  wf (pre ++ [c]) -> is_keyed sh = true ->
  spec_sel op (pre ++ [c]) = Some j -> spec_sel op pre <> Some j ->
  tvalid (spec_tgt sh j (pre ++ [c])) = true ->
  exists r, In (0%nat, r) (o_cons (last_out sh op pre c)) /\
            r_upd r = fst (sample_delta sh (old_view sh (spec_sel op pre) pre) (tval (spec_tgt sh j (pre ++ [c])))).
Proof.
  intros sh op pre c j Hwf Hk Hcur Hne Hv.
  destruct (retarget_cycle sh op pre c j Hwf Hcur Hne Hv) as [_ ->]. eexists.
  split; [apply consumers_notified|]; reflexivity.
Qed.
Print Assumptions keyed_retarget_added_is_diff.

Theorem keyed_retarget_exact : forall sh op pre c j,
  wf (pre ++ [c]) -> is_keyed sh = true ->
  spec_sel op (pre ++ [c]) = Some j -> spec_sel op pre <> Some j ->
  tvalid (spec_tgt sh j (pre ++ [c])) = true ->
  exists r, In (0%nat, r) (o_cons (last_out sh op pre c)) /\ r_mod r = true /\
            r_upd r = fst (sample_delta sh (old_view sh (spec_sel op pre) pre) (tval (spec_tgt sh j (pre ++ [c])))) /\
            r_rem r = kv_keys (kv_minus (add_stale (old_stale sh (spec_sel op pre) pre c) (old_view sh (spec_sel op pre) pre))
                                        (tval (spec_tgt sh j (pre ++ [c])))).
Proof.
  intros sh op pre c j Hwf Hk Hcur Hne Hv.
  destruct (retarget_cycle sh op pre c j Hwf Hcur Hne Hv) as [_ ->]. eexists.
  split; [apply consumers_notified; reflexivity|].
  destruct sh; [discriminate|repeat split; reflexivity..].
Qed.
Print Assumptions keyed_retarget_exact.

Theorem keyed_retarget_is_diff_refuted :
  exists sh op pre c j,
    wf (pre ++ [c]) /\ is_keyed sh = true /\
    spec_sel op (pre ++ [c]) = Some j /\ spec_sel op pre <> Some j /\
    tvalid (spec_tgt sh j (pre ++ [c])) = true /\
    forall r, In (0%nat, r) (o_cons (last_out sh op pre c)) ->
              (r_upd r, r_rem r) <> sample_delta sh (old_view sh (spec_sel op pre) pre) (tval (spec_tgt sh j (pre ++ [c]))).
Proof.
  exists ShTSS, 0,
    [mkC 1 (Some 1) None [Some [1; 2]; None; None] false false false;
     mkC 2 None None [Some [-1]; Some [5]; None] false false false],
    (mkC 3 (Some 0) None [None; None; None] false false false), 1%nat.
  split; [unfold wf; simpl; lia|]. split; [reflexivity|]. split; [reflexivity|].
  split; [vm_compute; discriminate|]. split; [reflexivity|].
  intros r Hin. vm_compute in Hin. destruct Hin as [H|[H|[H|[]]]]; try discriminate H.
  injection H as <-. vm_compute. discriminate.
Qed.
Print Assumptions keyed_retarget_is_diff_refuted.

(* what spec_sel is: plain ops *)
Theorem plain_designation : forall op pre c v,
  chained op = false -> c_sel c = Some v -> spec_sel op (pre ++ [c]) = Some (sel_target op v).
Proof. exact RefFacts.plain_designation. Qed.
Print Assumptions plain_designation.

(* what spec_sel is: chained ops.  (1) the OUTER selector is quiet and designates the
   inner branch, the INNER selector flips: the consumer-side reference is retargeted to the
   inner selector's new target in this very cycle (so by retarget_ticks_same_cycle and
   unselected_never_reaches, which hold for every op, the consumers see the new target in
   that cycle and no longer the de-selected one).  (2), (3) the outer selector switching
   branches. *)
Theorem chained_inner_flip_retargets : forall op pre c v v2,
  chained op = true ->
  c_sel2 c = None -> s_c2 (spec_selst op pre) = Some v2 -> picks_inner op v2 = true ->
  c_sel c = Some v ->
  s_in (spec_selst op pre) <> Some (sel_target 0 v) ->
  spec_sel op (pre ++ [c]) = Some (sel_target 0 v).
Proof.
  intros op pre c v v2 Hch H2 Hc2 Hpk Hsel Hin.
  rewrite spec_sel_snoc. unfold selst_step, sel_eval.
  rewrite Hch, H2, Hsel, Hc2, Hpk.
  pose proof (publish_out op (sel_target 0 v) (s_in (spec_selst op pre))) as P.
  destruct (publish op (sel_target 0 v) (s_in (spec_selst op pre))); [|contradiction].
  simpl. injection P as ->. apply publish_out.
Qed.
Print Assumptions chained_inner_flip_retargets.

Theorem chained_outer_to_inner : forall op pre c v2 j,
  chained op = true -> c_sel c = None ->
  c_sel2 c = Some v2 -> picks_inner op v2 = true -> s_in (spec_selst op pre) = Some j ->
  spec_sel op (pre ++ [c]) = Some j.
Proof.
  intros op pre c v2 j Hch H1 H2 Hpk Hin.
  rewrite spec_sel_snoc. unfold selst_step, sel_eval.
  rewrite Hch, H1, H2, Hpk, Hin. apply publish_out.
Qed.
Print Assumptions chained_outer_to_inner.

Theorem chained_outer_to_c : forall op pre c v2,
  chained op = true -> c_sel2 c = Some v2 -> picks_inner op v2 = false ->
  spec_sel op (pre ++ [c]) = Some 2%nat.
Proof.
  intros op pre c v2 Hch H2 Hpk.
  rewrite spec_sel_snoc. unfold selst_step, sel_eval.
  rewrite Hch, H2, Hpk. apply publish_out.
Qed.
Print Assumptions chained_outer_to_c.

Theorem reference_ticks_iff_retarget : forall sh op pre c,
  wf (pre ++ [c]) ->
  (o_ref (last_out sh op pre c) = true <-> spec_sel op (pre ++ [c]) <> spec_sel op pre).
Proof.
  intros sh op pre c Hwf.
  destruct (last_cycle sh op pre c Hwf) as (ts & l1 & _ & _ & _ & _ & _ & ->).
  rewrite spec_sel_snoc. unfold spec_sel. pose proof (pub_spec op (spec_selst op pre) c) as P.
  destruct (pub_of op (spec_selst op pre) c); simpl.
  - destruct P as [P1 P2]. split; [congruence|reflexivity].
  - split; [discriminate|]. intros H. elim H. exact P.
Qed.
Print Assumptions reference_ticks_iff_retarget.

(* unselected_never_reaches: in a cycle without retarget in which the designated target
   does not tick, whatever the OTHER targets do, no active consumer is evaluated; a
   consumer evaluated for another reason (its poke input; or c_force: every consumer is
   evaluated anyway; no decoded cycle has it, [nested_consumers] is constantly false; or
   c_nest, op 5: the reference itself crosses into the nested graph and every evaluation
   of the nested node — here its poke input — also runs the active consumers inside:
   finding KF-C13-nested-ref-param-spurious-eval) sees modified = false, an empty delta
   and the unchanged value of the designated target. *)
Theorem unselected_never_reaches : forall sh op pre c cid r,
  wf (pre ++ [c]) ->
  spec_sel op (pre ++ [c]) = spec_sel op pre ->
  (forall j, spec_sel op pre = Some j -> ticks c j = false) ->
  In (cid, r) (o_cons (last_out sh op pre c)) ->
  (c_force c = true \/ (c_poke c = true /\ (cid = 1%nat \/ cid = 2%nat \/ c_nest c = true))) /\
  r_mod r = false /\ r_upd r = [] /\ r_rem r = [] /\
  match spec_sel op pre with
  | Some j => r_valid r = tvalid (spec_tgt sh j pre) /\
              r_vals r = (if tvalid (spec_tgt sh j pre) then tval (spec_tgt sh j pre) else [])
  | None => r_valid r = false /\ r_vals r = []
  end.
Proof.
  intros sh op pre c cid r Hwf Hsame Hnt Hin. destruct (wf_snoc _ _ Hwf) as [Hwp Hlt].
  destruct (last_cycle sh op pre c Hwf) as (ts & l1 & Hts & Hl1 & _ & Hlm & _ & E).
  rewrite E, (pub_same _ _ _ Hsame) in Hin. cbn [o_cons fst snd is_some] in Hin.
  assert (Hg : match spec_sel op pre with Some j => get_t ts j | None => t0 end =
               match spec_sel op pre with Some j => spec_tgt sh j pre | None => t0 end /\
               bound_ticked (spec_sel op pre) c = false).
  { destruct (spec_sel op pre) as [j|] eqn:Eo; [|auto].
    rewrite Hts, spec_tgt_unticked by eauto using spec_sel_lt3. simpl. auto. }
  destruct Hg as [Hg Hbt]. rewrite Hbt in *.
  apply consumers_in in Hin as [-> Hwho]. split.
  { destruct Hwho as [H|[[[H1 H2]%andb_true_iff _]|H]]; tauto. }
  pose proof (read_quiet sh (c_t c) ts l1) as Q. cbv zeta in Q. rewrite Hl1, Hg in Q.
  destruct Q as [lmt ->]; [lia| |].
  - destruct (spec_sel op pre) as [j|]; [|change (0 < c_t c); lia]. pose proof (spec_tgt_lmt_le sh j pre Hwp). lia.
  - destruct (spec_sel op pre); repeat split; reflexivity.
Qed.
Print Assumptions unselected_never_reaches.

(* same_designation_no_tick: for ANY selector activity, chained ops included (e.g. the inner
   selector flipping while the outer one designates C; if_cmp going from EQ to GT, both C): as
   long as the designation is unchanged the reference does not tick and nothing reaches *)
Theorem same_designation_no_tick : forall sh op pre c,
  wf (pre ++ [c]) ->
  spec_sel op (pre ++ [c]) = spec_sel op pre ->
  o_ref (last_out sh op pre c) = false /\
  ((forall j, spec_sel op pre = Some j -> ticks c j = false) ->
   forall cid r, In (cid, r) (o_cons (last_out sh op pre c)) ->
     (c_force c = true \/ (c_poke c = true /\ (cid = 1%nat \/ cid = 2%nat \/ c_nest c = true))) /\
     r_mod r = false /\ r_upd r = [] /\ r_rem r = []).
Proof.
  intros sh op pre c Hwf Hsame. split.
  - apply not_true_iff_false. rewrite reference_ticks_iff_retarget by assumption. tauto.
  - intros Hnt cid r Hin.
    destruct (unselected_never_reaches sh op pre c cid r Hwf Hsame Hnt Hin) as (? & ? & ? & ? & _). auto.
Qed.
Print Assumptions same_designation_no_tick.

(* same_reference_no_tick: a selector tick that designates the target already designated
   republishes nothing — the reference output does not tick — and unless that target
   itself ticks nothing reaches the consumers. *)
Theorem same_reference_no_tick : forall sh op pre c v,
  wf (pre ++ [c]) -> chained op = false ->
  c_sel c = Some v -> spec_sel op pre = Some (sel_target op v) ->
  o_ref (last_out sh op pre c) = false /\
  (ticks c (sel_target op v) = false ->
   forall cid r, In (cid, r) (o_cons (last_out sh op pre c)) ->
     (c_force c = true \/ (c_poke c = true /\ (cid = 1%nat \/ cid = 2%nat \/ c_nest c = true))) /\
     r_mod r = false /\ r_upd r = [] /\ r_rem r = []).
Proof.
  intros sh op pre c v Hwf Hch Hsel Hold.
  destruct (same_designation_no_tick sh op pre c Hwf) as [H1 H2].
  { rewrite Hold. apply plain_designation; assumption. }
  split; [exact H1|]. intros Hnt. apply H2. rewrite Hold. intros j [= <-]. exact Hnt.
Qed.
Print Assumptions same_reference_no_tick.

(* the passive consumer is never woken through the reference *)
Theorem passive_only_poked : forall sh op pre c r,
  wf (pre ++ [c]) -> In (2%nat, r) (o_cons (last_out sh op pre c)) -> c_poke c = true \/ c_force c = true.
Proof.
  intros sh op pre c r Hwf Hin.
  destruct (last_cycle sh op pre c Hwf) as (ts & l1 & _ & _ & _ & _ & _ & E).
  rewrite E in Hin. apply consumers_in in Hin as [_ [H|[[_ H]|[H _]]]]; [auto|now elim H|auto].
Qed.
Print Assumptions passive_only_poked.

(* the targets themselves are undisturbed: their direct readers see their own history *)
Theorem direct_readers_see_own_history : forall sh op pre c i r,
  wf (pre ++ [c]) -> In (i, r) (o_direct (last_out sh op pre c)) ->
  ticks c i = true /\ r = read_direct (spec_tgt sh i (pre ++ [c])).
Proof.
  intros sh op pre c i r Hwf Hin.
  destruct (last_cycle sh op pre c Hwf) as (ts & l1 & Hts & _ & _ & _ & _ & E).
  rewrite E in Hin. apply in_flat_map in Hin as (k & Hk & Hin).
  destruct (ticks c k) eqn:Ek; [|contradiction]. destruct Hin as [[= <- <-]|[]].
  rewrite Hts by (simpl in Hk; lia). auto.
Qed.
Print Assumptions direct_readers_see_own_history.

(* The identity of a target is (owning node, path inside its output) — [tid], [tid_of].  With
   [same_producer op] the selectable targets are the fields of ONE producer node's bundle
   output.  Every theorem above is stated for every op, hence also for these; the three below
   spell out what that means for siblings. *)
Theorem sibling_identity : forall op i j,
  same_producer op = true -> i <> j ->
  t_node (tid_of op i) = t_node (tid_of op j) /\ tid_of op i <> tid_of op j /\ same_target op i j = false.
Proof. exact RefFacts.sibling_identity. Qed.
Print Assumptions sibling_identity.

(* a retarget between two sub-outputs of the same node IS a retarget: the consumers are
   evaluated in that cycle and see the new sibling's current value as modified *)
Theorem sibling_retarget_is_a_retarget : forall sh op pre c i j,
  wf (pre ++ [c]) -> same_producer op = true ->
  spec_sel op pre = Some i -> spec_sel op (pre ++ [c]) = Some j -> i <> j ->
  tvalid (spec_tgt sh j (pre ++ [c])) = true ->
  t_node (tid_of op i) = t_node (tid_of op j) /\
  exists r, In (0%nat, r) (o_cons (last_out sh op pre c)) /\ In (1%nat, r) (o_cons (last_out sh op pre c)) /\
            In (3%nat, r) (o_cons (last_out sh op pre c)) /\
            o_ref (last_out sh op pre c) = true /\
            r_valid r = true /\ r_mod r = true /\ r_lmt r = c_t c /\
            r_vals r = tval (spec_tgt sh j (pre ++ [c])) /\
            (sh = ShTS -> r_upd r = tval (spec_tgt sh j (pre ++ [c])) /\ r_rem r = []).
Proof.
  intros sh op pre c i j Hwf Hp Hold Hcur Hne Hv.
  split; [apply (sibling_identity op i j Hp Hne)|].
  apply retarget_ticks_same_cycle; auto. congruence.
Qed.
Print Assumptions sibling_retarget_is_a_retarget.

(* ticks of the de-selected sibling never reach the consumers *)
Theorem sibling_tick_never_reaches : forall sh op pre c i j cid r,
  wf (pre ++ [c]) -> same_producer op = true ->
  spec_sel op pre = Some j -> spec_sel op (pre ++ [c]) = Some j ->
  i <> j -> ticks c i = true -> ticks c j = false ->
  In (cid, r) (o_cons (last_out sh op pre c)) ->
  t_node (tid_of op i) = t_node (tid_of op j) /\
  (c_force c = true \/ (c_poke c = true /\ (cid = 1%nat \/ cid = 2%nat \/ c_nest c = true))) /\
  r_mod r = false /\ r_upd r = [] /\ r_rem r = [] /\
  r_valid r = tvalid (spec_tgt sh j pre) /\
  r_vals r = (if tvalid (spec_tgt sh j pre) then tval (spec_tgt sh j pre) else []).
Proof.
  intros sh op pre c i j cid r Hwf Hp Hold Hcur Hne Hti Htj Hin.
  split; [apply (sibling_identity op i j Hp Hne)|].
  pose proof (unselected_never_reaches sh op pre c cid r Hwf) as U.
  rewrite Hold in U. apply U; [exact Hcur| |exact Hin]. intros k [= <-]. exact Htj.
Qed.
Print Assumptions sibling_tick_never_reaches.

(* Consumers that sit in their OWN nested graph (ops 3, 5; [wrapped op]: behind a nested
   pass-through, where the re-bound export replays the new target's own, OLDER, modification
   time as the schedule request) are woken through graph.cpp nested_schedule_node_impl, which
   clamps the request time to the current time BEFORE it writes the child's per-node slot
   ([wake], [nested_slot]).  Every theorem above is stated for every op, so retarget_ticks_same_cycle already says that
   the retarget wakes such a consumer in the retarget cycle.  The three below are about the
   clamp alone, no history or retarget occurs in them.  The first: for EVERY op (only for
   [wrapped op] can [wake] be false at all) a request time that is not in the future runs
   in the current cycle. *)
Theorem retarget_wakes_nested_consumer : forall op now when,
  when <= now -> wake op now when = true.
Proof. exact RefFacts.wake_true. Qed.
Print Assumptions retarget_wakes_nested_consumer.

(* the clamp iterated, once per boundary crossed, still gives now; the model itself clamps
   once ([wake]) and has no depth *)
Theorem retarget_wakes_nested_consumer_at_any_depth : forall d when now,
  when <= now -> Nat.iter (S d) (fun w => nested_slot w now) when = now.
Proof.
  intros d when now H. induction d as [|d IH].
  - apply nested_slot_now, H.
  - change (nested_slot (Nat.iter (S d) (fun w => nested_slot w now) when) now = now).
    rewrite IH. apply nested_slot_now. lia.
Qed.
Print Assumptions retarget_wakes_nested_consumer_at_any_depth.

(* why the clamp must come before the slot write (seeded change
   C13w3-clamp-after-child-slot-write): an older time never equals now, the test of the
   exact-time evaluation loop.  Arithmetic only: the model has no unclamped variant *)
Theorem unclamped_slot_never_runs : forall when now, when < now -> (when =? now) = false.
Proof. exact RefFacts.unclamped_slot_never_runs. Qed.
Print Assumptions unclamped_slot_never_runs.

(* A history with: selection of A, ticks of A and B, a same-value selector tick, a
   retarget to B (valid, not ticking in that cycle), a tick of the unselected A. *)
Definition ex_pre : list cyc :=
  [mkC 1 (Some 1) None [Some [1; 2]; None; None] false false false;
   mkC 2 None None [Some [3]; Some [2; 5]; None] true false false;
   mkC 4 (Some 1) None [None; Some [6]; None] false false false].
Definition ex_retarget : cyc := mkC 5 (Some 0) None [Some [7]; None; None] false false false.     (* to B; only A (old) ticks *)
Definition ex_tick : cyc := mkC 5 None None [Some [7]; None; None] true false false.              (* the designated A ticks *)
Definition ex_unsel : cyc := mkC 5 (Some 1) None [None; Some [-2]; None] true false false.        (* same selection; only B ticks *)

Example ex_wf : wf (ex_pre ++ [ex_retarget]) /\ wf (ex_pre ++ [ex_tick]) /\ wf (ex_pre ++ [ex_unsel]).
Proof. unfold wf; simpl; lia. Qed.

(* hypotheses of retarget_ticks_same_cycle / keyed_retarget_*: met, the new target does NOT
   tick in the retarget cycle, the consumer sees {2,5,6} with added {5,6} removed {1,3} *)
Example ex_retarget_hyps :
  spec_sel 0 (ex_pre ++ [ex_retarget]) = Some 1%nat /\ spec_sel 0 ex_pre <> Some 1%nat /\
  tvalid (spec_tgt ShTSS 1 (ex_pre ++ [ex_retarget])) = true /\ ticks ex_retarget 1 = false /\
  old_stale ShTSS (spec_sel 0 ex_pre) ex_pre ex_retarget = [] /\
  o_cons (last_out ShTSS 0 ex_pre ex_retarget) =
    let r := mkR true true 5 [(2, 0); (5, 0); (6, 0)] [(5, 0); (6, 0)] [1; 3] in [(0%nat, r); (1%nat, r); (3%nat, r)].
Proof. vm_compute. repeat split; try reflexivity; discriminate. Qed.

Example ex_retarget_scalar :
  o_cons (last_out ShTS 0 ex_pre ex_retarget) =
    let r := mkR true true 5 [(0, 6)] [(0, 6)] [] in [(0%nat, r); (1%nat, r); (3%nat, r)].
Proof. vm_compute. reflexivity. Qed.

(* hypotheses of deref_reads_target_delta / wakes_on_target_tick: met *)
Example ex_tick_hyps :
  spec_sel 0 (ex_pre ++ [ex_tick]) = spec_sel 0 ex_pre /\ spec_sel 0 ex_pre = Some 0%nat /\ ticks ex_tick 0 = true /\
  o_cons (last_out ShTSS 0 ex_pre ex_tick) =
    let r := mkR true true 5 [(1, 0); (2, 0); (3, 0); (7, 0)] [(7, 0)] [] in [(0%nat, r); (1%nat, r); (2%nat, r); (3%nat, r)].
Proof. vm_compute. repeat split; reflexivity. Qed.

(* hypotheses of same_reference_no_tick / unselected_never_reaches: met, and the poked
   consumers do read (so the conclusion is not about an empty list) *)
Example ex_unsel_hyps :
  c_sel ex_unsel = Some 1 /\ spec_sel 0 ex_pre = Some (sel_target 0 1) /\ ticks ex_unsel (sel_target 0 1) = false /\
  ticks ex_unsel 1 = true /\
  o_ref (last_out ShTSS 0 ex_pre ex_unsel) = false /\
  o_cons (last_out ShTSS 0 ex_pre ex_unsel) =
    let r := mkR true false 2 [(1, 0); (2, 0); (3, 0)] [] [] in [(1%nat, r); (2%nat, r)].
Proof. vm_compute. repeat split; reflexivity. Qed.

(* consumers INSIDE a nested graph (op 3): exactly as inlined (since /repo ed827a0 the first
   cycle of the nested graph no longer evaluates all its nodes) *)
Example ex_nested_consumers :
  run_ref [[1; 1; 10; 0; 3]; [2; 0; 2; 1]; [2; 1; 2; 100]; [2; 2; 3; 200]; [2; 0; 4; 0]] =
  [[21; 1; 2; 1; 1; 2; 1; 0; 100; 1; 0; 100; 0];
   [20; 0; 2; 1; 1; 2; 1; 0; 100; 1; 0; 100; 0]; [20; 1; 2; 1; 1; 2; 1; 0; 100; 1; 0; 100; 0];
   [20; 3; 2; 1; 1; 2; 1; 0; 100; 1; 0; 100; 0]; [22; 2];
   [21; 2; 3; 1; 1; 3; 1; 0; 200; 1; 0; 200; 0];
   [20; 0; 4; 1; 1; 4; 1; 0; 200; 1; 0; 200; 0]; [20; 1; 4; 1; 1; 4; 1; 0; 200; 1; 0; 200; 0];
   [20; 3; 4; 1; 1; 4; 1; 0; 200; 1; 0; 200; 0]; [22; 4]].
Proof. vm_compute. reflexivity. Qed.

(* the REFERENCE crosses into the nested graph (op 5): a poke of the nested node at t=3 also
   runs the active consumers 0 and 3, which read modified = false *)
Example ex_nested_ref_param :
  run_ref [[1; 1; 10; 0; 5]; [2; 0; 2; 1]; [2; 1; 2; 100]; [2; 7; 3; 1]; [2; 2; 4; 200]] =
  [[21; 1; 2; 1; 1; 2; 1; 0; 100; 1; 0; 100; 0];
   [20; 0; 2; 1; 1; 2; 1; 0; 100; 1; 0; 100; 0]; [20; 1; 2; 1; 1; 2; 1; 0; 100; 1; 0; 100; 0];
   [20; 3; 2; 1; 1; 2; 1; 0; 100; 1; 0; 100; 0]; [22; 2];
   [20; 0; 3; 1; 0; 2; 1; 0; 100; 0; 0]; [20; 1; 3; 1; 0; 2; 1; 0; 100; 0; 0];
   [20; 2; 3; 1; 0; 2; 1; 0; 100; 0; 0]; [20; 3; 3; 1; 0; 2; 1; 0; 100; 0; 0];
   [21; 2; 4; 1; 1; 4; 1; 0; 200; 1; 0; 200; 0]].
Proof. vm_compute. reflexivity. Qed.

(* CHAINED selection (op 6): c2 selects the inner branch at t=2 and stays quiet; c1 flips
   A -> B at t=4: the consumers are evaluated at t=4 and read B as modified; A's tick
   at t=5 no longer reaches them, B's tick at t=6 does *)
Definition ex_chain_pre : list cyc :=
  [mkC 1 None None [Some [100]; Some [200]; Some [300]] false false false;
   mkC 2 None (Some 1) [None; None; None] false false false;
   mkC 3 (Some 1) None [None; Some [201]; None] false false false].
Definition ex_chain_flip : cyc := mkC 4 (Some 0) None [None; None; None] false false false.
Example ex_chained_hyps :
  chained 6 = true /\ c_sel2 ex_chain_flip = None /\ s_c2 (spec_selst 6 ex_chain_pre) = Some 1 /\
  picks_inner 6 1 = true /\ s_in (spec_selst 6 ex_chain_pre) <> Some (sel_target 0 0) /\
  spec_sel 6 ex_chain_pre = Some 0%nat /\ spec_sel 6 (ex_chain_pre ++ [ex_chain_flip]) = Some 1%nat /\
  o_cons (last_out ShTS 6 ex_chain_pre ex_chain_flip) =
    let r := mkR true true 4 [(0, 201)] [(0, 201)] [] in [(0%nat, r); (1%nat, r); (3%nat, r)].
Proof. vm_compute. repeat split; try reflexivity; discriminate. Qed.

Example ex_chained_case_file :
  filter (fun l => hdz l =? 20) (filter (fun l => nthz 1 l =? 0)
    (run_ref [[1; 1; 10; 0; 6]; [2; 1; 1; 100]; [2; 2; 1; 200]; [2; 3; 1; 300]; [2; 4; 2; 1]; [2; 0; 3; 1];
              [2; 0; 4; 0]; [2; 1; 5; 101]; [2; 2; 6; 202]; [2; 4; 7; 0]; [2; 0; 8; 1]])) =
  [[20; 0; 3; 1; 1; 3; 1; 0; 100; 1; 0; 100; 0];
   [20; 0; 4; 1; 1; 4; 1; 0; 200; 1; 0; 200; 0];
   [20; 0; 6; 1; 1; 6; 1; 0; 202; 1; 0; 202; 0];
   [20; 0; 7; 1; 1; 7; 1; 0; 300; 1; 0; 300; 0]].
Proof. vm_compute. reflexivity. Qed.

(* targets = fields of ONE producer (sixth header field 1; op 10 in the model): retarget from
   field a to its sibling b at t=3 (b valid since t=1, not ticking), then a's tick at t=4 does
   not reach the consumers, b's tick at t=5 does *)
Example ex_sibling_hyps :
  same_producer 10 = true /\ spec_sel 10 ex_pre = Some 0%nat /\
  spec_sel 10 (ex_pre ++ [ex_retarget]) = Some 1%nat /\
  tvalid (spec_tgt ShTS 1 (ex_pre ++ [ex_retarget])) = true /\
  o_cons (last_out ShTS 10 ex_pre ex_retarget) =
    let r := mkR true true 5 [(0, 6)] [(0, 6)] [] in [(0%nat, r); (1%nat, r); (3%nat, r)].
Proof. vm_compute. repeat split; reflexivity. Qed.

Example ex_sibling_case_file :
  filter (fun l => (hdz l =? 20) && (nthz 1 l =? 0))
    (run_ref [[1; 1; 10; 0; 0; 1]; [2; 1; 1; 100]; [2; 2; 1; 200]; [2; 0; 2; 1]; [2; 0; 3; 0]; [2; 1; 4; 101]; [2; 2; 5; 201]]) =
  [[20; 0; 2; 1; 1; 2; 1; 0; 100; 1; 0; 100; 0];
   [20; 0; 3; 1; 1; 3; 1; 0; 200; 1; 0; 200; 0];
   [20; 0; 5; 1; 1; 5; 1; 0; 201; 1; 0; 201; 0]].
Proof. vm_compute. reflexivity. Qed.

(* wrapped (op 20: consumers in their own nested graph behind a nested pass-through): retarget to B,
   which ticked earlier (t = 4) while unselected and is quiet in the retarget cycle t = 5: the
   request time is B's old 4, the clamp makes it 5, the consumers run at 5 *)
Example ex_wrapped_hyps :
  wrapped 20 = true /\ in_nested 20 = true /\
  tlmt (spec_tgt ShTS 1 (ex_pre ++ [ex_retarget])) = 4 /\ c_t ex_retarget = 5 /\
  wake 20 5 4 = true /\ (4 =? 5) = false /\
  o_cons (last_out ShTS 20 ex_pre ex_retarget) =
    let r := mkR true true 5 [(0, 6)] [(0, 6)] [] in [(0%nat, r); (1%nat, r); (3%nat, r)].
Proof. vm_compute. repeat split; reflexivity. Qed.

(* on a concrete case file the model prints the lines the driver prints for it (finding
   C13-stale-removed: key 1 is reported removed at t=2 and again at t=3) *)
Example ex_case_file :
  run_ref [[1; 1; 10; 1; 0]; [2; 0; 1; 1]; [2; 1; 1; 1; 2]; [2; 1; 2; -1]; [2; 2; 2; 5]; [2; 0; 3; 0]] =
  [[21; 1; 1; 1; 1; 1; 2; 1; 0; 2; 0; 2; 1; 0; 2; 0; 0];
   [20; 0; 1; 1; 1; 1; 2; 1; 0; 2; 0; 2; 1; 0; 2; 0; 0];
   [20; 1; 1; 1; 1; 1; 2; 1; 0; 2; 0; 2; 1; 0; 2; 0; 0];
   [20; 3; 1; 1; 1; 1; 2; 1; 0; 2; 0; 2; 1; 0; 2; 0; 0];
   [22; 1];
   [21; 1; 2; 1; 1; 2; 1; 2; 0; 0; 1; 1];
   [21; 2; 2; 1; 1; 2; 1; 5; 0; 1; 5; 0; 0];
   [20; 0; 2; 1; 1; 2; 1; 2; 0; 0; 1; 1];
   [20; 1; 2; 1; 1; 2; 1; 2; 0; 0; 1; 1];
   [20; 3; 2; 1; 1; 2; 1; 2; 0; 0; 1; 1];
   [20; 0; 3; 1; 1; 3; 1; 5; 0; 1; 5; 0; 2; 1; 2];
   [20; 1; 3; 1; 1; 3; 1; 5; 0; 1; 5; 0; 2; 1; 2];
   [20; 3; 3; 1; 1; 3; 1; 5; 0; 1; 5; 0; 2; 1; 2];
   [22; 3]].
Proof. vm_compute. reflexivity. Qed.
