(* Props/C08.v — property C08: a feedback edge delivers to its reader exactly the sequence
   of values written to it, each one smallest time step (MIN_TD) after the cycle in which it
   was written (a declared initial value at the start time), without loss, duplication or
   reordering; the reader never observes a value in the cycle that produced it; a loop closed
   through a feedback whose reader is passive becomes quiescent.

   The model is coq/Feedback.v: the flat engine of coq/Engine.v (graph slots with the
   min-semantics of schedule_node, the node evaluate gate, notification of active inputs,
   the scan, the simulation run loop) extended by mirrors of
   evaluate_feedback_source / evaluate_feedback_sink / start_feedback_source_with_initial_delta
   (src/hgraph/runtime/feedback_node.cpp).  User code of every other node is an arbitrary
   [behaviour]; graphs are arbitrary lists of node configurations subject to [fb_wf], which
   says what the wiring layer guarantees: edges point forward in rank order (so a source is
   ranked before its readers and before its sink, and the sink after the producer), the two
   node kinds have the schemas make_feedback_*_node give them, a source is bound once.

   Vocabulary: [ticks_of i sts] is the stream of (cycle time, value) in which node i's output
   was modified, over the cycle-end states [sts] of a run - what a recorder bound to that
   output sees.  For a pair (sink k, producer p, source s): [ticks_of p] are the writes,
   [ticks_of s] is the reader side. *)
Require Import Base Sched Engine EngineFacts Feedback FeedbackFacts.

(* For every graph, every user code, every pair, every run that ends without an escaping
   exception (fuel exhaustion is an error): the reader-side stream is EXACTLY the declared
   initial value at the start time followed by the stream of writes moved by one smallest
   step - same values, same order, same multiplicity; only a write whose delivery time is
   not before the end time is cut off.  Writes in consecutive smallest steps, gaps, any
   number of pairs ticking together are all instances. *)
Theorem feedback_shift : forall cfgs kinds beh, fb_wf cfgs kinds ->
  forall k p s init, kind_at kinds k = FSink -> cfg cfgs k = sink_cfg p s -> kind_at kinds s = FSource init ->
  forall start end_ fuel, MIN_DT < start -> end_ <= MAX_DT ->
  g_err (f_g (fsim cfgs kinds beh start end_ fuel)) = 0 ->
  let sts := fstates cfgs kinds beh end_ fuel (fstart cfgs kinds beh start) in
  ticks_of s sts =
  (match init with Some v => if start <? end_ then [(start, v)] else [] | None => [] end) ++
  map shift (filter (deliverable end_) (ticks_of p sts)).
Proof. exact FeedbackFacts.feedback_shift_l. Qed.
Print Assumptions feedback_shift.

(* no loss, spelled out *)
Theorem every_write_is_delivered_one_step_later : forall cfgs kinds beh, fb_wf cfgs kinds ->
  forall k p s init start end_ fuel,
  kind_at kinds k = FSink -> cfg cfgs k = sink_cfg p s -> kind_at kinds s = FSource init ->
  MIN_DT < start -> end_ <= MAX_DT ->
  g_err (f_g (fsim cfgs kinds beh start end_ fuel)) = 0 ->
  let sts := fstates cfgs kinds beh end_ fuel (fstart cfgs kinds beh start) in
  forall t v, In (t, v) (ticks_of p sts) -> t + MIN_TD < end_ -> In (t + MIN_TD, v) (ticks_of s sts).
Proof.
  intros cfgs kinds beh WF k p s init start end_ fuel HK HC HS Hst He Herr sts t v Hin Hlt. unfold sts in *.
  rewrite (feedback_shift cfgs kinds beh WF k p s init HK HC HS start end_ fuel Hst He Herr).
  apply in_or_app. right. apply in_map_iff. exists (t, v). split; [reflexivity|].
  apply filter_In. split; auto. unfold deliverable. simpl. lia.
Qed.
Print Assumptions every_write_is_delivered_one_step_later.

(* never in the cycle that produced it: whatever the reader side shows at t was written at
   t - MIN_TD (or is the initial value at the start time) *)
Theorem never_same_cycle : forall cfgs kinds beh, fb_wf cfgs kinds ->
  forall k p s init start end_ fuel,
  kind_at kinds k = FSink -> cfg cfgs k = sink_cfg p s -> kind_at kinds s = FSource init ->
  MIN_DT < start -> end_ <= MAX_DT ->
  g_err (f_g (fsim cfgs kinds beh start end_ fuel)) = 0 ->
  let sts := fstates cfgs kinds beh end_ fuel (fstart cfgs kinds beh start) in
  forall t v, In (t, v) (ticks_of s sts) ->
    (t = start /\ init = Some v) \/ In (t - MIN_TD, v) (ticks_of p sts).
Proof.
  intros cfgs kinds beh WF k p s init start end_ fuel HK HC HS Hst He Herr sts t v Hin. unfold sts in *.
  rewrite (feedback_shift cfgs kinds beh WF k p s init HK HC HS start end_ fuel Hst He Herr) in Hin.
  apply in_app_or in Hin. destruct Hin as [Hin|Hin].
  - left. destruct init as [w|], (start <? end_); try easy. destruct Hin as [[= <- <-]|[]]. auto.
  - right. apply in_map_iff in Hin. destruct Hin as ([t0 v0] & [= <- <-] & Hin). apply filter_In in Hin.
    simpl. now replace (t0 + MIN_TD - MIN_TD) with t0 by lia.
Qed.
Print Assumptions never_same_cycle.

(* the mechanism behind it: evaluating the sink changes no output at all *)
Theorem sink_leaves_outputs_untouched : forall cfgs i x,
  g_nodes (f_g (eval_sink cfgs i x)) = g_nodes (f_g x).
Proof.
  intros cfgs i x. destruct (eval_sink_eq cfgs i x) as [L ->].
  destruct (_ && _); simpl; [apply schedule_node_spec|reflexivity].
Qed.
Print Assumptions sink_leaves_outputs_untouched.

(* invalidation: a producer may also WITHDRAW its value (out.invalidate(), Engine.OInvalidate).  That
   notifies the sink, but the sink's callback sits behind the node gate valid_inputs = {0} and does
   not run: nothing is captured, nothing is scheduled.  An invalidation is therefore not a write
   ([ticks_of p] lists the cycles in which p's output was modified AND holds a value) and, by
   [feedback_shift], produces nothing on the reader side: the feedback keeps the last delivered value. *)
Theorem sink_ignores_invalid_producer : forall cfgs j x p s,
  cfg cfgs j = sink_cfg p s -> n_val (node_at p (f_g x)) = None ->
  let x' := eval_sink cfgs j x in
  g_nodes (f_g x') = g_nodes (f_g x) /\ f_st x' = f_st x /\ g_slots (f_g x') = g_slots (f_g x) /\
  g_nst (f_g x') = g_nst (f_g x).
Proof.
  intros cfgs j x p s Hc Hv. cbn zeta. destruct (eval_sink_eq cfgs j x) as [L ->].
  now rewrite Hc, ready_sink, Hv, andb_false_r.
Qed.
Print Assumptions sink_ignores_invalid_producer.

(* [FB pend x] is the invariant between two cycles ([pend] = the value captured and not yet
   delivered; the next cycle is at g_nst).  One cycle: the source ticks exactly [pend]; what
   the producer writes becomes the new [pend]; and in that case the engine's next scheduled
   time is exactly one smallest step later - from the scheduling mechanics alone (the sink's
   raw request lowers the cached next time), whatever else is or is not scheduled. *)
Theorem cycle_step_pair : forall cfgs kinds beh, fb_wf cfgs kinds ->
  forall k p s init, kind_at kinds k = FSink -> cfg cfgs k = sink_cfg p s -> kind_at kinds s = FSource init ->
  forall pend x, FB cfgs k p s pend x -> g_nst (f_g x) < MAX_DT ->
  let t := g_nst (f_g x) in
  let x' := fcycle cfgs kinds beh t x in
  g_err (f_g x') = 0 ->
  g_now (f_g x') = t /\ tick_now s (f_g x') = pend /\ FB cfgs k p s (tick_now p (f_g x')) x' /\
  t < g_nst (f_g x') /\ (tick_now p (f_g x') <> None -> g_nst (f_g x') = t + MIN_TD).
Proof. exact FeedbackFacts.fcycle_pair. Qed.
Print Assumptions cycle_step_pair.

(* the invariant holds after the start phase, with [pend] = the declared initial value *)
Theorem invariant_after_start : forall cfgs kinds beh, fb_wf cfgs kinds ->
  forall k p s init, kind_at kinds k = FSink -> cfg cfgs k = sink_cfg p s -> kind_at kinds s = FSource init ->
  forall start, MIN_DT < start -> start <= MAX_DT -> g_err (f_g (fstart cfgs kinds beh start)) = 0 ->
  FB cfgs k p s init (fstart cfgs kinds beh start) /\ g_now (f_g (fstart cfgs kinds beh start)) = start /\
  start <= g_nst (f_g (fstart cfgs kinds beh start)) /\
  (init <> None -> g_nst (f_g (fstart cfgs kinds beh start)) = start).
Proof. exact FeedbackFacts.fstart_FB. Qed.
Print Assumptions invariant_after_start.

(* the cycle of the delivery exists: the run loop's next cycle is the one at t + MIN_TD *)
Theorem delivery_cycle_exists : forall cfgs kinds beh, fb_wf cfgs kinds ->
  forall k p s init pend x end_ f w,
  kind_at kinds k = FSink -> cfg cfgs k = sink_cfg p s -> kind_at kinds s = FSource init ->
  FB cfgs k p s pend x -> g_nst (f_g x) < MAX_DT -> end_ <= MAX_DT ->
  let t := g_nst (f_g x) in
  let x' := fcycle cfgs kinds beh t x in
  g_err (f_g x') = 0 -> tick_now p (f_g x') = Some w -> t + MIN_TD < end_ ->
  exists rest, fstates cfgs kinds beh end_ (S f) x' = fcycle cfgs kinds beh (t + MIN_TD) x' :: rest.
Proof.
  intros cfgs kinds beh WF k p s init pend x end_ f w HK HC HS HF Hlt He t x' Herr Hw Hend.
  destruct (cycle_step_pair cfgs kinds beh WF k p s init HK HC HS pend x HF Hlt Herr) as (_ & _ & _ & _ & W).
  fold t x' in W. rewrite Hw in W. cbn [fstates]. rewrite Herr, W by easy. cbn [Z.eqb negb].
  replace ((t + MIN_TD =? MAX_DT) || (end_ <=? t + MIN_TD)) with false by lia.
  eexists. reflexivity.
Qed.
Print Assumptions delivery_cycle_exists.

(* The shift is FALSE of the same mechanism when the source is ranked after its sink (the
   statement keeps the three pair facts, the producer before the sink, the bounds on start and
   end and the run without error, and has k < s for s < k; of the rest of [fb_wf] it says
   nothing): with writes in consecutive smallest steps the sink overwrites the
   captured value before the source emitted it, and its raw request - finding the slot "due
   now" - moves the slot one step on, so the source is not even evaluated.  Witness: writes
   10, 20, 30 at 1, 2, 3; the reader side shows only (4, 30). *)
Theorem needs_source_before_sink_refuted :
  exists cfgs kinds beh k p s start end_ fuel,
    kind_at kinds k = FSink /\ cfg cfgs k = sink_cfg p s /\ kind_at kinds s = FSource None /\
    (p < k)%nat /\ (k < s)%nat /\ MIN_DT < start /\ end_ <= MAX_DT /\
    g_err (f_g (fsim cfgs kinds beh start end_ fuel)) = 0 /\
    let sts := fstates cfgs kinds beh end_ fuel (fstart cfgs kinds beh start) in
    ticks_of s sts <> map shift (filter (deliverable end_) (ticks_of p sts)).
Proof.
  exists (fst (graph_of cm_case)), (snd (graph_of cm_case)), (script_beh cm_case), 1%nat, 0%nat, 2%nat, 1, 8, 8%nat.
  split; [vm_compute; reflexivity|]. split; [vm_compute; reflexivity|]. split; [vm_compute; reflexivity|].
  split; [lia|]. split; [lia|]. split; [vm_compute; reflexivity|]. split; [vm_compute; intros H; discriminate|].
  split; [vm_compute; reflexivity|].
  vm_compute. intros H. discriminate.
Qed.
Print Assumptions needs_source_before_sink_refuted.

Theorem needs_source_before_sink_witness :
  let '(cfgs, kinds) := graph_of cm_case in
  let '(x, sts) := run_of cm_case in
  kind_at kinds 1 = FSink /\ cfg cfgs 1 = sink_cfg 0 2 /\ kind_at kinds 2 = FSource None /\
  g_err (f_g x) = 0 /\
  ticks_of 0 sts = [(1, 10); (2, 20); (3, 30)] /\
  ticks_of 2 sts = [(4, 30)].
Proof. vm_compute. split; [reflexivity|]. split; [reflexivity|]. split; [reflexivity|]. split; [reflexivity|]. split; reflexivity. Qed.
Print Assumptions needs_source_before_sink_witness.

(* If everything due at the next cycle is a feedback source to which no node is SUBSCRIBED
   ([unread_source g i]: in state g every reader's input bound to i is passive at run time -
   n_act, which is the declared i_active unless user code called make_passive / make_active),
   and nothing is armed later, then that cycle evaluates nothing but those sources (no other
   node's state changes, nothing is captured), leaves the engine with no scheduled time, and
   the run loop stops there - whatever the end time.  (What the sources tick in it is said by
   [cycle_step_pair], not here.)  (With an active reader the loop re-ticks every smallest step up
   to the end time: example below.) *)
Theorem passive_loop_quiesces : forall cfgs kinds beh x,
  let T := g_nst (f_g x) in
  (forall i, (i < length cfgs)%nat -> slot_at i (f_g x) <= T) ->
  (forall i, (i < length cfgs)%nat -> slot_at i (f_g x) = T -> unread_source cfgs kinds (f_g x) i) ->
  let x' := fcycle cfgs kinds beh T x in
  g_nst (f_g x') = MAX_DT /\
  (forall end_ fuel, frun cfgs kinds beh end_ (S fuel) x' = x') /\
  (forall m, (forall init, kind_at kinds m <> FSource init) -> node_at m (f_g x') = node_at m (f_g x)) /\
  f_st x' = f_st x.
Proof.
  intros cfgs kinds beh x T Hle Hun x'. unfold x', fcycle. cbn zeta. simpl f_g. simpl f_st.
  set (x0 := {| f_g := begin_cycle T (f_g x); f_st := f_st x |}).
  destruct (fscan_QI cfgs kinds beh T x0 (length cfgs) 0%nat x0) as [Q1 Q2 Q4 Q5 Q6 Q7];
    [intros; apply Hle; lia|intros; apply Hun; auto; lia|now constructor|].
  set (x1 := fscan cfgs kinds beh 0 (length cfgs) x0) in *.
  split; [exact Q2|]. split; [|split; [exact Q6|exact Q4]].
  intros end_ fuel. simpl.
  destruct (negb (g_err (f_g x1) =? 0)); auto.
  rewrite Q2. rewrite Z.eqb_refl. reflexivity.
Qed.
Print Assumptions passive_loop_quiesces.

(* acc = emit(trig + fb(acc)) with initial value 7; trig writes at 1, 2 (back-to-back) and 5
   (after a gap); a recorder on the feedback.  [active] selects the reader's mode. *)
Definition loop_case (active : Z) : wire :=
  [[1;1;12]; [2;0;1;0;1;0;0]; [4;1;1;7]; [2;2;0;0;1;2;1;0;1;1;1;active;0]; [5;3;2;1]; [2;4;0;0;0;1;1;1;1;0];
   [3;0;-1;1;0;0]; [3;0;0;6;1;0]; [3;0;0;1;1;0]; [3;0;1;6;2;0]; [3;0;1;1;3;0]; [3;0;2;6;3;0]; [3;2;-2;6;0;0]].

Example ex_wf : forall a, fb_wf (fst (graph_of (loop_case a))) (snd (graph_of (loop_case a))).
Proof.
  intros a. constructor.
  - reflexivity.
  - intros i s Hi Hin. unfold cfg in Hin.
    destruct i as [|[|[|[|[|i]]]]]; simpl in Hin;
      repeat (destruct Hin as [<-|Hin]; [simpl; lia|]); try (destruct Hin).
    simpl in Hi. lia.
  - intros i init H. destruct i as [|[|[|[|[|i]]]]]; vm_compute in H; try discriminate H; try reflexivity.
    destruct i; discriminate H.
  - intros i H. destruct i as [|[|[|[|[|i]]]]]; vm_compute in H; try discriminate H.
    + exists 2%nat, 1%nat, (Some 7). split; reflexivity.
    + destruct i; discriminate H.
  - intros k k' H H'.
    destruct k as [|[|[|[|[|k]]]]]; vm_compute in H; try discriminate H; [|destruct k; discriminate H].
    destruct k' as [|[|[|[|[|k']]]]]; vm_compute in H'; try discriminate H'; [reflexivity|destruct k'; discriminate H'].
Qed.

(* the hypotheses of the run theorems hold of it, and the streams are not trivial:
   active reader - the loop is self-sustaining, one cycle per smallest step up to the end *)
Example ex_active_loop :
  let '(x, sts) := run_of (loop_case 1) in
  g_err (f_g x) = 0 /\
  ticks_of 2 sts = [(1, 8); (2, 10); (3, 12); (4, 14); (5, 17); (6, 20); (7, 23); (8, 26); (9, 29); (10, 32); (11, 35)] /\
  ticks_of 1 sts = [(1, 7); (2, 8); (3, 10); (4, 12); (5, 14); (6, 17); (7, 20); (8, 23); (9, 26); (10, 29); (11, 32)].
Proof. vm_compute. split; [reflexivity|]. split; reflexivity. Qed.

(* passive reader - the same graph goes quiet: cycles 1, 2, 3, 5, 6 only, no scheduled time left *)
Example ex_passive_loop :
  let '(x, sts) := run_of (loop_case 0) in
  g_err (f_g x) = 0 /\
  ticks_of 2 sts = [(1, 8); (2, 10); (5, 13)] /\
  ticks_of 1 sts = [(1, 7); (2, 8); (3, 10); (6, 13)] /\
  map (fun x => g_now (f_g x)) sts = [1; 2; 3; 5; 6] /\ g_nst (f_g x) = MAX_DT.
Proof. vm_compute. split; [reflexivity|]. split; [reflexivity|]. split; [reflexivity|]. split; reflexivity. Qed.

(* a run with an invalidation: the producer writes 10 at 1, invalidates at 2, writes 30 at 3; the
   reader side shows (2,10) and (4,30), nothing at 3 *)
Definition inval_case : wire :=
  [[1;1;8]; [4;0;0;0]; [2;1;1;0;1;0;0]; [5;2;1;0];
   [3;1;-1;1;0;0]; [3;1;0;6;10;0]; [3;1;0;1;1;0]; [3;1;1;11;0;0]; [3;1;1;1;1;0]; [3;1;2;6;30;0]].

Example ex_invalidation :
  let '(x, sts) := run_of inval_case in
  g_err (f_g x) = 0 /\ ticks_of 1 sts = [(1, 10); (3, 30)] /\ ticks_of 0 sts = [(2, 10); (4, 30)].
Proof. vm_compute. split; [reflexivity|]. split; reflexivity. Qed.

(* the hypotheses of [passive_loop_quiesces] are met by the state after the cycle of the last
   external write (t = 5) of the passive accumulator (the same graph without the recorder,
   which is an active reader): only the passively read source is due, at 6, nothing else is armed *)
Definition quiet_case : wire :=
  [[1;1;12]; [2;0;1;0;1;0;0]; [4;1;1;7]; [2;2;0;0;1;2;1;0;1;1;1;0;0]; [5;3;2;1];
   [3;0;-1;1;0;0]; [3;0;0;6;1;0]; [3;0;0;1;1;0]; [3;0;1;6;2;0]; [3;0;1;1;3;0]; [3;0;2;6;3;0]; [3;2;-2;6;0;0]].

Example ex_passive_hypotheses :
  let '(cfgs, kinds) := graph_of quiet_case in
  let x := nth 3 (snd (run_of quiet_case)) (fstart cfgs kinds (script_beh quiet_case) 1) in
  g_nst (f_g x) = 6 /\
  (forall i, (i < length cfgs)%nat -> slot_at i (f_g x) <= g_nst (f_g x)) /\
  (forall i, (i < length cfgs)%nat -> slot_at i (f_g x) = g_nst (f_g x) -> unread_source cfgs kinds (f_g x) i).
Proof.
  cbv beta iota zeta delta [graph_of].
  set (cfgs := map fst (parse_fnodes quiet_case)). set (kinds := map snd (parse_fnodes quiet_case)).
  set (x := nth 3 (snd (run_of quiet_case)) (fstart cfgs kinds (script_beh quiet_case) 1)).
  assert (Hs : map (fun i => slot_at i (f_g x)) [0;1;2;3]%nat = [5; 6; 5; 5] /\ g_nst (f_g x) = 6) by (vm_compute; split; reflexivity).
  assert (Ha : map (fun i => n_act (node_at i (f_g x))) [0;1;2;3]%nat = [[]; []; [true; false]; [true; false]]) by (vm_compute; reflexivity).
  clearbody x. destruct Hs as [Hs Hn]. cbn [map] in Hs. injection Hs as S0 S1 S2 S3.
  cbn [map] in Ha. injection Ha as A0 A1 A2 A3.
  split; [exact Hn|]. rewrite Hn. split.
  - intros i Hi. destruct i as [|[|[|[|i]]]]; try lia. vm_compute in Hi. lia.
  - intros i Hi He. destruct i as [|[|[|[|i]]]]; try lia; [|vm_compute in Hi; lia].
    split; [exists (Some 7); reflexivity|].
    intros j. unfold ract.
    destruct j as [|[|[|[|j]]]]; [rewrite A0|rewrite A1|rewrite A2|rewrite A3|]; try reflexivity.
    unfold cfg. simpl. destruct j; reflexivity.
Qed.
