(* Props/C01_rank.v — the WIRING half of property C01:
     "Nodes evaluate ... only after their producers ...  A wiring whose dependencies form a cycle
      that is not broken by a feedback edge is rejected when the graph is built, never run."
   The model is Rank.v, the mirror of build_ranked_graph (src/hgraph/types/graph_wiring.cpp).
   A graph is the instances in insertion order 0..n-1, their push-source flags, and the RANK edges
   (input edges with rank_dependency = true and explicit rank dependencies; rank-free edges — the
   backward links of capture/feedback-style pairs — are not rank edges).
   The run-time half (forward scan) is Props/C01.v. *)
Require Import Base Rank RankLemmas RankFacts Intern InternFacts InternWf.
From Coq Require Import Arith Permutation.

(* An accepted wiring is ranked soundly: the compiled order is a permutation of the nodes, every
   rank edge goes forward (so the evaluation scan reaches a producer before its consumers), and
   the push sources form a prefix. *)
Theorem kahn_sound : forall g o,
  rg_wf g -> kahn g = KOk o ->
  Permutation o (seq 0 (rg_n g)) /\
  (forall p c, In (p, c) (rg_edges g) -> (pos p o < pos c o)%nat) /\
  push_prefix g o.
Proof. exact RankFacts.kahn_sound. Qed.
Print Assumptions kahn_sound.

(* Rejection as a cycle happens exactly when the rank edges contain a cycle (and the push-source
   rule below did not fire first).  A loop that is closed only through a rank-free edge has no
   cycle in [rg_edges], so it is accepted; a loop not so broken is rejected. *)
Theorem kahn_complete : forall g,
  rg_wf g -> (kahn g = KCycle <-> cyclic g /\ ~ has_push_dep g).
Proof. exact RankFacts.kahn_complete. Qed.
Print Assumptions kahn_complete.

(* The third outcome of the code: a push source with a rank dependency is refused. *)
Theorem kahn_push_dep : forall g, rg_wf g -> (kahn g = KPushDep <-> has_push_dep g).
Proof. exact RankFacts.kahn_push_dep. Qed.
Print Assumptions kahn_push_dep.

Theorem kahn_accepts : forall g,
  rg_wf g -> ((exists o, kahn g = KOk o) <-> ~ cyclic g /\ ~ has_push_dep g).
Proof. exact RankFacts.kahn_accepts. Qed.
Print Assumptions kahn_accepts.

Theorem ranking_acyclic : forall g o, is_ranking g o -> ~ cyclic g.
Proof. exact RankFacts.ranking_acyclic. Qed.
Print Assumptions ranking_acyclic.

(* The boolean acceptor run on the IMPLEMENTATION's node order is equivalent to the conclusion of
   kahn_sound: any order the code produces that is a valid ranking is accepted, nothing else is. *)
Theorem valid_ranking_accepts : forall g o, valid_ranking g o = true <-> is_ranking g o.
Proof. exact RankFacts.valid_ranking_accepts. Qed.
Print Assumptions valid_ranking_accepts.

Theorem wf_check : forall g, rg_wfb g = true <-> rg_wf g.
Proof.
  intros g. unfold rg_wfb, rg_wf. rewrite andb_true_iff, Nat.eqb_eq, forallb_forall. split; intros [Hl He]; (split; [exact Hl|]).
  - intros p c Hin. apply He in Hin. apply andb_true_iff in Hin. rewrite !Nat.ltb_lt in Hin. exact Hin.
  - intros [p c] Hin. apply andb_true_iff. rewrite !Nat.ltb_lt. apply He, Hin.
Qed.
Print Assumptions wf_check.

(* THE compiled order.  [kahn] is a function of the instances in insertion order, their push flags and the
   rank edges in discovery order - nothing else (no addresses, no hash order): ready lists seeded in
   insertion order and extended FIFO, push sources served first.  The correspondence requires the
   implementation's node order to EQUAL it (oracle kind order_not_canonical); that is a strengthening of
   the validity check, since kahn's order is itself accepted: *)
Theorem kahn_order_accepted : forall g o, rg_wf g -> kahn g = KOk o -> valid_ranking g o = true.
Proof. exact RankFacts.kahn_order_accepted. Qed.
Print Assumptions kahn_order_accepted.

(* The service / adaptor rank contract (register_service_rank_anchor, register_service_client_rank,
   apply_service_rank_dependencies): EVERY registered client — however many share a path and a
   direction — whose path has an anchor other than itself contributes a rank edge to the graph that
   finish ranks: anchor -> client for a receiving client, client -> anchor for a sending one ... *)
Theorem service_edges_ranked : forall prog order w sv g,
  wire_prog true prog order = Ok w -> collect_svc prog order (w_env w) svc0 = Ok sv ->
  rgraph_of (finalize w sv) = Some g ->
  forall p c rc a, In (p, c, rc) (s_clients sv) -> alookup p (s_anchors sv) = Some a -> a <> c ->
  In (if rc then (a, c) else (c, a)) (rg_edges g).
Proof. exact InternWf.service_edges_ranked. Qed.
Print Assumptions service_edges_ranked.

(* ... and whatever finish compiles is a valid ranking of that graph (so by [kahn_sound] a sending
   client is evaluated before the anchor that consumes its hand-over, a receiving client after it). *)
Theorem compiled_order_is_ranking : forall prog order w g o es,
  compile prog order = Built w g o es -> kahn g = KOk o /\ is_ranking g o.
Proof. exact InternWf.compile_ranked. Qed.
Print Assumptions compiled_order_is_ranking.

(* non-vacuity: concrete graphs meeting the hypotheses, evaluated by the kernel *)
(* a diamond inserted against the dataflow: node 3 is the source, 1 and 2 read it, 0 joins them (so the
   insertion order 0 1 2 3 is no ranking); node 4 is a push source and is served first. *)
Definition ex_diamond : rgraph :=
  {| rg_n := 5; rg_push := [false; false; false; false; true];
     rg_edges := [(1, 0); (2, 0); (3, 1); (3, 2)]%nat |}.
Example ex_diamond_wf : rg_wfb ex_diamond = true. Proof. vm_compute. reflexivity. Qed.
Example ex_diamond_ok : kahn ex_diamond = KOk [4; 3; 1; 2; 0]%nat. Proof. vm_compute. reflexivity. Qed.
Example ex_diamond_valid : valid_ranking ex_diamond [4; 3; 2; 1; 0]%nat = true. Proof. vm_compute. reflexivity. Qed.
Example ex_diamond_invalid : valid_ranking ex_diamond [3; 4; 1; 2; 0]%nat = false. Proof. vm_compute. reflexivity. Qed.

(* a 3-cycle 0 -> 1 -> 2 -> 0: rejected; the same loop with the closing edge rank-free: accepted *)
Definition ex_loop : rgraph := {| rg_n := 3; rg_push := [false; false; false]; rg_edges := [(0, 1); (1, 2); (2, 0)]%nat |}.
Definition ex_loop_broken : rgraph := {| rg_n := 3; rg_push := [false; false; false]; rg_edges := [(0, 1); (1, 2)]%nat |}.
Example ex_loop_rejected : kahn ex_loop = KCycle. Proof. vm_compute. reflexivity. Qed.
Example ex_loop_cyclic : cyclic ex_loop.
Proof. exists 0%nat. eapply tcr_step; [|eapply tcr_step; [|apply tcr_one]]; simpl; eauto. Qed.
Example ex_loop_broken_ok : kahn ex_loop_broken = KOk [0; 1; 2]%nat. Proof. vm_compute. reflexivity. Qed.
Example ex_self_loop : kahn {| rg_n := 1; rg_push := [false]; rg_edges := [(0, 0)]%nat |} = KCycle.
Proof. vm_compute. reflexivity. Qed.
Example ex_push_dep : kahn {| rg_n := 2; rg_push := [false; true]; rg_edges := [(0, 1)]%nat |} = KPushDep.
Proof. vm_compute. reflexivity. Qed.

(* statement 2 is the anchor (the hub) of path 7; statements 3, 4 send to it, 0, 1 receive from it; the
   clients are wired on the wrong side of the hub by insertion order (receivers first, senders last) *)
Definition sv_src (k : Z) : ndef := {| nd_def := 0; nd_sch := [1]; nd_scal := Some [k]; nd_uniq := false; nd_push := false |}.
Definition sv_prog : list stmt :=
  [StNode (sv_src 4) []; StNode (sv_src 5) []; StNode (sv_src 1) []; StNode (sv_src 2) []; StNode (sv_src 3) [];
   StAnchor 7 2; StClient 7 3 false; StClient 7 4 false; StClient 7 0 true; StClient 7 1 true]%nat.
Example sv_order : match compile sv_prog [0; 1; 2; 3; 4; 5; 6; 7; 8; 9]%nat with Built _ _ o _ => o | Rejected _ => [] end
                   = [3; 4; 2; 0; 1]%nat.
Proof. vm_compute. reflexivity. Qed.
