(* Props/C03.v — property C03: user code runs exactly when an active input ticked (or a
   wake-up it asked for falls due) and the required inputs are valid; it then reads the
   latest values.  Statements with short proofs from EngineFacts.v; the evaluation gate is proved here, from the
   scan invariant [EngineFacts.scan_inv].
   Model: coq/Engine.v. *)
Require Import Base Sched SchedFacts Engine EngineFacts EngineWitness.

(* When the graph evaluates a node, its user code runs exactly when the node is started
   and every input it requires holds a value (a node without inputs is always ready);
   and it runs at most once per evaluation. *)
Theorem user_code_runs_iff_started_and_ready : forall cfgs beh i g,
  let c := nth i cfgs dflt_cfg in
  (i < length (g_nodes g))%nat ->
  (n_runs (node_at i (eval_node cfgs beh i g)) = n_runs (node_at i g) + 1 <->
     n_started (node_at i g) = true /\ (c_ins c = [] \/ ready c g = true)) /\
  (n_runs (node_at i (eval_node cfgs beh i g)) = n_runs (node_at i g) \/
   n_runs (node_at i (eval_node cfgs beh i g)) = n_runs (node_at i g) + 1).
Proof.
  intros cfgs beh i g c Hi. destruct (n_started (node_at i g)) eqn:St.
  2:{ unfold eval_node. rewrite St. simpl. split; [split; [lia|intros [X _]; discriminate]|left; auto]. }
  (* neither the operations nor the re-arming count a run: only the step before them does *)
  assert (R : forall g1 g2, acts cfgs (fun _ => quiet) any any g1 g2 -> n_runs (node_at i g2) = n_runs (node_at i g1))
    by (intros g1 g2; apply acts_obs; [intros j f (_ & _ & K & _)|intros j _]; right; auto; intros v w x; reflexivity).
  destruct (eval_node_eq cfgs beh i g St) as (l & os & _ & ->).
  erewrite R by (apply eval_tail_acts, acts_refl; [intros s; apply quiet_set_sch|exact I]).
  unfold runs_user_code, cfg. fold c.
  assert (Ran : n_runs (node_at i (do_ops cfgs i true 0 os (emit l (upd_node i inc_runs g)))) = n_runs (node_at i g) + 1).
  { erewrite R by (apply do_ops_acts, acts_refl; auto; intros; exact I).
    change (n_runs (node_at i (upd_node i inc_runs g)) = n_runs (node_at i g) + 1). rewrite node_at_upd_same; auto. }
  destruct (c_ins c) as [|s0 r]; [|destruct (ready c g)]; rewrite ?Ran;
    (split; [split|]); auto; try lia; intros [_ [X|X]]; discriminate.
Qed.
Print Assumptions user_code_runs_iff_started_and_ready.

(* "ready" is: every input slot the node requires to be valid (all of them by default, the selected ones
   with an explicit valid selector) has a producer that holds a value - for a list-shaped slot
   (TSL<TS<int>,2>, two producers) at least one of its two producers - and every element of a slot
   listed in the all-valid selector holds a value. *)
Theorem ready_means_required_inputs_valid : forall c g,
  ready c g = true <->
  forall s, In s (c_ins c) ->
    ((c_vmode c = 0 \/ i_req s = true) -> slot_has_value g s) /\
    (i_all s = true -> n_val (node_at (i_src s) g) <> None).
Proof. exact EngineFacts.ready_iff. Qed.
Print Assumptions ready_means_required_inputs_valid.

(* the all-valid selector: user code does not run while ANY element of such a slot holds no value *)
Theorem unset_element_of_all_valid_slot_blocks_user_code : forall c g s,
  In s (c_ins c) -> i_all s = true -> n_val (node_at (i_src s) g) = None -> ready c g = false.
Proof.
  intros c g s Hs Ha Hn. destruct (ready c g) eqn:E; auto.
  destruct (proj2 (proj1 (ready_iff c g) E s Hs) Ha Hn).
Qed.
Print Assumptions unset_element_of_all_valid_slot_blocks_user_code.

(* A producer that invalidates its output withdraws the value, and a consumer requiring that
   input is then not ready: its user code does not run (first theorem above) until the
   producer writes again. *)
Theorem invalidation_withdraws_the_value : forall cfgs i opi g,
  g_err g = 0 -> c_out (nth i cfgs dflt_cfg) = true -> (i < length (g_nodes g))%nat ->
  n_val (node_at i (do_op cfgs i true opi OInvalidate g)) = None.
Proof.
  intros cfgs i opi g He Hc Hi. unfold do_op. rewrite He, Hc. simpl.
  destruct (n_val (node_at i g)) eqn:Ev; [|exact Ev].
  change (n_val (node_at i (notify_from cfgs 0 i (upd_node i (set_inv (g_now g)) g))) = None).
  rewrite node_at_notify, node_at_upd_same by auto. reflexivity.
Qed.
Print Assumptions invalidation_withdraws_the_value.

Theorem invalid_required_input_blocks_user_code : forall c g s,
  In s (c_ins c) -> (c_vmode c = 0 \/ i_req s = true) -> i_mate s = None ->
  n_val (node_at (i_src s) g) = None -> ready c g = false.
Proof.
  intros c g s Hs Hr Hm Hn. destruct (ready c g) eqn:E; auto.
  destruct (proj1 (proj1 (ready_iff c g) E s Hs) Hr) as [H|(m & Em & _)]; congruence.
Qed.
Print Assumptions invalid_required_input_blocks_user_code.

(* Ticks reach a node only through its ACTIVE inputs: when a producer writes, the only
   nodes whose graph slot changes are those with an input bound to it that is active at
   that moment (declared active and not made passive since, or made active at run time).  An
   invalidation notifies exactly like a write. *)
Theorem ticks_wake_only_through_active_inputs : forall cfgs src g k,
  slot_at k (notify_from cfgs 0 src g) <> slot_at k g ->
  exists m c, nth_error cfgs m = Some c /\ k = (0 + m)%nat /\
              exists s a, In (s, a) (combine (c_ins c) (n_act (node_at k g))) /\ i_src s = src /\ a = true.
Proof.
  intros cfgs src g k H. destruct (subscribed_in cfgs src k _ (notify_moves cfgs src g k H)) as (Hk & X).
  exists k, (cfg cfgs k). split; [apply nth_error_nth', Hk|auto].
Qed.
Print Assumptions ticks_wake_only_through_active_inputs.

(* What the user code reads for an input is the producer's current output: valid iff the
   producer has a value (written and not invalidated since), and for a valid input: modified
   iff the producer wrote in this cycle, the value is the producer's; the last-modified time
   is that of the last notification (write or invalidation). *)
Theorem reads_latest : forall g s,
  let p := node_at (i_src s) g in
  let v := read_input g s in
  (v_valid v = true <-> n_val p <> None) /\
  (v_valid v = true -> v_mod v = true <-> n_lmt p = g_now g) /\
  (forall x, n_val p = Some x -> v_val v = x) /\ v_lmt v = n_lmt p.
Proof.
  intros g s. cbn zeta. unfold read_input. destruct (n_val (node_at (i_src s) g)) as [x|]; simpl.
  - split; [split; [congruence|auto]|]. split; [intros _; lia|]. split; auto. intros y Hy; inversion Hy; auto.
  - split; [split; [discriminate|congruence]|]. split; [discriminate|]. split; auto. discriminate.
Qed.
Print Assumptions reads_latest.

(* The evaluation gate, both directions: in the cycle at t the graph evaluates node i exactly
   when (a) its slot held t when the cycle began - a wake-up it asked for itself (scheduler
   event, start request, raw request; Props/C02.v shows the slot of a scheduler node is no later
   than its earliest pending time - or, the recorded finding, a time it has since cancelled), or
   (b) the node is started and some node before it wrote (or invalidated), in this cycle, an
   output that one of its ACTIVE inputs is bound to.  Active is read when the cycle begins, which is
   also how it stands at the write: only the node itself changes its subscriptions, and it has not
   run yet.  Ticks on passive inputs alone never evaluate it; and it is evaluated at most once.
   For every graph, user code and state. *)
Theorem evaluated_exactly_when_due_or_active_input_ticked : forall cfgs beh t g,
  length (g_slots g) = length cfgs -> length (g_nodes g) = length cfgs ->
  (forall p, (p < length cfgs)%nat -> n_lmt (node_at p g) < t) ->
  g_err (evaluate_graph cfgs beh t g) = 0 ->
  forall i, (i < length cfgs)%nat ->
    (n_evals (node_at i (evaluate_graph cfgs beh t g)) = n_evals (node_at i g) + 1 <->
       slot_at i g = t \/
       (n_started (node_at i g) = true /\
        exists p, (p < i)%nat /\ n_lmt (node_at p (evaluate_graph cfgs beh t g)) = t /\ act_from cfgs g i p = true)) /\
    (n_evals (node_at i (evaluate_graph cfgs beh t g)) = n_evals (node_at i g) \/
     n_evals (node_at i (evaluate_graph cfgs beh t g)) = n_evals (node_at i g) + 1).
Proof.
  intros cfgs beh t g L1 L2 Hold Herr i Hi. unfold evaluate_graph in *.
  set (g0 := mkG t (g_slots g) MAX_DT (g_nodes g) ([10; t] :: g_log g) (g_err g)) in *.
  assert (INV : scan_inv cfgs g0 (0 + length cfgs) (scan cfgs beh 0 (length cfgs) g0)).
  { apply scan_ind; auto.
    - intros j gj Hj Hinv _ _. apply scan_inv_step; auto. lia.
    - split; [|split; [|split; [|split]]]; auto. intros j Hj. lia. }
  destruct INV as (_ & _ & NowF & _ & E). specialize (E i Hi). rewrite E. clear E.
  set (gF := scan cfgs beh 0 (length cfgs) g0) in *.
  change (node_at i g0) with (node_at i g). change (slot_at i g0) with (slot_at i g). change (g_now g0) with t in *.
  assert (CB : cause_b cfgs g0 gF i i = true <->
               (n_started (node_at i g) = true /\ exists p, (p < i)%nat /\ n_lmt (node_at p gF) = t /\ act_from cfgs g i p = true)).
  { unfold cause_b, wrote. rewrite NowF, andb_true_iff, existsb_exists, and_comm.
    setoid_rewrite in_seq. setoid_rewrite andb_true_iff. setoid_rewrite Z.eqb_eq.
    split; intros (S & p & Hp & W); (split; [exact S|exists p; split; [lia|exact W]]). }
  rewrite <- CB, <- (Z.eqb_eq (slot_at i g)), <- orb_true_iff.
  destruct (_ || _); [split; [split; auto|right; auto]|split; [split; [lia|discriminate]|left; lia]].
Qed.
Print Assumptions evaluated_exactly_when_due_or_active_input_ticked.

(* A node that asked for a wake-up through its scheduler is evaluated at it (shared with
   C02 / C18): its slot is the cycle's time whenever the cycle is a pending time. *)
Theorem own_wakeup_falls_due : forall cfgs g i e,
  boundary cfgs g -> (i < length cfgs)%nat -> c_sched (cfg cfgs i) = true -> In e (pending g i) ->
  fst e = g_nst g -> slot_at i g = g_nst g.
Proof. exact EngineFacts.due_slot_is_now. Qed.
Print Assumptions own_wakeup_falls_due.

(* The full biconditional of the property ("runs EXACTLY when ...") is FALSE of the
   faithful model and of the code: user code also runs at an abandoned wake-up time with
   no input modified and nothing due.  Witness (DESIGN.md 8.2; known finding):
   line 12 0 4 1 0 7 = node 0, time 4, run 1, is_scheduled_now 0, next pending 7. *)
Theorem runs_exactly_when_refuted :
  exists case : wire, In [12; 0; 4; 1; 0; 7] (run_core case).
Proof. exact Engine_witness.abandoned_wakeup. Qed.
Print Assumptions runs_exactly_when_refuted.

(* non-vacuity of the boundary hypothesis is shown in Props/C02.v (ex_hypotheses_hold) *)
