(* C01, child-graph half — "each node is evaluated at most once per engine cycle ... for every nested child
   graph", INCLUDING cycles that pause and resume.

   Model: Nested.v.  evaluate_impl<Storage> (graph.cpp) = [eval_graph]; one call = one [entry].  A node whose
   evaluate returns false (kind 5; mesh_subscribe in the library) PAUSES the cycle: the error slot carries
   PAUSED, every enclosing evaluate returns false, the cursor stays on that node, evaluation_failed stays
   clear; the owner that resolves the pause (kind 4; mesh_ in the library) re-enters the SAME cycle
   ([resume_loop] = [reenter]) and `resuming` makes the scan continue at the cursor.
   Evaluations are counted on the lifecycle trace: [cnt g j w] = number of lines [11; g; j; _]
   (before_node_evaluation of node j of graph g) logged so far.  All statements are universal over trees,
   user code, graphs (any depth: [entry] is the same function at every level), times and worlds.
   What is proved is per entry of ONE graph: an entry evaluates each node of its graph at most once; over a pause
   and its resume every node but the one the cycle was suspended on (which is evaluated by both entries); over any
   number of resumes no node before the cursor again.  No theorem composes the entries of the graphs of a tree
   into one engine cycle. *)
Require Import Base Sched Nested NestedWitness NestedFacts NestedOnce.

(* one entry (fresh or resumed) evaluates every node of the graph at most once *)
Theorem entry_evaluates_each_node_at_most_once :
  forall T beh, wf_tree T -> forall f rr g t w j,
    (cnt g j (entry T beh f rr g t w) <= cnt g j w + 1)%nat.
Proof.
  intros T beh HT f rr g t w j. destruct (entry_window T beh HT f rr g t w) as (m & C & _).
  specialize (C j). destruct (_ && _); lia.
Qed.
Print Assumptions entry_evaluates_each_node_at_most_once.

(* ... and never a node of a graph with a smaller id: no ancestor is evaluated from inside a child *)
Theorem entry_never_evaluates_ancestors :
  forall T beh, wf_tree T -> forall f rr c t w g' j, (g' < c)%nat ->
    cnt g' j (eval_graph f T beh rr c t w) = cnt g' j w.
Proof. intros T beh HT f rr c t w g' j Hg. apply (fr_eval_graph T beh HT rr f c t w), Hg. Qed.
Print Assumptions entry_never_evaluates_ancestors.

(* a PAUSED entry leaves the cursor ON the node whose evaluate returned false (or on the nested node below
   which the pause happened), evaluation_failed clear, and has evaluated no node after it *)
Theorem paused_entry_publishes_cursor :
  forall T beh, wf_tree T -> forall f rr g t w,
    (g < length (w_gs w))%nat -> ok w = true -> w_err (entry T beh f rr g t w) = PAUSED ->
    g_failed (gat g (entry T beh f rr g t w)) = false
    /\ exists c, g_cursor (gat g (entry T beh f rr g t w)) = Z.of_nat c
                 /\ forall j, (c < j)%nat -> (cnt g j (entry T beh f rr g t w) <= cnt g j w)%nat.
Proof.
  intros T beh HT f rr g t w Lg Hok Hp.
  destruct (entry_window T beh HT f rr g t w) as (m & C & K). destruct (K Lg Hok Hp) as (H0 & Ec & Hf).
  split; [exact Hf|]. eexists. split; [exact Ec|]. intros j Hj. specialize (C j).
  replace (j <? first_ix rr g t w + m)%nat with false in C by lia. rewrite andb_false_r in C. lia.
Qed.
Print Assumptions paused_entry_publishes_cursor.

(* a RESUMED entry evaluates no node before the cursor again *)
Theorem resumed_entry_skips_evaluated_nodes :
  forall T beh, wf_tree T -> forall f rr g t w k j,
    (g < length (w_gs w))%nat -> g_failed (gat g w) = false -> g_cursor (gat g w) = Z.of_nat k -> k <> 0%nat ->
    (j < k)%nat -> (cnt g j (entry T beh f rr g t w) <= cnt g j w)%nat.
Proof.
  intros T beh HT f rr g t w k j Lg Hf Hk _ Hj. destruct (entry_window T beh HT f rr g t w) as (m & C & _). specialize (C j).
  rewrite (first_ix_cursor rr g t w k Lg Hf Hk) in C. replace (k <=? j)%nat with false in C by lia. simpl in C. lia.
Qed.
Print Assumptions resumed_entry_skips_evaluated_nodes.

(* THE PROPERTY for a pause and its resume: over both entries of the same engine cycle, every node other than
   the one the cycle was suspended on is evaluated at most once *)
Theorem at_most_once_across_pause_and_resume :
  forall T beh, wf_tree T -> forall f f' rr g t w j,
    (g < length (w_gs w))%nat -> ok w = true ->
    let w' := entry T beh f rr g t w in
    w_err w' = PAUSED ->
    j <> Z.to_nat (g_cursor (gat g w')) ->
    (cnt g j (entry T beh f' rr g t (set_err 0 w')) <= cnt g j w + 1)%nat.
Proof.
  intros T beh HT f f' rr g t w j Lg Hok w' Hp Hj.
  destruct (entry_window T beh HT f rr g t w) as (m & C & K). destruct (K Lg Hok Hp) as (H0 & Ec & Hf). fold w' in C, Ec, Hf.
  destruct (entry_window T beh HT f' rr g t (set_err 0 w')) as (m' & C' & _). specialize (C j). specialize (C' j).
  (* the second window starts where the first ended *)
  rewrite (first_ix_cursor rr g t (set_err 0 w') _ ltac:(simpl; unfold w'; rewrite (entry_len T beh HT); exact Lg) Hf Ec) in C'.
  rewrite Ec, Nat2Z.id in Hj. change (cnt g j (set_err 0 w')) with (cnt g j w') in C'.
  (* the arithmetic is done on the two bounds alone: ZifyBool makes lia slow on the whole context *)
  clear K Hp Hok Hf Ec. set (st := first_ix rr g t w) in *.
  destruct (lt_dec j (st + m - 1));
    [replace (st + m - 1 <=? j)%nat with false in C' by lia
    |replace (j <? st + m)%nat with false in C by lia; rewrite andb_false_r in C];
    simpl in *; destruct (_ && _) in *; lia.
Qed.
Print Assumptions at_most_once_across_pause_and_resume.

(* ANY NUMBER OF RESUMES: once the cursor of a suspended cycle has passed node j, no number of re-entries of
   that cycle evaluates node j again *)
Theorem at_most_once_any_number_of_resumes :
  forall T beh, wf_tree T -> forall f rr g t j n w k,
    (g < length (w_gs w))%nat -> g_failed (gat g w) = false -> g_cursor (gat g w) = Z.of_nat k -> (j < k)%nat ->
    (cnt g j (resume_loop T beh f rr g t n w) <= cnt g j w)%nat.
Proof.
  intros T beh HT f rr g t j. induction n as [|n IH]; intros w k Lg Hf Hk Hj; simpl; [lia|].
  destruct (w_err w =? PAUSED); [|lia]. set (w1 := set_err 0 w).
  (* the window of a re-entry starts at the cursor, and a pause leaves the cursor inside the window *)
  destruct (entry_window T beh HT f rr g t w1) as (m & C & K). specialize (C j).
  rewrite (first_ix_cursor rr g t w1 k Lg Hf Hk) in C, K. replace (k <=? j)%nat with false in C by lia.
  change (cnt g j w1) with (cnt g j w) in C. simpl in C.
  destruct (w_err (entry T beh f rr g t w1) =? PAUSED) eqn:Ep; [|destruct n; simpl; [|rewrite Ep]; lia].
  destruct (K Lg eq_refl ltac:(lia)) as (H0 & Ec & Hf2).
  specialize (IH (entry T beh f rr g t w1) _ ltac:(rewrite (entry_len T beh HT); exact Lg) Hf2 Ec ltac:(lia)). lia.
Qed.
Print Assumptions at_most_once_any_number_of_resumes.

(* non-vacuity: a graph [plain node; pausing node (pauses twice per run)], both scheduled at start: the first entry pauses
   with the cursor on node 1; re-entering twice completes the cycle; node 0 was evaluated once, node 1 three
   times (two pauses + the completing evaluation) *)
Example pause_and_resume_inhabited :
  let T := [mkGC None [mkCfg 0 false true true 0 [] 0 (-1) [] (fun _ => 0);
                       mkCfg 5 false true true 0 [] 0 (-1) [] (fun _ => 2)]] in
  let beh : behaviour := fun _ _ _ _ _ _ => [OEmit 1] in
  let w := start_graph 2 T beh 0 1 (init_world T) in
  let w1 := entry T beh 1 true 0 1 w in
  let w3 := resume_loop T beh 1 true 0 1 5 w1 in
  wf_tree T /\ ok w = true /\ w_err w1 = PAUSED /\ g_cursor (gat 0 w1) = 1 /\ g_failed (gat 0 w1) = false
  /\ ok w3 = true /\ cnt 0 0 w3 = 1%nat /\ cnt 0 1 w3 = 3%nat /\ g_cursor (gat 0 w3) = 0.
Proof.
  split.
  - repeat split.
    + intros g pg pn. destruct g as [|[|g]]; vm_compute; intros H; discriminate.
    + intros g i. destruct g as [|[|g]]; destruct i as [|[|[|i]]]; vm_compute; intros H; discriminate.
  - vm_compute. repeat split; reflexivity.
Qed.
