(* C09 — a sub-graph behaves the same inlined or nested, at any depth.

   Model: Nested.v, a mirror of graph.cpp (schedule_node_impl, nested_schedule_node_impl, start_impl,
   evaluate_impl, propagate_nested_parent_schedule), nested_graph_node.cpp (start / evaluate / bind /
   propagate_schedule), nested_bindings.h (sampled consumers, forwarding outputs) over a TREE of graphs
   of arbitrary depth, with arbitrary user code ([behaviour]).  Every statement below is universal over
   trees [T], behaviours [beh], worlds [w] (and run parameters); [wf_tree T] says only that parent ids
   are smaller than child ids, a nested node's child points back at it and graph 0 is the root. *)
Require Import Base Sched Nested NestedWitness NestedFacts NestedInv.

(* child_never_early.
   (a) The only evaluation a nested / try_except node ever requests of its child graph is at the
       current time of its own graph: the node's result depends on the child evaluator at that one
       point only. *)
Theorem child_evaluated_at_parent_time :
  forall T ev ev' g i w,
    (forall w', ev (c_child (ncfg_at T g i)) (now_of g w) w' = ev' (c_child (ncfg_at T g i)) (now_of g w) w') ->
    eval_nested T ev g i w = eval_nested T ev' g i w.
Proof.
  intros T ev ev' g i w H. unfold eval_nested. rewrite H.
  assert (R : forall n w1, reenter ev n (c_child (ncfg_at T g i)) (now_of g w) w1
                         = reenter ev' n (c_child (ncfg_at T g i)) (now_of g w) w1).
  { induction n as [|n IH]; intros w1; simpl; auto. destruct (_ =? _); auto. rewrite H. apply IH. }
  rewrite R. reflexivity.
Qed.
Print Assumptions child_evaluated_at_parent_time.

(* (b) Evaluating any graph, at any depth, at a time that is not before its own clock and not after its
       parent's clock keeps EVERY child clock in the tree at or below its parent's clock: no graph is
       ever moved back in time, none runs ahead of its parent (by induction over the nesting depth). *)
Theorem child_never_early_step :
  forall T beh rr, wf_tree T -> forall f g t w,
    clocks_ok T w -> now_of g w <= t ->
    (forall pg pn, gc_parent (gcfg_at T g) = Some (pg, pn) -> t <= now_of pg w) ->
    clocks_ok T (eval_graph f T beh rr g t w).
Proof. intros T beh rr HT f. exact (clocks_eval_graph T beh HT rr f). Qed.
Print Assumptions child_never_early_step.

(* (c) ... hence in every state a simulation run goes through (after start, after every root cycle), for
       every program and every user code: every child's clock <= its parent's clock, and the root's next
       cycle is never in the root's past. *)
Theorem child_never_early :
  forall T beh rr start end_ fuel, wf_tree T -> 0 <= start <= MAX_DT -> end_ <= MAX_DT ->
    clocks_ok T (run_sim T beh rr start end_ fuel) /\ root_cache (run_sim T beh rr start end_ fuel).
Proof.
  intros T beh rr start end_ fuel HT Hs He. apply (run_sim_whole T beh rr HT start end_ fuel Hs He).
Qed.
Print Assumptions child_never_early.

(* starting a graph never touches the clock of a graph with a smaller id - in particular of none of its
   ancestors (the same holds of evaluating one: NestedFacts.ev_step_keep with step_eval_graph) *)
Theorem child_start_keeps_ancestor_clocks :
  forall T beh, wf_tree T -> forall f c t w g', (g' < c)%nat -> now_of g' (start_graph f T beh c t w) = now_of g' w.
Proof.
  intros T beh HT f c t w g' Hg. apply (kg_now _ _ (ev_step_keep _ c t w g' (step_start_graph T beh HT f) Hg)).
Qed.
Print Assumptions child_start_keeps_ancestor_clocks.

(* parent_due_no_later, FULL STATEMENT (not proved in general; see docs/notes-nest.md):
     for every wf tree, every behaviour, every state w reached by run_sim in which no exception has been
     captured so far, every nested node (pg,pn) with child c and every node j of c:
        now_of c w < slot_at j (gat c w)  ->  now_of pg w < slot_at pn (gat pg w) <= slot_at j (gat c w).
   It is FALSE once a try_except has captured an exception (finding KF-wakeup-lost-after-captured-error-C15).
   What is proved, for all trees / worlds, are the two mechanisms that establish it: *)

(* the PUSH: an out-of-band schedule on an idle child arms the owner node no later than that time,
   clamped to the clocks above; the push is itself a nested schedule on the parent graph, so the
   statement applies again one level up, at every depth. *)
Theorem parent_due_no_later_push :
  forall T, parents_lt T -> forall g i when w pg pn,
    gc_parent (gcfg_at T g) = Some (pg, pn) ->
    w_err w = 0 -> idle g w = true -> now_of g w <= when ->
    (pg < length (w_gs w))%nat -> (pn < length (g_slots (gat pg w)))%nat ->
    slot_at pn (gat pg (sched_at (length T) T g i when w)) <= clamp T pg (Z.max (Z.max when (now_of pg w)) (now_of 0 w)) w.
Proof.
  intros T HT g i when w pg pn Hp Hok Hidle Hn Lpg Lpn.
  assert (Lg := has_parent_in_range _ _ _ _ Hp). assert (Hlt := HT _ _ _ Hp).
  destruct (length T) as [|d]; [lia|]. rewrite (sched_at_S _ _ _ _ _ _ _ _ Hp). cbv zeta.
  replace (clamp T g when w) with (Z.max (Z.max when (now_of pg w)) (now_of 0 w)) by (unfold clamp; rewrite Hp; auto).
  set (t := Z.max (Z.max when (now_of pg w)) (now_of 0 w)). set (w1 := sched_local g i t w).
  assert (O1 : ok w1 = true) by (unfold ok, w1; destruct (sched_local_errs g i t w) as [->|[_ E]]; unfold t in *; lia).
  assert (K1 : step any_upd none w w1) by apply step_sched_local, step_refl.
  assert (K : Keep w (lower g t w1)) by (apply Keep_step, step_lowered; [apply sched_local_ok, O1|exact K1]).
  apply Keep_step in K1. rewrite O1. unfold idle in *.
  rewrite (kg_started _ _ (proj2 K1 g)), (kg_evaluating _ _ (proj2 K1 g)), Hidle. simpl.
  rewrite <- (clamp_Keep T pg t _ _ K). destruct K as [KL K].
  apply sched_at_own_slot; auto; [lia|lia|rewrite (kg_nslots _ _ (K pg)); auto|].
  unfold now_of. rewrite (kg_now _ _ (K pg)). fold (now_of pg w). lia.
Qed.
Print Assumptions parent_due_no_later_push.

(* THE CLAMP (as repaired: to the ROOT's evaluation time): a schedule request on a nested graph, at whatever depth
   and however stale the clocks in between, either leaves the node's slot alone or leaves it at a time that is NOT
   BEFORE THE ENGINE'S CURRENT TIME - a child is never scheduled in the root's past. *)
Theorem child_never_scheduled_before_root_time :
  forall T, parents_lt T -> forall d g i when w pg pn,
    gc_parent (gcfg_at T g) = Some (pg, pn) ->
    let w' := sched_at (S d) T g i when w in
    slot_at i (gat g w') = slot_at i (gat g w) \/ now_of 0 w <= slot_at i (gat g w').
Proof.
  intros T HT d g i when w pg pn Hp. cbv zeta.
  unfold slot_at at 1 3. rewrite sched_at_own_slots by auto. fold (slot_at i (gat g (sched_local g i (clamp T g when w) w))).
  destruct (sched_local_slot_cases g i (clamp T g when w) w) as [E|E]; rewrite E; auto.
  right. unfold clamp. rewrite Hp. lia.
Qed.
Print Assumptions child_never_scheduled_before_root_time.

(* the PULL: after a child cycle the owner is armed no later than the child's cached next time, clamped ([clamp]:
   raised to the clocks of the owner's parent graph and of the root) *)
Theorem parent_due_no_later_pull :
  forall T, parents_lt T -> forall g i c w,
    g_nst (gat c w) <> MAX_DT -> now_of g w <= g_nst (gat c w) ->
    (g < length (w_gs w))%nat -> (i < length (g_slots (gat g w)))%nat ->
    slot_at i (gat g (pull T g i c w)) <= clamp T g (g_nst (gat c w)) w.
Proof.
  intros T HT g i c w Hm Hn Lg Li. unfold pull. destruct (Z.eqb_spec (g_nst (gat c w)) MAX_DT); [contradiction|].
  apply sched_at_own_slot; auto using fuel_reaches_root.
Qed.
Print Assumptions parent_due_no_later_pull.

(* WHOLE-RUN INVARIANT, cache half of `parent_due_no_later` (the tree version of EngineFacts.boundary):
   for every well-formed tree WITHOUT try_except nodes and WITHOUT re-entering owners ([no_try]: kinds 2 and 4;
   no exception is ever captured at graph level - with one the statement is false, finding F1,
   corpus/nest/kf_wake_lost_*.case - and no cycle is ever resumed), every user code, every
   state the simulation loop reaches without an error (after start, after every root cycle), at EVERY depth:
   no graph is in the middle of a cycle, every graph's cursor is at rest, and the cached next time of every
   started graph is <= every armed slot inside it. *)
Theorem parent_due_no_later_cache :
  forall T beh rr start end_ fuel,
    wf_tree T -> no_try T -> (0 < length T)%nat -> 0 <= start <= MAX_DT -> end_ <= MAX_DT ->
    let w := run_sim T beh rr start end_ fuel in
    ok w = true ->
    forall g, g_evaluating (gat g w) = false
      /\ (g_cursor (gat g w) = 0 \/ g_cursor (gat g w) = -1)
      /\ (g_started (gat g w) = true ->
          forall j, (j < length (gc_nodes (gcfg_at T g)))%nat -> (j < length (g_slots (gat g w)))%nat ->
                    g_now (gat g w) < slot_at j (gat g w) -> g_nst (gat g w) <= slot_at j (gat g w)).
Proof.
  intros T beh rr start end_ fuel HT HN HL Hs He w Hok g.
  destruct (proj2 (run_sim_whole T beh rr HT start end_ fuel Hs He) HN HL Hok) as (C & Q & _).
  assert (E : g_evaluating (gat g w) = false) by (apply Q; lia).
  destruct (C g E) as [A B]. split; [exact E|split; [exact A|]]. intros S j Hj Hsl Harm. exact (B S j Hj Hsl Harm).
Qed.
Print Assumptions parent_due_no_later_cache.

(* the same for one completed cycle of any graph at any depth, from any good state (the inductive step) *)
Theorem parent_due_no_later_cycle :
  forall T beh rr, wf_tree T -> no_try T -> forall f c t w,
    Good T c w -> (c < length T)%nat -> ok (eval_graph f T beh rr c t w) = true ->
    Good T c (eval_graph f T beh rr c t w).
Proof. intros T beh rr HT HN f. exact (eval_graph_good T beh HT HN rr f). Qed.
Print Assumptions parent_due_no_later_cycle.

(* NOT PROVED as a whole-run invariant: the owner half "owner slot armed and <= the child's cached next
   time".  The push and the pull (parent_due_no_later_push, parent_due_no_later_pull above) are its local
   mechanism: each bounds the owner's slot by the clamped time of one request.  It is only invariant for
   RANKED trees (every producer evaluated before its consumers' owners): in an unranked tree a same-cycle
   notification arriving after the owner was scanned overwrites the owner's future slot with the current
   time (schedule_node_impl: `when < scheduled`) and the child's wake-up is lost.  Proving it needs the
   invariant "the evaluating graphs form the owner chain of the node being evaluated" over the recursion;
   the correspondence and the oracle's timer check (`wake_lost`) carry it. *)

(* no_child_wake_lost, FULL STATEMENT: from parent_due_no_later and the root's C02.wake_exact: every pending slot of every
   node at every depth is the time of a root cycle in which the chain of owners evaluates down to it.
   Proved part: a request is recorded no later than asked in the node's own slot, at any depth, and it
   can never raise "schedule in the past" when it is not before the graph's clock. *)
Theorem no_child_wake_lost_recorded :
  forall T, parents_lt T -> forall g i when w,
    (g < length (w_gs w))%nat -> (i < length (g_slots (gat g w)))%nat -> now_of g w <= when ->
    slot_at i (gat g (sched_at (length T) T g i when w)) <= clamp T g when w
    /\ w_err (sched_at (length T) T g i when w) = w_err w.
Proof.
  intros T HT g i when w Lg Li Hn. split.
  - apply sched_at_own_slot; auto using fuel_reaches_root.
  - apply sched_at_top_err; auto.
Qed.
Print Assumptions no_child_wake_lost_recorded.

(* no_child_wake_lost, PARTIAL: in every good boundary state ([Cov] and [Quiet 0], what parent_due_no_later_cache
   and parent_due_no_later_cycle above give), if the owners of graph c up to the root are due ([owners_due], a
   hypothesis: each owner slot armed and <= the cached next time of the child it owns - what push and pull are
   there for), the root's next cycle is no later than ANY armed slot inside c, at any depth *)
Theorem no_child_wake_lost_partial :
  forall T d c j w,
    Cov T w -> Quiet 0 w -> g_started (gat c w) = true ->
    (j < length (gc_nodes (gcfg_at T c)))%nat -> (j < length (g_slots (gat c w)))%nat ->
    g_now (gat c w) < slot_at j (gat c w) ->
    owners_due d T c w ->
    g_nst (gat 0 w) <= slot_at j (gat c w).
Proof.
  intros T. induction d as [|d IH]; intros c j w C Q S Hj Hs Harm Ho; simpl in Ho;
    assert (Hc : g_nst (gat c w) <= slot_at j (gat c w))
      by (destruct (C c (Q c ltac:(lia))) as [_ B]; apply (B S j Hj Hs Harm));
    (destruct (gc_parent (gcfg_at T c)) as [[pg pn]|]; [|subst c; exact Hc]); [tauto|].
  destruct Ho as (Sp & Hn & Hns & [Ha Hd] & Ho). specialize (IH pg pn w C Q Sp Hn Hns Ha Ho). lia.
Qed.
Print Assumptions no_child_wake_lost_partial.

(* notifications (an outer producer ticking an input bound into a child, at any depth) never fail *)
Theorem notification_never_in_the_past :
  forall T, parents_lt T -> forall p now w, w_err (notify T p now w) = w_err w.
Proof. exact notify_err. Qed.
Print Assumptions notification_never_in_the_past.

(* nested_eq_inlined, FULL STATEMENT (not proved; carried by the correspondence + the oracle's stream comparison):
     for every body B over arbitrary node behaviours (internal sources, schedulers, state, pass-through
     outputs, captured outer ports), every depth d >= 1 and every outer program P, the stream of
     (time, value) ticks at the outer output of nest^d(B) in P equals that of B inlined into P.
   What is missing: a simulation between the flat engine run on the inlined program and the tree engine
   (relation: equal node states and slots for the body's nodes; the owner chain's slots = min of the
   child's pending slots; extra root cycles of one side evaluate nothing in the body).  It is also
   literally false for the phantom `modified` tick of finding KF-phantom-tick-forwarding-rebind-C09.
   Proved: boundaries are bindings at every depth - the reading half of the simulation. *)
Theorem nested_eq_inlined_partial_inputs :
  forall f T g n slot s pg pn b,
    nth_error (c_ins (ncfg_at T g n)) slot = Some s -> i_src s < 0 ->
    gc_parent (gcfg_at T g) = Some (pg, pn) ->
    find (fun b => (b_node b =? n)%nat && (b_slot b =? slot)%nat) (c_binds (ncfg_at T pg pn)) = Some b ->
    res_in (S f) T g n slot = res_in f T pg pn (b_outer b).
Proof.
  intros f T g n slot s pg pn b Hs Hneg Hp Hb. cbn [res_in]. rewrite Hs.
  destruct (Z.leb_spec 0 (i_src s)); [lia|]. rewrite Hp, Hb. reflexivity.
Qed.
Print Assumptions nested_eq_inlined_partial_inputs.

Theorem nested_eq_inlined_partial_output :
  forall f T g n,
    is_nested (ncfg_at T g n) = true -> 0 <= c_outn (ncfg_at T g n) ->
    res_out (S f) T g n 0 = res_out f T (c_child (ncfg_at T g n)) (Z.to_nat (c_outn (ncfg_at T g n))) 0.
Proof.
  intros f T g n Hn Ho. cbn [res_out]. rewrite Hn. destruct (Z.leb_spec 0 (c_outn (ncfg_at T g n))); [reflexivity|lia].
Qed.
Print Assumptions nested_eq_inlined_partial_output.

(* non-vacuity: a decoded generated program is a well-formed tree; its run satisfies the invariant *)
Example wf_tree_inhabited : wf_tree (decode boom_ident_case).
Proof.
  repeat split.
  - intros g pg pn. destruct g as [|[|g]]; vm_compute; intros H; try discriminate.
    + inversion H; subst. lia.
    + destruct g; discriminate.
  - intros g i. destruct g as [|[|g]].
    + destruct i as [|[|[|[|i]]]]; vm_compute; intros H; try discriminate; try reflexivity.
      destruct i; discriminate.
    + destruct i as [|[|i]]; vm_compute; intros H; try discriminate. destruct i; discriminate.
    + vm_compute. destruct g; destruct i; intros H; try discriminate; destruct i; discriminate.
Qed.

Example run_clocks_example :
  clocks_ok (decode boom_ident_case) (run_sim (decode boom_ident_case) (script_beh boom_ident_case) true 1 8 8).
Proof. apply child_never_early; [exact wf_tree_inhabited| |]; unfold MAX_DT; lia. Qed.

(* the hypotheses of the push theorem are met by a reachable state: after the run the child graph 1 of
   the witness is idle (started, not evaluating) and has an owner *)
Example push_hypotheses_inhabited :
  let T := decode boom_ident_case in
  let w := run_sim T (script_beh boom_ident_case) true 1 8 8 in
  gc_parent (gcfg_at T 1) = Some (0%nat, 1%nat) /\ w_err w = 0 /\ idle 1 w = true /\ now_of 1 w <= 9
  /\ (0 < length (w_gs w))%nat /\ (1 < length (g_slots (gat 0 w)))%nat.
Proof. vm_compute. repeat split; try reflexivity; try lia; intros H; discriminate. Qed.

(* the hypotheses of the whole-run invariant are met: a depth-2 nest without try_except, run to the end without
   error; in its final state the innermost graph (2) is started and has been evaluated (its clock is 5) *)
Example whole_run_invariant_inhabited :
  let T := decode nest2_case in
  let w := run_sim T (script_beh nest2_case) true 1 8 8 in
  wf_tree T /\ no_try T /\ (0 < length T)%nat /\ ok w = true
  /\ g_started (gat 2 w) = true /\ g_now (gat 2 w) = 5.
Proof.
  split; [exact wf_nest2|split; [exact no_try_nest2|]]. vm_compute. repeat split; try reflexivity; lia.
Qed.

