(* Props/C04.v — property C04: modified / valid / last-modified-time tell the
   truth for producers and consumers.

   Vocabulary (Track.v, TrackFacts.v):
     shape, init sh          nested time-series shapes (TS, TSB of fields, fixed TSL, TSD) and the fresh output of a shape
     hist, run h s           a write history [(time, op)] in execution order, applied through the mirror of
                             record_modified / notify_child_modified / move_value_from / invalidate
     OSet p v | OInv p       write the leaf at path p | invalidate the node at path p
     times_ok MIN_DT h       times are concrete and non-decreasing (several writes per cycle and gaps allowed)
     typed (init sh) o       the operation addresses a leaf / a node of the shape
     get q s, lmt_of, modified t, valid, delta_readable t       what TSOutputView / TSDataView read at endpoint q
     last_write h q          THE WRITE LOG, with no tree and no tracking record in it:
         last_write [] q = MIN_DT
         last_write (h ++ [(t, OSet p _)]) q = t                  when q is p or encloses p,   else unchanged
         last_write (h ++ [(t, OInv p)]) q   = unchanged          when p is not valid (last_write h p = MIN_DT)
                                             = MIN_DT             when q is p or below p
                                             = t                  when q encloses p
                                             = unchanged          otherwise
   The theorems range over every dictionary-free shape and every such history.  Whole-value writes and
   dictionaries are executable in the model and exercised by the correspondence; see
   whole_write_after_child_write_refuted and keyed_parent_if_child for what is proved of them. *)
Require Import Base Track TrackFacts.
From Coq Require Import ZifyBool.

(* record_modified is monotone: an older or equal time neither rewinds the record nor notifies;
   a newer time is recorded and notified exactly once; a repeat in the same cycle coalesces. *)
Theorem record_modified_monotone : forall t k,
  (t <= lmt k -> rec_mod t k = (k, false)) /\
  (lmt k < t -> rec_mod t k = (mkTrk t (ncnt k + 1) t, true)) /\
  rec_mod t (fst (rec_mod t k)) = (fst (rec_mod t k), false) /\
  lmt k <= lmt (fst (rec_mod t k)) /\
  ncnt (fst (rec_mod t k)) = ncnt k + (if snd (rec_mod t k) then 1 else 0).
Proof.
  intros t k. unfold rec_mod. destruct (t <=? lmt k) eqn:E; cbn [fst snd lmt ncnt].
  - rewrite E. repeat split; (reflexivity || lia).
  - rewrite Z.leb_refl. repeat split; (reflexivity || lia).
Qed.
Print Assumptions record_modified_monotone.

(* last-modified-time of every endpoint of every shape, after every history, is the write log's answer *)
Theorem lmt_is_last_write : forall sh h,
  has_dict sh = false -> times_ok MIN_DT h -> Forall (fun e => typed (init sh) (snd e)) h ->
  forall q, lmt_at (run h (init sh)) q = last_write h q.
Proof. intros sh h Hsh Ht Hty q. apply (run_init sh h Hsh Ht Hty). Qed.
Print Assumptions lmt_is_last_write.

(* modified reads true at t exactly when the write log says the endpoint (or something below it) was
   last written in cycle t and not invalidated since *)
Theorem modified_iff_written : forall sh h,
  has_dict sh = false -> times_ok MIN_DT h -> Forall (fun e => typed (init sh) (snd e)) h ->
  forall q x t, get q (run h (init sh)) = Some x ->
  (modified t x = true <-> (last_write h q = t /\ t <> MIN_DT)).
Proof. intros sh h Hsh Ht Hty q x t Hx. unfold modified. rewrite (node_lmt sh h Hsh Ht Hty q x Hx). lia. Qed.
Print Assumptions modified_iff_written.

(* ... and the write log names a cycle only if an operation of that cycle concerned the endpoint:
   a write at or below it, or the invalidation of something strictly below it *)
Theorem modified_only_if_an_operation_in_that_cycle : forall h q t,
  last_write h q = t -> t <> MIN_DT -> exists o, In (t, o) h /\ concerns o q = true.
Proof.
  induction h as [|[t0 o] h IH] using rev_ind; intros q t H Ht; [cbn in H; congruence|].
  rewrite last_write_snoc in H. destruct (spec_step_concerns t0 o (last_write h) q) as [[E Hc]|[E _]]; [congruence| |].
  - exists o. replace t with t0 by congruence. split; [apply in_or_app; right; left; reflexivity|exact Hc].
  - destruct (IH q t) as (o' & Hin & Hc); [congruence|exact Ht|]. exists o'. split; [apply in_or_app; left; exact Hin|exact Hc].
Qed.
Print Assumptions modified_only_if_an_operation_in_that_cycle.

(* a write is seen, in its cycle, by the leaf and by every enclosing collection up to the root *)
Theorem written_then_modified : forall h t p v q, prefixb q p = true -> last_write (h ++ [(t, OSet p v)]) q = t.
Proof. intros h t p v q H. rewrite last_write_snoc. cbn [spec_step]. rewrite H. reflexivity. Qed.
Print Assumptions written_then_modified.

(* valid is true from the first write until an explicit invalidation (of the endpoint or of a node
   enclosing it) and never otherwise *)
Theorem valid_iff_written_since_invalidate : forall sh h,
  has_dict sh = false -> times_ok MIN_DT h -> Forall (fun e => typed (init sh) (snd e)) h ->
  forall q x, get q (run h (init sh)) = Some x -> (valid x = true <-> last_write h q <> MIN_DT).
Proof. intros sh h Hsh Ht Hty q x Hx. unfold valid. rewrite (node_lmt sh h Hsh Ht Hty q x Hx). lia. Qed.
Print Assumptions valid_iff_written_since_invalidate.

Theorem invalidation_wipes_below_and_touches_above : forall h t p q, last_write h p <> MIN_DT ->
  last_write (h ++ [(t, OInv p)]) q = if prefixb p q then MIN_DT else if prefixb q p then t else last_write h q.
Proof.
  intros h t p q H. rewrite last_write_snoc. cbn [spec_step]. destruct (last_write h p =? MIN_DT) eqn:E; [lia|reflexivity].
Qed.
Print Assumptions invalidation_wipes_below_and_touches_above.

Theorem invalidating_the_invalid_changes_nothing : forall h t p q,
  last_write h p = MIN_DT -> last_write (h ++ [(t, OInv p)]) q = last_write h q.
Proof. intros h t p q H. rewrite last_write_snoc. cbn [spec_step]. rewrite H. reflexivity. Qed.
Print Assumptions invalidating_the_invalid_changes_nothing.

(* a parent is modified whenever one of its children is (read in the current cycle t) ... *)
Theorem fixed_parent_if_child : forall sh h,
  has_dict sh = false -> times_ok MIN_DT h -> Forall (fun e => typed (init sh) (snd e)) h ->
  forall q i t, (forall e, In e h -> fst e <= t) -> MIN_DT <= t ->
  last_write h (q ++ [i]) = t -> last_write h q = t.
Proof.
  intros sh h _ Ht _ q i t Hmax H0 Hc.
  pose proof (last_write_timed h t Ht H0 Hmax q _ (prefixb_app q [i])). lia.
Qed.
Print Assumptions fixed_parent_if_child.

(* ... and a fixed-shape parent only then (this direction only, whatever the name says): a child has the
   time of that cycle too, or the history holds an invalidation, at that time, of some node strictly below
   the parent (the code notifies the parent of an invalidated child; the tree's own test "scheduling-only
   fixed-list invalidation" relies on it) *)
Theorem fixed_parent_iff_child : forall sh h,
  Forall (fun e => typed (init sh) (snd e)) h ->
  forall q t, skel (init sh) q = Some 1 -> last_write h q = t -> t <> MIN_DT ->
  (exists i, last_write h (q ++ [i]) = t) \/ (exists p, In (t, OInv p) h /\ sprefixb q p = true).
Proof.
  intros sh h Hty q t Hq. apply parent_only_if_child. intros t' v Hin.
  rewrite Forall_forall in Hty. apply Hty in Hin. cbn [snd typed] in Hin. congruence.
Qed.
Print Assumptions fixed_parent_iff_child.

(* dictionaries: a structural change (key created on the way, key erased) or a child's modification
   makes the dictionary modified in that cycle *)
Theorem keyed_parent_if_child : forall f t k e kids key p', lmt k <= t ->
  let r := at_path f t (key :: p') (Dict k e kids) in
  (dict_find key kids = None -> lmt_of (r_tree r) = t) /\
  (forall c, dict_find key kids = Some c -> r_up (at_path f t p' c) = true -> lmt_of (r_tree r) = t).
Proof.
  intros f t k e kids key p' Hk r. subst r. cbn [at_path]. unfold dict_ensure, lmt_of. split.
  - intros ->. destruct (rec_mod_spec t k) as [Hl _]. destruct (rec_mod t k) as [k1 up1].
    destruct (notify_parent_spec t (r_up (at_path f t p' (init e))) k1) as [Hl2 _].
    destruct (notify_parent t _ k1) as [k2 up2]. cbn [fst r_tree tracking] in *. destruct (r_up _); lia.
  - intros c -> ->. cbn [notify_parent]. destruct (rec_mod_spec t k) as [Hl _]. destruct (rec_mod t k) as [k2 up2].
    cbn [fst r_tree tracking] in *. lia.
Qed.
Print Assumptions keyed_parent_if_child.

Theorem keyed_parent_on_erase : forall t key k e kids, lmt k <= t -> lmt_of (r_tree (op_erase t key (Dict k e kids))) = t.
Proof.
  intros t key k e kids Hk. cbn [op_erase]. destruct (rec_mod_spec t k) as [Hl _].
  destruct (dict_find key kids), (rec_mod t k) as [k' up]; unfold lmt_of; cbn in *; lia.
Qed.
Print Assumptions keyed_parent_on_erase.

(* a per-tick delta is readable only during the cycle that produced it *)
Theorem delta_only_in_cycle : forall sh h,
  has_dict sh = false -> times_ok MIN_DT h -> Forall (fun e => typed (init sh) (snd e)) h ->
  forall q x t, get q (run h (init sh)) = Some x ->
  (delta_readable t x = true <-> (last_write h q = t /\ t <> MIN_DT)).
Proof. intros sh h Hsh Ht Hty q x t Hx. unfold delta_readable. rewrite (node_lmt sh h Hsh Ht Hty q x Hx). lia. Qed.
Print Assumptions delta_only_in_cycle.

(* a second write of the same leaf in the same cycle changes no tracking record anywhere:
   nobody is notified twice *)
Theorem repeated_write_is_silent : forall t v p s k v0,
  fx s -> get p s = Some (Leaf k v0) -> lmt k = t ->
  r_up (at_path (op_set t v) t p s) = false /\
  forall q, option_map tracking (get q (r_tree (at_path (op_set t v) t p s))) = option_map tracking (get q s).
Proof.
  intros t v p. induction p as [|i p IH]; intros s k v0 Hfx Hg Hk.
  - injection Hg as ->. cbn [at_path op_set]. rewrite (proj2 (Z.eqb_eq _ _) Hk).
    split; [reflexivity|]. intros [|j q]; reflexivity.
  - change (i :: p) with ([i] ++ p) in Hg. rewrite get_app in Hg. destruct (get [i] s) as [c|] eqn:Hc; [|discriminate].
    destruct (IH c k v0 (fx_sub _ _ _ Hfx Hc) Hg Hk) as [Hup Hq].
    destruct (at_path_child (op_set t v) t i p s c Hfx Hc) as (_ & Htr & Hu & Hget).
    rewrite Hup in Htr, Hu. split; [exact Hu|].
    intros [|j q]; [cbn [get option_map]; rewrite Htr; reflexivity|]. rewrite Hget.
    destruct (Z.eqb_spec j i) as [->|_]; [|reflexivity]. rewrite Hq, (get_app [i] q), Hc. reflexivity.
Qed.
Print Assumptions repeated_write_is_silent.

(* consumers: an input owns no data.  Its line for an endpoint is the producer's line whenever the link's
   own time is not ahead of the endpoint's (that this holds for a link bound to a valid, never invalidated
   endpoint is argued in docs/notes-track.md, not proved: no lemma here ties c_link to lmt_of); validity
   and value never depend on the link; consumers of one endpoint stay in step *)
Theorem consumers_agree : forall who t p lk root x,
  lk <= lmt_of x -> lmt_of x <= t ->
  node_line who t p (Some lk) root x = node_line who t p None root x.
Proof.
  intros who t p lk root x H1 H2. unfold node_line.
  assert (lmt_of x <? lk = false) as -> by lia. cbn [orb].
  destruct root; [|reflexivity].
  assert (Z.max lk (lmt_of x) = lmt_of x) as -> by lia.
  unfold modified. do 3 f_equal. destruct (lk =? t) eqn:E; [|reflexivity].
  assert (lmt_of x =? t = true) as -> by lia. reflexivity.
Qed.
Print Assumptions consumers_agree.

Theorem consumers_agree_valid_value : forall who t p lk root x,
  exists md l rd dv md' l' rd' dv',
    node_line who t p (Some lk) root x = obs_line who t p (valid x) md l (value_of x) rd dv /\
    node_line who t p None root x = obs_line who t p (valid x) md' l' (value_of x) rd' dv'.
Proof. intros who t p lk root x. unfold node_line. repeat eexists. Qed.
Print Assumptions consumers_agree_valid_value.

Theorem consumers_in_step : forall t a b c1 c2,
  c_path c1 = c_path c2 -> c_bound c1 = c_bound c2 -> c_link c1 = c_link c2 ->
  c_link (feed t a b c1) = c_link (feed t a b c2) /\ c_bound (feed t a b c1) = c_bound (feed t a b c2).
Proof.
  intros t a b c1 c2 Hp Hb Hl. unfold feed. rewrite Hp, Hb.
  destruct (c_bound c2 && (target_ncnt (c_path c2) a <? target_ncnt (c_path c2) b)); cbn; split; congruence.
Qed.
Print Assumptions consumers_in_step.

(* what is FALSE of the faithful model (the findings F1 - F3) *)
Definition sh_nested : shape := STSB [STSB [STS; STS]; STS].

(* F3: writing a child and then the whole bundle in one cycle throws ("duplicate modification") *)
Theorem whole_write_after_child_write_refuted :
  exists sh t p v vt, typed (init sh) (OSet p v) /\
    r_err (step t (OWhole [] vt) (run [(t, OSet p v)] (init sh))) = 2.
Proof.
  exists sh_nested, 2, [0; 0], 7, (VFix [VFix [VLeaf 5; VLeaf 6]; VLeaf 8]). split; vm_compute; reflexivity.
Qed.
Print Assumptions whole_write_after_child_write_refuted.

(* F1: a consumer reads a delta for an endpoint in a cycle that did not write it: the link's time (fed by
   the sibling's write at 2) is ahead of the endpoint's own (1).  The fold feeds the link operation by
   operation: its list holds (time, (index of the operation in h, tt)) *)
Theorem consumer_delta_only_in_cycle_refuted :
  exists sh h q x lk t,
    get q (run h (init sh)) = Some x /\ modified t x = false /\ delta_readable t x = false /\
    c_link (fold_left (fun c e => feed (fst e) (run (firstn (fst (snd e)) h) (init sh)) (run (firstn (S (fst (snd e))) h) (init sh)) c)
                      [(1, (0%nat, tt)); (2, (1%nat, tt))] (mkCons 0 0 [] true MIN_DT)) = lk /\
    node_line 1 t q (Some lk) false x = obs_line 1 t q true false 1 9 true 9.
Proof.
  exists (STSB [STS; STS]), [(1, OSet [1] 9); (2, OSet [0] 7)], [1], (Leaf (mkTrk 1 1 1) 9), 2, 2.
  vm_compute. repeat split; reflexivity.
Qed.
Print Assumptions consumer_delta_only_in_cycle_refuted.

(* F2: after an invalidation the consumer's own position reads modified and the invalidation time,
   the producer reads not modified and MIN_DT; the stale value stays readable as a delta *)
Theorem consumers_agree_after_invalidate_refuted :
  exists x lk t, valid x = false /\
    node_line 0 t [] None true x = obs_line 0 t [] false false 0 0 false 0 /\
    node_line 1 t [] (Some lk) true x = obs_line 1 t [] false true 2 0 true 8.
Proof. exists (Leaf (mkTrk MIN_DT 2 2) 8), 2, 2. vm_compute. repeat split; reflexivity. Qed.
Print Assumptions consumers_agree_after_invalidate_refuted.

Definition ex_hist : hist :=
  [(1, OSet [0; 1] 5); (1, OSet [0; 1] 6); (3, OSet [1] 7); (3, OInv [0]); (6, OSet [0; 0] 9); (6, OInv [1]); (6, OInv [1])].

Example c04_hypotheses_satisfiable :
  has_dict sh_nested = false /\ times_ok MIN_DT ex_hist /\
  map (last_write ex_hist) [[]; [0]; [0; 0]; [0; 1]; [1]] = [6; 6; 6; 0; 0] /\
  map (lmt_at (run ex_hist (init sh_nested))) [[]; [0]; [0; 0]; [0; 1]; [1]] = [6; 6; 6; 0; 0].
Proof.
  split; [reflexivity|]. split; [cbn; unfold MIN_DT; repeat split; lia|].
  split; vm_compute; reflexivity.
Qed.

Example c04_history_is_typed : Forall (fun e => typed (init sh_nested) (snd e)) ex_hist.
Proof.
  unfold ex_hist.
  repeat (apply Forall_cons; [vm_compute; first [reflexivity | (intro H; discriminate H)]|]).
  apply Forall_nil.
Qed.

Example c04_parent_by_invalidation_only :
  let h := [(1, OSet [0; 1] 5); (2, OInv [0; 1])] in
  last_write h [0] = 2 /\ last_write h [0; 0] = 0 /\ last_write h [0; 1] = 0.
Proof. vm_compute. repeat split; reflexivity. Qed.

Example c04_model_runs_a_case :
  run_track [[1; 1; 3]; [2; 1; 2; 0; 0]; [4; 1; 0]; [4; 0; 0]; [3; 1; 1; 1; 1; 9]; [3; 2; 1; 1; 0; 7]] =
  [[23; 1; 1; 1]; [21; 1; 1]; [21; 2; 1];
   [20; 0; 1; 0; 1; 1; 1; 0; 1; 2; 1]; [20; 0; 1; 1; 0; 0; 0; 0; 0; 0; 0; 0]; [20; 0; 1; 1; 1; 1; 1; 1; 9; 1; 9; 1];
   [20; 1; 1; 0; 1; 1; 1; 0; 1; 2]; [20; 1; 1; 1; 0; 0; 0; 0; 0; 1; 0]; [20; 1; 1; 1; 1; 1; 1; 1; 9; 1; 9];
   [20; 2; 1; 0; 1; 1; 1; 0; 1; 2]; [20; 2; 1; 1; 0; 0; 0; 0; 0; 1; 0]; [20; 2; 1; 1; 1; 1; 1; 1; 9; 1; 9];
   [23; 2; 1; 1]; [21; 1; 2]; [21; 2; 2];
   [20; 0; 2; 0; 1; 1; 2; 0; 1; 1; 2]; [20; 0; 2; 1; 0; 1; 1; 2; 7; 1; 7; 1]; [20; 0; 2; 1; 1; 1; 0; 1; 9; 0; 0; 1];
   [20; 1; 2; 0; 1; 1; 2; 0; 1; 1]; [20; 1; 2; 1; 0; 1; 1; 2; 7; 1; 7]; [20; 1; 2; 1; 1; 1; 0; 1; 9; 1; 9];
   [20; 2; 2; 0; 1; 1; 2; 0; 1; 1]; [20; 2; 2; 1; 0; 1; 1; 2; 7; 1; 7]; [20; 2; 2; 1; 1; 1; 0; 1; 9; 1; 9]].
Proof. vm_compute. reflexivity. Qed.
