(* Props/C05.v — property C05: collection deltas are coherent with collection values at every tick.
   The statements, proved from the invariants and general theorems of the *Facts.v files.  The models are Coll.v (CollOld.v: the TSD insert rule before its repair), Fixed.v, Window.v and DWindow.v;
   a history is a list of engine cycles (time, mutations) at strictly increasing times. *)
Require Import Base Coll CollOld Window DWindow Fixed CollFacts TsdFacts TsdValueFacts WindowFacts DWindowFacts FixedFacts.

(* [tss_trace tss_empty h] lists, for every cycle of the history h, the storage before the cycle, the
   cycle's time and mutations, and the storage after it.  [tss_value] is the set of live elements;
   [tss_added t] / [tss_removed t] are what TSSOutputView::added()/removed() return at time t. *)

(* The set starts empty. *)
Theorem tss_from_empty : tss_value tss_empty = [].
Proof. reflexivity. Qed.
Print Assumptions tss_from_empty.

(* Mutations that cancel within one cycle leave no trace: whatever the cycle's mutation list is
   (add-then-remove of a new element, remove-then-add of an existing one, any longer alternation,
   clears, capacity growth, slot reuse), the delta is exactly the NET change of membership, and the
   membership after the cycle is the mathematical meaning [spec_cycle] of the mutation list. *)
Theorem tss_cancel_leaves_no_trace : forall h, increasing MIN_DT h ->
  forall a t ops b, In (a, t, ops, b) (tss_trace tss_empty h) ->
  (forall k, In k (tss_added t b) <-> In k (tss_value b) /\ ~ In k (tss_value a)) /\
  (forall k, In k (tss_removed t b) <-> In k (tss_value a) /\ ~ In k (tss_value b)) /\
  (forall k, In k (tss_value b) <-> spec_cycle ops (fun x => In x (tss_value a)) k) /\
  (tss_modified t b = false -> forall k, In k (tss_value b) <-> In k (tss_value a)).
Proof.
  intros h Hinc a t ops b Hin.
  destruct (trace_inv h tss_empty MIN_DT _ cinv_empty ltac:(lia) Hinc a t ops b Hin) as [P [E [F C]]].
  destruct (cinv_char (inV a) t b ltac:(unfold MIN_DT in *; lia) C) as [A [R U]].
  split; [|split; [|split]].
  - intros k. rewrite A, !tss_value_in. reflexivity.
  - intros k. rewrite R, !tss_value_in. reflexivity.
  - intros k. subst b. destruct (cycle_step (inV a) t ops a (or_introl F)) as [_ S].
    rewrite tss_value_in, S. apply spec_cycle_ext. intros x. rewrite tss_value_in. reflexivity.
  - intros M k. rewrite !tss_value_in. apply U. exact M.
Qed.
Print Assumptions tss_cancel_leaves_no_trace.

(* value' = (value \ removed) U added, at every cycle of every history. *)
Theorem tss_step : forall h, increasing MIN_DT h ->
  forall a t ops b, In (a, t, ops, b) (tss_trace tss_empty h) ->
  forall k, In k (tss_value b) <-> (In k (tss_value a) /\ ~ In k (tss_removed t b)) \/ In k (tss_added t b).
Proof.
  intros h I a t ops b H k. destruct (tss_cancel_leaves_no_trace h I a t ops b H) as [A [R _]]. rewrite A, R.
  destruct (in_dec Z.eq_dec k (tss_value a)); destruct (in_dec Z.eq_dec k (tss_value b)); tauto.
Qed.
Print Assumptions tss_step.

Theorem tss_disjoint : forall h, increasing MIN_DT h ->
  forall a t ops b, In (a, t, ops, b) (tss_trace tss_empty h) ->
  forall k, In k (tss_added t b) -> In k (tss_removed t b) -> False.
Proof.
  intros h I a t ops b H k HA HR. destruct (tss_cancel_leaves_no_trace h I a t ops b H) as [A [R _]].
  apply A in HA. apply R in HR. tauto.
Qed.
Print Assumptions tss_disjoint.

(* every added element is present afterwards (and was not present before) *)
Theorem tss_added_present : forall h, increasing MIN_DT h ->
  forall a t ops b, In (a, t, ops, b) (tss_trace tss_empty h) ->
  forall k, In k (tss_added t b) -> In k (tss_value b) /\ ~ In k (tss_value a).
Proof. intros h I a t ops b H k. apply (tss_cancel_leaves_no_trace h I a t ops b H). Qed.
Print Assumptions tss_added_present.

(* every removed element is absent afterwards and was present before *)
Theorem tss_removed_absent_was_present : forall h, increasing MIN_DT h ->
  forall a t ops b, In (a, t, ops, b) (tss_trace tss_empty h) ->
  forall k, In k (tss_removed t b) -> ~ In k (tss_value b) /\ In k (tss_value a).
Proof.
  intros h I a t ops b H k HR. destruct (tss_cancel_leaves_no_trace h I a t ops b H) as [_ [R _]]. apply R in HR. tauto.
Qed.
Print Assumptions tss_removed_absent_was_present.

(* Slot reuse and capacity growth do not change the abstraction: growing the slot store changes
   neither the value nor the delta marks ... *)
Theorem abs_growth_invariant : forall c s, TInv s ->
  TInv (tss_reserve c s) /\
  forall i, st (tss_reserve c s) i = st s i /\ ab (tss_reserve c s) i = ab s i /\ rb (tss_reserve c s) i = rb s i.
Proof. intros c s T. destruct (CollFacts.reserve_view c s T) as [A [_ [_ B]]]. exact (conj A B). Qed.
Print Assumptions abs_growth_invariant.

(* ... and an insertion, whichever slot the store hands out (a fresh one after growth, one freed by the
   deferred erase, or the element's own pending slot), adds exactly that element; a removal removes
   exactly that element.  Both are stated as a step of the cycle invariant, from [Fresh] or [Mid] to [Rolled], each of
   which contains the well-formedness invariant [TInv]; that every reachable state satisfies it is CollFacts.trace_inv. *)
Theorem abs_slot_reuse : forall V0 t k s ch s',
  Fresh V0 t s \/ Mid V0 t s -> tss_add t k s = (ch, s') ->
  Rolled V0 t s' /\ (forall k', inV s' k' <-> inV s k' \/ k' = k) /\ (ch = true <-> ~ inV s k).
Proof. exact CollFacts.add_step. Qed.
Print Assumptions abs_slot_reuse.

Theorem abs_remove : forall V0 t k s ch s',
  Fresh V0 t s \/ Mid V0 t s -> tss_remove t k s = (ch, s') ->
  Rolled V0 t s' /\ (forall k', inV s' k' <-> inV s k' /\ k' <> k) /\ (ch = true <-> inV s k).
Proof. exact CollFacts.remove_step. Qed.
Print Assumptions abs_remove.


(* A dictionary key "exists" once its child has a value: the key set observed at a tick is
   [tsd_valid_keys]; [tsd_added t] / [tsd_removed t] / [tsd_modified_keys t] are what
   TSDOutputView::added_keys() / removed_keys() / modified_keys() return at time t. *)
Theorem tsd_from_empty : tsd_valid_keys tsd_empty = [] /\ tsd_keys tsd_empty = [].
Proof. exact (conj eq_refl eq_refl). Qed.
Print Assumptions tsd_from_empty.

(* the key delta is exactly the net change of the key set, whatever the cycle's mutations were
   (set / erase / clear / create / reserve in any order and multiplicity); the last conjunct is
   [tsd_modified_are_live] below *)
Theorem tsd_cancel_leaves_no_trace : forall h, dincreasing MIN_DT h ->
  forall a t ops b, In (a, t, ops, b) (tsd_trace tsd_empty h) ->
  (forall k, In k (tsd_added t b) <-> In k (tsd_valid_keys b) /\ ~ In k (tsd_valid_keys a)) /\
  (forall k, In k (tsd_removed t b) <-> In k (tsd_valid_keys a) /\ ~ In k (tsd_valid_keys b)) /\
  (tsd_struct_current t b = false -> forall k, In k (tsd_valid_keys b) <-> In k (tsd_valid_keys a)) /\
  (forall k, In k (tsd_modified_keys t b) -> In k (tsd_valid_keys b) /\ In k (tsd_keys b)).
Proof.
  intros h Hinc a t ops b Hin.
  destruct (trace_facts h Hinc a t ops b Hin) as [PT [TA [TB [CA [DA C]]]]].
  destruct (cyc_keys a t PT DA b C) as [A [R U]].
  split; [|split; [|split]].
  - intros k. rewrite A, (tsd_valid_keys_in a k TA), (tsd_valid_keys_in b k TB). reflexivity.
  - intros k. rewrite R, (tsd_valid_keys_in a k TA), (tsd_valid_keys_in b k TB). reflexivity.
  - intros M k. rewrite (tsd_valid_keys_in a k TA), (tsd_valid_keys_in b k TB). apply U. exact M.
  - intros k Hk. unfold tsd_modified_keys in Hk. destruct (tsd_modified t b); [|contradiction].
    apply tsd_raw_modified_in in Hk. split.
    + apply (tsd_valid_keys_in b k TB). apply inDM_inP; auto.
    + apply tsd_keys_in. destruct Hk as [i [Q _]]. exists i. exact Q.
Qed.
Print Assumptions tsd_cancel_leaves_no_trace.

Theorem tsd_keys_step : forall h, dincreasing MIN_DT h ->
  forall a t ops b, In (a, t, ops, b) (tsd_trace tsd_empty h) ->
  forall k, In k (tsd_valid_keys b) <-> (In k (tsd_valid_keys a) /\ ~ In k (tsd_removed t b)) \/ In k (tsd_added t b).
Proof.
  intros h I a t ops b H k. destruct (tsd_cancel_leaves_no_trace h I a t ops b H) as [A [R _]]. rewrite A, R.
  destruct (in_dec Z.eq_dec k (tsd_valid_keys a)); destruct (in_dec Z.eq_dec k (tsd_valid_keys b)); tauto.
Qed.
Print Assumptions tsd_keys_step.

Theorem tsd_disjoint : forall h, dincreasing MIN_DT h ->
  forall a t ops b, In (a, t, ops, b) (tsd_trace tsd_empty h) ->
  forall k, In k (tsd_added t b) -> In k (tsd_removed t b) -> False.
Proof.
  intros h I a t ops b H k HA HR. destruct (tsd_cancel_leaves_no_trace h I a t ops b H) as [A [R _]].
  apply A in HA. apply R in HR. tauto.
Qed.
Print Assumptions tsd_disjoint.

Theorem tsd_added_present : forall h, dincreasing MIN_DT h ->
  forall a t ops b, In (a, t, ops, b) (tsd_trace tsd_empty h) ->
  forall k, In k (tsd_added t b) -> In k (tsd_valid_keys b) /\ ~ In k (tsd_valid_keys a).
Proof. intros h I a t ops b H k. apply (tsd_cancel_leaves_no_trace h I a t ops b H). Qed.
Print Assumptions tsd_added_present.

Theorem tsd_removed_absent_was_present : forall h, dincreasing MIN_DT h ->
  forall a t ops b, In (a, t, ops, b) (tsd_trace tsd_empty h) ->
  forall k, In k (tsd_removed t b) -> ~ In k (tsd_valid_keys b) /\ In k (tsd_valid_keys a).
Proof.
  intros h I a t ops b H k HR. destruct (tsd_cancel_leaves_no_trace h I a t ops b H) as [_ [R _]]. apply R in HR. tauto.
Qed.
Print Assumptions tsd_removed_absent_was_present.

(* modified keys are live keys that have a value *)
Theorem tsd_modified_are_live : forall h, dincreasing MIN_DT h ->
  forall a t ops b, In (a, t, ops, b) (tsd_trace tsd_empty h) ->
  forall k, In k (tsd_modified_keys t b) -> In k (tsd_valid_keys b) /\ In k (tsd_keys b).
Proof. intros h I a t ops b H. apply (tsd_cancel_leaves_no_trace h I a t ops b H). Qed.
Print Assumptions tsd_modified_are_live.

(* The VALUE part of the step statement: value' = value with the delta (removed keys, modified items) applied -
   in every cycle of every history a key that is neither removed nor modified keeps its value (and an absent
   key stays absent).  Holds for the REPAIRED insert rule (restore_modified_on_resurrection). *)
Theorem tsd_value_step : forall h, dincreasing MIN_DT h ->
  forall a t ops b, In (a, t, ops, b) (tsd_trace tsd_empty h) ->
  forall k, ~ In k (tsd_removed t b) -> ~ In k (tsd_modified_keys t b) -> tsd_get b k = tsd_get a k.
Proof. exact TsdValueFacts.tsd_value_step_l. Qed.
Print Assumptions tsd_value_step.

(* The delta of a cycle is EXACTLY that cycle's, also when elements are written through their own output views
   (DWrite: no dictionary-level operation, the dictionary rolls its window from record_child_modified alone):
   a key is reported as modified iff it is live and its element carries this cycle's time stamp - never a mark
   left over from the previous delta window. *)
Theorem tsd_modified_are_written : forall h, dincreasing MIN_DT h ->
  forall a t ops b, In (a, t, ops, b) (tsd_trace tsd_empty h) ->
  forall k, In k (tsd_modified_keys t b) ->
  exists i, dst b i = mkSlot SLive k /\ c_lmt (child_at b i) = t /\ tsd_get b k = Some (c_val (child_at b i)).
Proof. exact TsdValueFacts.tsd_modified_written_l. Qed.
Print Assumptions tsd_modified_are_written.

Theorem tsd_written_are_modified : forall h, dincreasing MIN_DT h ->
  forall a t ops b, In (a, t, ops, b) (tsd_trace tsd_empty h) ->
  forall i k, dst b i = mkSlot SLive k -> c_lmt (child_at b i) = t -> In k (tsd_modified_keys t b).
Proof. exact TsdValueFacts.tsd_written_modified_l. Qed.
Print Assumptions tsd_written_are_modified.

(* HISTORY (known finding KF-tsd-set-erase-set-C05, repaired): under the insert rule hgraph had before the repair
   (CollOld.v) the statement was false - a key written, erased and written again within one cycle carried a new
   value without being reported as modified. *)
Theorem tsd_value_step_old_rule_refuted :
  exists t ops, 0 < t /\ ~ tsd_apply_delta_ok tsd_empty t (tsd_cycle_old t ops tsd_empty).
Proof.
  exists 1, [DSet 2 9; DErase 2; DSet 2 3]. split; [lia|].
  intros H. specialize (H 2). vm_compute in H.
  assert (Q : Some 3 = @None Z) by (apply H; intros []). discriminate.
Qed.
Print Assumptions tsd_value_step_old_rule_refuted.


(* [f_value b i] is child i's value (None while it never ticked); [f_delta t b i] is child i's entry in
   the parent's delta at time t.  value' = value with the delta applied, from all-invalid. *)
Theorem fixed_step : forall n h, fincreasing MIN_DT h ->
  forall a t ops b, In (a, t, ops, b) (f_trace (fixed_empty n) h) ->
  forall i, f_value b i = match f_delta t b i with Some v => Some v | None => f_value a i end.
Proof.
  intros n h I a t ops b H i.
  destruct (ftrace_inv h (fixed_empty n) MIN_DT (fok_empty n) ltac:(lia) I a t ops b H) as [P [M [MM C]]].
  unfold f_delta, f_value, f_modified.
  destruct (Z.eqb_spec t MIN_DT) as [E|E]; [lia|]. cbn [negb andb].
  destruct (C i) as [[C1 C2]|[C1 C2]].
  - rewrite C1.
    replace ((f_lmt b =? t) && (i <? length (f_ch b))%nat && (c_lmt (f_child a i) =? f_lmt b)) with false; [reflexivity|].
    symmetry. destruct (Z.eqb_spec (f_lmt b) t) as [Q|Q]; [|reflexivity].
    destruct (Z.eqb_spec (c_lmt (f_child a i)) (f_lmt b)); [lia|]. apply andb_false_r.
  - assert (Li : (i < length (f_ch b))%nat).
    { destruct (Nat.lt_ge_cases i (length (f_ch b))); auto. unfold f_child in C1. rewrite nth_overflow in C1 by lia. cbn in C1. lia. }
    rewrite C2, Z.eqb_refl, C1, Z.eqb_refl. destruct (Nat.ltb_spec i (length (f_ch b))); [|lia]. cbn [andb].
    unfold c_valid. rewrite C1. destruct (Z.eqb_spec t MIN_DT); [contradiction|reflexivity].
Qed.
Print Assumptions fixed_step.

Theorem fixed_delta_only_when_ticked : forall n h, fincreasing MIN_DT h ->
  forall a t ops b, In (a, t, ops, b) (f_trace (fixed_empty n) h) ->
  forall i v, f_delta t b i = Some v -> f_modified t b = true /\ f_value b i = Some v.
Proof.
  intros n h I a t ops b H i v D. rewrite (fixed_step n h I a t ops b H i), D. split; [|reflexivity].
  unfold f_delta in D. destruct (f_modified t b); [reflexivity|discriminate].
Qed.
Print Assumptions fixed_delta_only_when_ticked.

(* [spec_whist h []] is the list of values pushed since the last clear according to the protocol
   (one tick per evaluation time; a clear may be followed by one push; anything else is rejected). *)
Theorem window_is_lastn : forall n m h, (0 < n)%nat -> wincreasing MIN_DT h ->
  w_values (win_run n m h) = lastn n (spec_whist h []).
Proof. intros n m h P W. exact (proj1 (WindowFacts.window_is_lastn_gen n m h P W)). Qed.
Print Assumptions window_is_lastn.

(* the ring is correct for every sequence of storage-level pushes, at any head position *)
Theorem window_push_is_lastn : forall v t w hist, WInv w hist -> WInv (w_push v t w) (hist ++ [v]).
Proof. exact WindowFacts.w_push_inv. Qed.
Print Assumptions window_push_is_lastn.

(* the window is (all_)valid exactly when it holds at least min_period elements *)
Theorem window_valid_iff : forall n m h, (0 < n)%nat -> wincreasing MIN_DT h ->
  w_all_valid (win_run n m h) = (m <=? Nat.min (length (spec_whist h [])) n)%nat.
Proof.
  intros n m h P W. destruct (WindowFacts.window_is_lastn_gen n m h P W) as [_ [S M]].
  unfold w_all_valid. rewrite S, M. reflexivity.
Qed.
Print Assumptions window_valid_iff.

(* ... i.e. (for min_period <= period) valid exactly once min_period values have been pushed since the last clear *)
Theorem window_valid_only_once_min_reached : forall n m h, (0 < n)%nat -> (m <= n)%nat -> wincreasing MIN_DT h ->
  (w_all_valid (win_run n m h) = true <-> (m <= length (spec_whist h []))%nat).
Proof. intros n m h P L W. rewrite (window_valid_iff n m h P W), Nat.leb_le. lia. Qed.
Print Assumptions window_valid_only_once_min_reached.

(* [dw_content] is the logical contents of the ring as (time, value) pairs, oldest first.  [spec_dwhist R h []] is
   the reference: per accepted push at time t, drop every pair older than t - R and append (t, v); a clear empties
   it (protocol: one tick per evaluation time, a clear may be followed by one push).  The theorem holds whatever
   head advances, wrap-arounds and growths (0 -> 4 -> 8 ...; relocation in logical order) the history causes. *)
Theorem dwindow_content : forall R m h, wincreasing MIN_DT h ->
  dw_content (dwin_run R m h) = spec_dwhist R h [] /\ dw_minr (dwin_run R m h) = m /\ DWInv (dwin_run R m h).
Proof.
  intros R m h W. unfold dwin_run.
  destruct (DWindowFacts.dwin_run_inv R m h (dwin_empty R m) [] MIN_DT) as (tl & I & _ & M & C & _); [|lia|exact W|auto].
  split; [constructor; cbn; auto|]. repeat split; auto; try constructor. cbn. lia.
Qed.
Print Assumptions dwindow_content.

(* storage level, from any ring state (any head / size / capacity): a push drops exactly the expired prefix and
   appends the new pair, in order *)
Theorem dwindow_push_keeps_unexpired : forall v t w, DWInv w ->
  DWInv (dw_push v t w) /\ dw_content (dw_push v t w) = spec_dpush (dw_range w) t v (dw_content w) /\
  dw_range (dw_push v t w) = dw_range w /\ dw_minr (dw_push v t w) = dw_minr w /\ dw_lmt (dw_push v t w) = dw_lmt w.
Proof. exact DWindowFacts.dw_push_content. Qed.
Print Assumptions dwindow_push_keeps_unexpired.

(* the per-tick delta: removed_value is the LAST pair that expired in this push; if nothing expired the stash
   (and its time) is left alone, so has_removed_value(t) stays false *)
Theorem dwindow_removed_value : forall v t w, DWInv w ->
  let k := count_expired (t - dw_range w) (dw_times w) in
  (k = 0%nat -> dw_ev (dw_push v t w) = dw_ev w /\ dw_evt (dw_push v t w) = dw_evt w) /\
  ((0 < k)%nat -> dw_ev (dw_push v t w) = Some (nth (k - 1) (dw_values w) 0) /\ dw_evt (dw_push v t w) = t /\
                  dw_has_removed t (dw_push v t w) = negb (t =? MIN_DT)).
Proof.
  intros v t w I. destruct (DWindowFacts.dw_push_spec v t w I) as (_ & _ & _ & M). cbn zeta in *. unfold dw_has_removed.
  revert M. generalize (dw_push v t w) as w'. intros w' M.
  destruct (count_expired _ _) as [|d]; injection M as _ _ -> -> _; split; intros Q; try lia; auto.
  cbn [Nat.sub]. rewrite Nat.sub_0_r, Z.eqb_refl. destruct (negb (t =? MIN_DT)); auto.
Qed.
Print Assumptions dwindow_removed_value.

(* valid (all_valid) iff non-empty and the contents span at least the minimum range *)
Theorem dwindow_valid_iff : forall w,
  dw_all_valid w = match map fst (dw_content w) with
                   | [] => false
                   | first :: _ => if dw_minr w <=? 0 then true else dw_minr w <=? last (map fst (dw_content w)) 0 - first
                   end.
Proof. intros w. rewrite DWindowFacts.dw_content_times. reflexivity. Qed.
Print Assumptions dwindow_valid_iff.

(* non-vacuity: a history with an add-then-remove of a new element, a remove-then-add of an existing one, a longer
   alternation, a re-insertion after the deferred erase and growth past the first capacity of 8 *)
Definition ex_h : list (Z * list sop) :=
  [ (1, [SAdd 5; SAdd 7]);
    (2, [SAdd 9; SRemove 9; SRemove 5; SAdd 5; SRemove 7; SAdd 7; SRemove 7]);
    (4, [SAdd 9; SAdd 1; SAdd 2; SAdd 3; SAdd 4; SAdd 6; SAdd 8; SAdd 10; SAdd 11]) ].
Example ex_h_increasing : increasing MIN_DT ex_h.
Proof. cbn. unfold MIN_DT. repeat split; lia. Qed.
Example ex_h_trace :
  map (fun x => (sortz (tss_value (snd x)), sortz (tss_added (snd (fst (fst x))) (snd x)), sortz (tss_removed (snd (fst (fst x))) (snd x)),
                 ks_cap (t_ks (snd x))))
      (tss_trace tss_empty ex_h)
  = [ ([5; 7], [5; 7], [], 8%nat); ([5], [], [7], 8%nat); ([1; 2; 3; 4; 5; 6; 8; 9; 10; 11], [1; 2; 3; 4; 6; 8; 9; 10; 11], [], 16%nat) ].
Proof. vm_compute. reflexivity. Qed.


Definition ex_d : list (Z * list dop) :=
  [ (1, [DSet 5 50; DSet 7 70]);
    (2, [DSet 9 90; DErase 9; DErase 5; DSet 5 51; DErase 7; DCreate 3]);
    (4, [DSet 1 1; DSet 2 2; DSet 3 3; DSet 4 4; DSet 6 6; DSet 8 8; DSet 10 10; DSet 11 11; DClear; DSet 5 55]) ].
Example ex_d_trace :
  dincreasing MIN_DT ex_d /\
  map (fun x => (sortz (tsd_valid_keys (snd x)), sortz (tsd_added (snd (fst (fst x))) (snd x)), sortz (tsd_removed (snd (fst (fst x))) (snd x)),
                 sortz (tsd_modified_keys (snd (fst (fst x))) (snd x)), ks_cap (d_ks (snd x))))
      (tsd_trace tsd_empty ex_d)
  = [ ([5; 7], [5; 7], [], [5; 7], 8%nat); ([5], [], [7], [5], 8%nat); ([5], [], [], [5], 16%nat) ].
Proof. vm_compute. split; [repeat split; reflexivity|reflexivity]. Qed.


Example ex_fixed :
  let h := [ (1, [FSet 0 5]); (2, [FSet 1 6; FSet 1 7]); (4, []); (5, [FSet 2 8; FSet 0 9]) ] in
  fincreasing MIN_DT h /\
  map (fun x => (map (f_value (snd x)) [0; 1; 2]%nat, map (f_delta (snd (fst (fst x))) (snd x)) [0; 1; 2]%nat)) (f_trace (fixed_empty 3) h)
  = [ ([Some 5; None; None], [Some 5; None; None]); ([Some 5; Some 7; None], [None; Some 7; None]);
      ([Some 5; Some 7; None], [None; None; None]); ([Some 9; Some 7; Some 8], [Some 9; None; Some 8]) ].
Proof. vm_compute. split; [repeat split; reflexivity|reflexivity]. Qed.

Example ex_tsd_repaired :
  let b := tsd_cycle 1 [DSet 2 9; DErase 2; DSet 2 3] tsd_empty in
  tsd_modified_keys 1 b = [2] /\ tsd_added 1 b = [2] /\ tsd_get b 2 = Some 3.
Proof. vm_compute. auto. Qed.

Example ex_tsd_child_only_cycle :
  let h := [ (1, [DSet 1 10; DSet 2 20; DSet 3 30]); (2, [DSet 1 11; DSet 2 21; DErase 3]); (4, [DWrite 2 22]); (5, []) ] in
  dincreasing MIN_DT h /\
  map (fun x => (sortz (tsd_modified_keys (snd (fst (fst x))) (snd x)), sortz (tsd_removed (snd (fst (fst x))) (snd x)), tsd_get (snd x) 2))
      (tsd_trace tsd_empty h)
  = [ ([1; 2; 3], [], Some 20); ([1; 2], [3], Some 21); ([2], [], Some 22); ([], [], Some 22) ].
Proof. vm_compute. split; [repeat split; reflexivity|reflexivity]. Qed.

(* range 10: an old element, a cluster, a jump that expires exactly the old one (head advances, the ring of capacity 4
   is full and wrapped), then a push that expires nothing: growth 4 -> 8 while wrapped *)
Example ex_dwindow_growth_while_wrapped :
  let h := [ (1, [WPush 11]); (5, [WPush 12]); (6, [WPush 13]); (7, [WPush 14]); (12, [WPush 15]); (13, [WPush 16]); (30, [WPush 17]) ] in
  wincreasing MIN_DT h /\
  (let w := dwin_run 10 3 (firstn 5 h) in (dw_head w, dw_size w, length (dw_buf w), dw_content w, dw_ev w))
    = (1%nat, 4%nat, 4%nat, [(5, 12); (6, 13); (7, 14); (12, 15)], Some 11) /\
  (let w := dwin_run 10 3 (firstn 6 h) in (dw_head w, dw_size w, length (dw_buf w), dw_content w, dw_all_valid w))
    = (0%nat, 5%nat, 8%nat, [(5, 12); (6, 13); (7, 14); (12, 15); (13, 16)], true) /\
  (let w := dwin_run 10 3 h in (dw_content w, dw_ev w, dw_all_valid w)) = ([(30, 17)], Some 16, false).
Proof. vm_compute. repeat split; reflexivity. Qed.

Example ex_window :
  let h := [ (1, [WPush 10]); (2, [WPush 11]); (3, []); (4, [WPush 12]); (5, [WPush 13; WPush 14]); (7, [WClear; WPush 15]) ] in
  wincreasing MIN_DT h /\ spec_whist h [] = [15] /\
  w_values (win_run 3 2 (firstn 5 h)) = [11; 12; 13] /\ w_all_valid (win_run 3 2 (firstn 1 h)) = false /\
  w_all_valid (win_run 3 2 (firstn 2 h)) = true /\ w_values (win_run 3 2 h) = [15].
Proof. vm_compute. repeat split; auto. Qed.
