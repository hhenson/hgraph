(* Props/C18.v — property C18: the node scheduler wakes the node at every pending
   time and its queries agree.  Statements with short proofs from SchedFacts.v; the second half
   (after the second Require) is the scheduler inside the engine, from EngineFacts.v. *)
Require Import Base Sched SchedFacts.
From Coq Require Import ZifyBool.

(* Every reachable scheduler state is well formed: the event set is strictly
   ordered (so duplicate free) and the tag index is exactly the set of tagged
   pending events. *)
Theorem sched_inv : forall ops, Inv (reach ops).
Proof. intros ops. unfold reach. apply fold_left_ind; [intros s o _; apply inv_sstep|exact inv_empty]. Qed.
Print Assumptions sched_inv.

(* A tag holds at most one pending time, in every reachable state. *)
Theorem tag_holds_one_time : forall ops t w1 w2,
  t <> 0 -> In (w1, t) (events (reach ops)) -> In (w2, t) (events (reach ops)) -> w1 = w2.
Proof. intros ops t w1 w2. apply inv_tag_unique, sched_inv. Qed.
Print Assumptions tag_holds_one_time.

(* Scheduling a tag again replaces the old request: afterwards the pending set
   is the old one without that tag's event, plus the new event; everything else
   is untouched. *)
Theorem reschedule_replaces : forall ops now (started : bool) when tag x,
  ~ (if started then when <= now else when < now) ->
  (In x (events (fst (schedule now started when tag (reach ops)))) <->
   x = (when, tag) \/ (In x (events (reach ops)) /\ (tag = 0 \/ snd x <> tag))).
Proof. intros. apply schedule_pending; auto. apply sched_inv. Qed.
Print Assumptions reschedule_replaces.

(* Requests for the current or a past time made after start (and for a past
   time made during start) leave the state untouched and push nothing. *)
Theorem past_or_now_ignored : forall now (started : bool) when tag s,
  (if started then when <= now else when < now) ->
  schedule now started when tag s = (s, None).
Proof. exact SchedFacts.schedule_ignored. Qed.
Print Assumptions past_or_now_ignored.

(* A request for the current time made during start is honoured. *)
Theorem now_honoured_during_start : forall ops now tag,
  In (now, tag) (events (fst (schedule now false now tag (reach ops)))).
Proof. intros. apply schedule_pending; [apply sched_inv|simpl; lia|auto]. Qed.
Print Assumptions now_honoured_during_start.

(* The scheduler's answers agree with the pending set. *)
Theorem queries_agree : forall ops now t,
  let s := reach ops in
  (is_scheduled s = true <-> exists e, In e (events s)) /\
  (forall e, In e (events s) -> next_scheduled_time s <= fst e) /\
  (is_scheduled s = true -> exists tg, In (next_scheduled_time s, tg) (events s)) /\
  (is_scheduled s = false -> next_scheduled_time s = MIN_DT) /\
  (is_scheduled_now now s = true <-> (exists tg, In (now, tg) (events s)) /\ forall e, In e (events s) -> now <= fst e) /\
  (t <> 0 -> (has_tag t s = true <-> exists w, In (w, t) (events s))) /\
  (t <> 0 -> forall w, In (w, t) (events s) -> tag_time t MIN_DT s = w) /\
  (t <> 0 -> (tag_is_scheduled_now now t s = true <-> In (now, t) (events s))).
Proof. intros. apply queries_agree_inv, sched_inv. Qed.
Print Assumptions queries_agree.

(* advance consumes exactly the due events. *)
Theorem advance_consumes_due_only : forall ops now,
  events (fst (advance now (reach ops))) = filter (fun e => now <? fst e) (events (reach ops)).
Proof. intros. apply SchedFacts.advance_consumes_due_only, sched_inv. Qed.
Print Assumptions advance_consumes_due_only.

(* A time pushed to the graph is the requested one, and it is then the earliest pending time.  (This
   direction only; when exactly a request is pushed is [SchedFacts.schedule_accepted].) *)
Theorem earliest_pushed_when_it_moves_earlier : forall ops now (started : bool) when tag,
  ~ (if started then when <= now else when < now) ->
  let s := reach ops in
  let s' := fst (schedule now started when tag s) in
  match snd (schedule now started when tag s) with
  | Some w => w = when /\ next_scheduled_time s' = when
  | None => True
  end.
Proof.
  intros ops now started when tag P. cbv zeta. rewrite schedule_accepted by auto. simpl.
  destruct (when <? first_time MAX_DT (untag tag (reach ops))) eqn:E; auto. split; auto.
  unfold next_scheduled_time. simpl. rewrite first_time_ins. simpl.
  destruct (untag tag (reach ops)); simpl in *; lia.
Qed.
Print Assumptions earliest_pushed_when_it_moves_earlier.

(* Non-vacuity: a concrete operation sequence with two tags, a replacement, a
   cancellation and an advance reaches a non-trivial state. *)
Example c18_reachable_nontrivial :
  let ops := [SSchedule 1 true 4 1; SSchedule 1 true 6 2; SSchedule 1 true 9 1; SSchedule 1 true 3 0;
              SAdvance 3; SUnschedTag 2] in
  events (reach ops) = [(9, 1)] /\ tags (reach ops) = [(1, 9)].
Proof. vm_compute. split; reflexivity. Qed.

(* The scheduler inside the running engine (coq/Engine.v): the node is woken at
   every time that is still pending.  [boundary] is the scheduling invariant that
   Props/C02.v proves to hold after start and after every cycle of every run.  The three
   statements are those of Props/C02.v (the second also Props/C03.v's) under this property's names. *)
Require Import Engine EngineFacts EngineWitness.

(* never later than requested: the next cycle is no later than any pending time *)
Theorem next_cycle_not_after_pending : forall cfgs g i e,
  boundary cfgs g -> (i < length cfgs)%nat -> c_sched (cfg cfgs i) = true -> In e (pending g i) ->
  g_nst g <= fst e.
Proof. exact EngineFacts.no_pending_skipped. Qed.
Print Assumptions next_cycle_not_after_pending.

(* woken at it: in the cycle whose time is a pending time the node's slot is that time *)
Theorem woken_at_pending_time : forall cfgs g i e,
  boundary cfgs g -> (i < length cfgs)%nat -> c_sched (cfg cfgs i) = true -> In e (pending g i) ->
  fst e = g_nst g -> slot_at i g = g_nst g.
Proof. exact EngineFacts.due_slot_is_now. Qed.
Print Assumptions woken_at_pending_time.

(* never in the past, never left behind: after the cycle at t nothing with time <= t is pending *)
Theorem nothing_due_left_pending : forall cfgs beh g,
  well_ranked cfgs -> boundary cfgs g -> g_err g = 0 -> g_nst g < MAX_DT ->
  g_err (evaluate_graph cfgs beh (g_nst g) g) = 0 ->
  forall i e, (i < length cfgs)%nat -> c_sched (cfg cfgs i) = true ->
  In e (pending (evaluate_graph cfgs beh (g_nst g) g) i) -> g_nst g < fst e.
Proof. intros cfgs beh g WR B _. exact (EngineFacts.due_events_consumed cfgs beh g WR B). Qed.
Print Assumptions nothing_due_left_pending.

(* The converse direction is FALSE of the faithful model (and of the code): a node is
   also woken at a time it has cancelled or replaced, because the graph slot is only
   ever moved earlier.  Witness: node 0 schedules tag a at +3 then re-schedules tag a at
   +6 in one evaluation; its user code runs at t=4 with nothing due (line 12 0 4 1 0 7:
   run 1 at time 4, is_scheduled_now = 0, next pending = 7).  Recorded as a known
   finding (known_findings.json, DESIGN.md 8.2). *)
Theorem woken_only_at_pending_refuted :
  exists case : wire, In [12; 0; 4; 1; 0; 7] (run_core case).
Proof. exact Engine_witness.abandoned_wakeup. Qed.
Print Assumptions woken_only_at_pending_refuted.
