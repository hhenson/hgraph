(* Props/C17.v — property C17: the real-time loop never runs early, never drops a
   wake-up, always stops.  The statements, proved from the lemmas of RTLoopFacts.v.

   The object: [run c w0 ls s] — the label list [ls] is a run of the labelled
   transition system of RTLoop.v (run_storage + advance_realtime, request_stop,
   mark_push_update_pending, NodeScheduler::schedule with on_wall_clock) from the
   state after run_storage's prologue to [s].  The labels are chosen by the
   adversary: every clock reading (non-decreasing), where each push / stop
   critical section and each notify_all lands, every time-out of a wait slice,
   every request of the (abstract) graph.  [cycles s] is the ghost record of the
   results of advance_realtime, newest first: time returned, clock reading used,
   target, previous evaluation time.  [wfc c] is validate_times. *)
Require Import Base RTLoop RTLoopFacts.
From Coq Require Import ZifyBool.

(* The times of the cycles of a run ([eval_times ls]: the times of its LEvalBegin labels, in order)
   strictly increase, and lie in [start_time, end_time). *)
Theorem rt_cycle_times_strict : forall c w0 ls s, wfc c -> run c w0 ls s ->
  decreasing (rev (eval_times ls)) /\ (forall t, In t (eval_times ls) -> c_start c <= t /\ t < c_end c).
Proof.
  intros c w0 ls s Hw Hr.
  destruct (K_exec c ls _ s [] Hw (Inv_init c w0 Hw)) as (KB & KE); [split; [intros t []|reflexivity] | exact Hr |].
  rewrite app_nil_r in *. destruct (run_log _ _ _ _ Hw Hr) as (_ & HC & _).
  assert (HL : exists L, rev (eval_times ls) = map ct L /\ chain c L).
  { assert (chain c (tl (cycles s))) by (destruct (cycles s); simpl in *; tauto).
    destruct (ph s); try destruct KE as [KE|KE]; eauto. }
  destruct HL as (L & EL & HL). destruct (chain_decreasing c L HL) as (Hd & HF). rewrite EL. split; [auto|].
  intros t Hin. apply in_rev in Hin. split; [|auto]. rewrite EL in Hin. apply in_map_iff in Hin.
  destruct Hin as (a & <- & Ha). rewrite Forall_forall in HF. auto.
Qed.
Print Assumptions rt_cycle_times_strict.

(* The times advance_realtime returns strictly increase, from start_time on.  Every
   evaluated cycle is evaluated at the latest of them ([rt_cycle_is_latest_advance]), so cycle
   times strictly increase. *)
Theorem rt_times_strict : forall c w0 ls s, wfc c -> run c w0 ls s ->
  decreasing (map ct (cycles s)) /\ Forall (fun a => c_start c <= ct a) (cycles s).
Proof.
  intros c w0 ls s Hw Hr. destruct (run_log _ _ _ _ Hw Hr) as (_ & Hc & _). exact (chain_decreasing c _ Hc).
Qed.
Print Assumptions rt_times_strict.

Theorem rt_cycle_is_latest_advance : forall c w0 ls s t s', wfc c -> run c w0 ls s ->
  gstep c s (LEvalBegin t) = Some s' ->
  exists a rest, cycles s = a :: rest /\ ct a = t /\ ph s' = PEvalPre t /\ cycles s' = cycles s.
Proof. intros c w0 ls s t s' Hw Hr. exact (evalbegin_latest c s t s' (run_Inv _ _ _ _ Hw Hr)). Qed.
Print Assumptions rt_cycle_is_latest_advance.

(* evaluation_time = min(target, max(wall, previous + MIN_TD)) for every advance that was
   evaluated as a cycle (all but the newest), and for the newest too unless it is the drain cut;
   target = min(next_scheduled, end) <= end; and the wait is left before the target only with a
   push or a stop flagged. *)
Theorem eval_time_formula : forall c w0 ls s, wfc c -> run c w0 ls s ->
  Forall (fun a => ct a = Z.min (ctgt a) (Z.max (cw a) (cprev a + MIN_TD))) (tl (cycles s)) /\
  (cut s = false -> Forall (fun a => ct a = Z.min (ctgt a) (Z.max (cw a) (cprev a + MIN_TD))) (cycles s)) /\
  Forall (fun a => ctgt a <= c_end c /\ (cw a < ctgt a -> cwk a = true)) (cycles s).
Proof.
  intros c w0 ls s Hw Hr. destruct (run_log _ _ _ _ Hw Hr) as (_ & _ & HW & HX & HXn & _).
  exact (conj HX (conj HXn HW)).
Qed.
Print Assumptions eval_time_formula.

(* A cycle's time is never past its target, hence never past a pending wake-up time or the end;
   it is never ahead of the wall clock reading used unless it is the smallest step after the
   previous cycle: a cycle more than MIN_TD after its predecessor has cw >= ct (the wall clock had
   reached the scheduled time); a cycle with the wall clock at or past the target is at exactly
   the target. *)
Theorem rt_never_early : forall c w0 ls s a, wfc c -> run c w0 ls s ->
  In a (tl (cycles s)) \/ (cut s = false /\ In a (cycles s)) ->
  ct a <= ctgt a /\ ct a <= Z.max (cw a) (cprev a + MIN_TD) /\
  (cprev a + MIN_TD < ct a -> ct a <= cw a) /\
  (ctgt a <= cw a -> cprev a < ctgt a -> ct a = ctgt a).
Proof.
  intros c w0 ls s a Hw Hr Ha. destruct (run_log _ _ _ _ Hw Hr) as (_ & _ & _ & HX & HXn & _).
  assert (He : by_rule a) by (destruct Ha as [Ha|(Hc & Ha)]; [|specialize (HXn Hc)]; eapply Forall_forall; eauto).
  unfold by_rule, eval_time, MIN_TD in *. lia.
Qed.
Print Assumptions rt_never_early.

(* In every reachable state outside the drain cut, no pending wake-up time has been passed... *)
Theorem rt_never_skips : forall c w0 ls s p, wfc c -> run c w0 ls s -> cut s = false ->
  In p (pend s) -> ev s <= p.
Proof. intros c w0 ls s p Hw Hr Hc. exact (Inv_ev_le_pend c s (run_Inv _ _ _ _ Hw Hr) Hc p). Qed.
Print Assumptions rt_never_skips.

(* ... and a wake-up time leaves the pending set only by a cycle at exactly that time. *)
Theorem rt_evaluated_at_exactly_its_time : forall c w0 ls s l s' p, wfc c -> run c w0 ls s ->
  gstep c s l = Some s' -> In p (pend s) -> ~ In p (pend s') ->
  l = LEvalEnd /\ ev s = p /\ (ph s = PEval p \/ ph s = PEvalPre p).
Proof. intros c w0 ls s l s' p Hw Hr. exact (gstep_pend_removed c s l s' p (run_Inv _ _ _ _ Hw Hr)). Qed.
Print Assumptions rt_evaluated_at_exactly_its_time.

(* When the run has returned without a stop request and without the drain cut, nothing due
   before end_time is left pending (late delivery happens, dropping does not)... *)
Theorem rt_no_drop : forall c w0 ls s p, wfc c -> run c w0 ls s ->
  ph s = PDone -> stop s = false -> cut s = false -> In p (pend s) -> c_end c <= p.
Proof. intros c w0 ls s p Hw Hr. exact (Inv_no_drop c s p (run_Inv _ _ _ _ Hw Hr)). Qed.
Print Assumptions rt_no_drop.

(* ... so every wake-up time that was pending at some point of such a run and is before end_time
   was evaluated, in a cycle at exactly that time. *)
Theorem rt_every_due_wakeup_evaluated : forall c w0 ls1 s1 ls2 s2 p, wfc c ->
  run c w0 ls1 s1 -> exec c s1 ls2 = Some s2 ->
  In p (pend s1) -> p < c_end c -> ph s2 = PDone -> stop s2 = false -> cut s2 = false ->
  exists la sm lb, ls2 = la ++ LEvalEnd :: lb /\ exec c s1 la = Some sm /\ ev sm = p /\
                   (ph sm = PEval p \/ ph sm = PEvalPre p).
Proof.
  intros c w0 ls1 s1 ls2 s2 p Hw Hr1 H2 Hin Hlt Hd Hs Hc.
  pose proof (run_Inv _ _ _ _ Hw Hr1) as HI1. pose proof (Inv_exec _ _ _ _ Hw HI1 H2) as HI2.
  apply (exec_pend_removed c ls2 s1 s2 p Hw HI1 H2 Hin).
  intros Hin2. pose proof (Inv_no_drop _ _ _ HI2 Hd Hs Hc Hin2). lia.
Qed.
Print Assumptions rt_every_due_wakeup_evaluated.

(* The exception: the drain cut is taken only with the wall clock at or past end_time, when the
   rule would advance by no more than the smallest step, after MAX_DRAIN = 1024 consecutive cycles
   that each advanced by exactly the smallest step. *)
Theorem drain_cut_only_then : forall c w0 ls s, wfc c -> run c w0 ls s -> cut s = true ->
  exists a rest, cycles s = a :: rest /\ ct a = c_end c /\ c_end c <= cw a /\
    Z.min (ctgt a) (Z.max (cw a) (cprev a + MIN_TD)) <= cprev a + MIN_TD /\
    (1024 <= length rest)%nat /\ Forall (fun b => ct b = cprev b + MIN_TD) (firstn 1024 rest).
Proof.
  intros c w0 ls s Hw Hr Hc.
  (* 1024%nat is a unary numeral: abstracted, so that the steps below do not work under it *)
  assert (Hn : Z.of_nat 1024 <= MAX_DRAIN) by (unfold MAX_DRAIN; lia). revert Hn. generalize 1024%nat. intros n Hn.
  destruct (run_log _ _ _ _ Hw Hr) as (_ & _ & _ & _ & _ & HXc).
  destruct (HXc Hc) as (a & rest & E & A1 & A2 & A3 & _ & R). destruct (R n Hn) as (R1 & R2).
  exists a, rest. auto 7.
Qed.
Print Assumptions drain_cut_only_then.

(* NodeScheduler::schedule(when, tag, on_wall_clock = true) never ignores the request; an alarm
   that is already due (when <= max(now, wall)) is entered for max(now + MIN_TD, wall): after the
   current cycle, at the next evaluatable time; a future alarm is entered at its own time. *)
Theorem already_due_alarm_next_cycle : forall now w when,
  (exists e, sched_abs true now w when true = Some e) /\
  (when <= Z.max now w -> sched_abs true now w when true = Some (Z.max (now + MIN_TD) w)) /\
  (Z.max now w < when -> sched_abs true now w when true = Some when).
Proof.
  intros now w when. unfold sched_abs, MIN_TD. destruct (when <=? Z.max now w) eqn:E.
  - split; [eauto|]. split; [intros _; f_equal; lia | lia].
  - split; [eauto|]. split; [lia | auto].
Qed.
Print Assumptions already_due_alarm_next_cycle.

(* A request entered during the cycle at t is pending afterwards under a time after t (so it is
   subject to the never-skipped / never-dropped theorems above). *)
Theorem request_enters_pending : forall c w0 ls s k a w1 w2 e s' t, run c w0 ls s ->
  gstep c s (LReq k a w1 w2 e) = Some s' -> ph s = PEval t -> e <> 0 ->
  sched_eff true (ev s) k a w1 w2 = Some e /\ ev s < e /\ In e (pend s') /\ ev s' = ev s.
Proof.
  intros c w0 ls s k a w1 w2 e s' t _ H Hq He. apply gstep_trans in H. inversion H; subst.
  rewrite Hq in Hp. injection Hp as <-. destruct Hr as [(Hs & ->)|(_ & He0 & _)]; [|tauto].
  simpl. rewrite pend_add_in. destruct (sched_eff_ge _ _ _ _ _ _ _ Hs). auto.
Qed.
Print Assumptions request_enters_pending.

(* Once a stop request has landed it stays; the loop body is not entered again, no wait is begun,
   no cycle is begun (a cycle in progress completes). *)
Theorem stop_ends_after_current : forall c w0 ls s ls' s', run c w0 ls s -> stop s = true ->
  exec c s ls' = Some s' ->
  stop s' = true /\ ~ In LTop ls' /\ ~ In LWaitBefore ls' /\ (forall t, ~ In (LEvalBegin t) ls').
Proof. intros c w0 ls s ls' s' _ Hs H. destruct (stop_exec _ _ _ _ H Hs) as (A & B & C & D & _). auto. Qed.
Print Assumptions stop_ends_after_current.

(* The start phase is covered: run_storage clears the flag BEFORE graph.start, so a stop that lands while the
   nodes are starting (from a start hook or from another thread) stays; the run then makes no advance and no
   cycle at all: when start returns the first loop test leaves the loop. *)
Theorem stop_during_start_zero_cycles : forall c w0 ls s ls' s', wfc c -> run c w0 ls s ->
  ph s = PStart -> stop s = true -> exec c s ls' = Some s' ->
  stop s' = true /\ cycles s' = [] /\ (ph s' = PStart \/ ph s' = PTop \/ ph s' = PDone) /\
  ~ In LTop ls' /\ (forall t, ~ In (LEvalBegin t) ls') /\ (forall t, ~ In (LAdv t) ls').
Proof.
  intros c w0 ls s ls' s' Hw Hr Hp Hst H.
  assert (HS : stopped_before_loop s).
  { destruct (run_Inv _ _ _ _ Hw Hr) as (_ & _ & _ & _ & HP). unfold phase_inv in HP. rewrite Hp in HP.
    unfold stopped_before_loop. auto. }
  destruct (exec_inv c _ _ (stopped_before_loop_step c) _ _ _ HS H) as ((A & B & C) & D).
  destruct (stop_exec _ _ _ _ H Hst) as (_ & N1 & _ & N3 & _). repeat split; auto.
  intros t Hin. exact (D _ Hin t eq_refl).
Qed.
Print Assumptions stop_during_start_zero_cycles.

(* From any point of the loop's own code the loop thread is out after at most togo <= 4 of its own
   steps (leave the wait, re-read the clock, return from advance_realtime, break), whatever the
   other threads do in between. *)
Theorem stop_exits_within_four_steps : forall c w0 ls s ls' s', run c w0 ls s -> stop s = true ->
  in_loop_code (ph s) = true -> exec c s ls' = Some s' ->
  loop_len ls' <= togo (ph s) /\ togo (ph s) <= 4 /\ (loop_len ls' = togo (ph s) -> ph s' = PDone).
Proof.
  intros c w0 ls s ls' s' _ Hs Hin H.
  destruct (stop_exec _ _ _ _ H Hs) as (_ & _ & _ & _ & Hgo). destruct (Hgo (or_introl Hin)) as (Hl & Ht).
  pose proof (togo_bounds (ph s)). pose proof (togo_bounds (ph s')).
  repeat split; try lia. intros Heq. apply togo_0; [auto|lia].
Qed.
Print Assumptions stop_exits_within_four_steps.

(* Reaching the end: when advance_realtime returns end_time or later, the loop's next step is the exit. *)
Theorem end_time_ends_run : forall c s l s' prev t,
  gstep c s l = Some s' -> ph s = PAdv prev t -> c_end c <= t -> loop_label l = true ->
  l = LExit /\ ph s' = PDone.
Proof.
  intros c s l s' prev t H Hq Ht Hl. apply gstep_trans in H.
  destruct H; try rewrite Hq in *; try discriminate; injection Hp as <- <-; [auto|lia].
Qed.
Print Assumptions end_time_ends_run.

(* No reachable state has the loop blocked in wait_for with a push or a stop flagged unless a
   notify_all is still owed or has already reached the waiter (flag set under the mutex before the
   notify; predicate tested under the mutex before blocking). *)
Theorem no_missed_push_or_stop_while_waiting : forall c w0 ls s tgt sg, run c w0 ls s ->
  ph s = PWait tgt sg -> wake_requested s = true -> 0 < notif s \/ sg = true.
Proof.
  intros c w0 ls s tgt sg Hr Hp Hf. destruct (run_wait_ok _ _ _ _ Hr) as (_ & H). rewrite Hp in H. auto.
Qed.
Print Assumptions no_missed_push_or_stop_while_waiting.

(* The wait is entered only with both flags clear. *)
Theorem wait_only_without_flags : forall c s s', gstep c s LWaitBefore = Some s' -> wake_requested s = false.
Proof. intros c s s' H. apply gstep_trans in H. inversion H. assumption. Qed.
Print Assumptions wait_only_without_flags.

(* A flagged push stays flagged, and the loop cannot go (back) to wait, until a cycle evaluates the
   push sources; and a cycle begun with the push flagged does evaluate them. *)
Theorem push_not_missed : forall c ls s s', exec c s ls = Some s' -> push s = true ->
  ~ In LPushNode ls -> push s' = true /\ ~ In LWaitBefore ls.
Proof.
  induction ls as [|l r IH]; simpl; intros s s' H Hpu Hn; [injection H as <-; auto|].
  destruct (gstep c s l) as [s1|] eqn:E; [|discriminate].
  destruct (gstep_push _ _ _ _ E Hpu) as (Hp1 & Hw); [tauto|].
  destruct (IH _ _ H Hp1) as (Hp' & Hw'); [tauto|]. split; auto. intros [Hx|Hx]; [congruence|tauto].
Qed.
Print Assumptions push_not_missed.

Theorem push_delivered_in_next_cycle : forall c s l s' t,
  gstep c s l = Some s' -> ph s = PEvalPre t -> push s = true -> loop_label l = true ->
  l = LPushNode /\ push s' = false.
Proof.
  intros c s l s' t H Hq Hpu Hl. apply gstep_trans in H.
  destruct H; try rewrite Hq in *; try discriminate; try congruence. auto.
Qed.
Print Assumptions push_delivered_in_next_cycle.

(* [exec_ix], the transition function with the index of the first label that is not enabled, accepts
   exactly the runs of the model.  The correspondence check on hook-mode histories ([run_rtloop]) does not call
   it: it calls [accept_ix], which also reads the reports of graph.next_scheduled_time(); for that acceptor
   the next theorem gives one direction, and no lemma relates the two functions. *)
Theorem acceptor_sound : forall c ls s s',
  exec_ix c s ls 0 = (-1, s') <-> exec c s ls = Some s'.
Proof. intros c ls s s'. apply exec_ix_exec. lia. Qed.
Print Assumptions acceptor_sound.

(* With reports of graph.next_scheduled_time() in the history ([ONext]): the labels of an accepted history are
   a run of the model.  That every reported value equals the minimum of the pending set (-1: nothing pending) is
   what [accept_ix] tests at each report, by definition; the theorem does not state it. *)
Theorem acceptor_with_next_sound : forall c os s i s',
  fst (accept_ix c s os i) = -1 -> 0 <= i -> snd (accept_ix c s os i) = s' -> exec c s (labels_of os) = Some s'.
Proof.
  induction os as [|o r IH]; simpl; intros s i s' H Hi Hs; [congruence|].
  destruct o as [l|nx]; simpl.
  - destruct (gstep c s l) as [s1|] eqn:E; [apply (IH s1 (i + 1)); auto; lia | simpl in H; lia].
  - destruct (nx =? next_obs s); [apply (IH s (i + 1)); auto; lia | simpl in H; lia].
Qed.
Print Assumptions acceptor_with_next_sound.

(* Mirror of the root scan of evaluate_impl (graph.cpp): after a cycle at t the cached next_scheduled_time is at
   or below EVERY future slot — of the push-source prefix as of the ordinary nodes, whether or not the node was
   evaluated in the cycle (a push evaluates every prefix node, also one that holds a future timer). *)
Theorem root_scan_next_le_future_slots : forall t pushp beh prefix rest slots' next',
  root_scan t pushp beh prefix rest = (slots', next') ->
  forall s, In s slots' -> t < s -> s < MAX_DT -> next' <= s.
Proof.
  intros t pushp beh prefix rest slots' next' H. unfold root_scan in H.
  destruct (scan_push t pushp beh 0 prefix MAX_DT) as [p' n1] eqn:E1.
  destruct (scan_norm t beh (length prefix) rest n1) as [r' n2] eqn:E2. inversion H; subst.
  destruct (scan_push_ok _ _ _ _ _ _ _ _ E1) as (_ & P). destruct (scan_norm_ok _ _ _ _ _ _ _ E2) as (N & R).
  intros s Hin Hs Hm. apply in_app_or in Hin. destruct Hin as [Hin|Hin]; [specialize (P s Hin Hs Hm); lia | apply R; auto].
Qed.
Print Assumptions root_scan_next_le_future_slots.

(* What the free-running acceptor checks of one cycle holds of every cycle of the model whatever
   the unobserved reading w was (wlast: an earlier reading, wobs: a later one). *)
Theorem free_running_cycle_check_sound : forall (first : bool) start endt prev wlast tgt w wobs t,
  t = eval_time tgt w prev -> wlast <= w -> w <= wobs -> t < endt ->
  (if first then start <= tgt /\ prev = start else prev < tgt) ->
  fr_cycle_ok first start endt prev wlast tgt t wobs = true.
Proof.
  intros first start endt prev wlast tgt w wobs t -> H1 H2 H3 H4.
  unfold fr_cycle_ok, eval_time, MIN_TD in *. destruct first; lia.
Qed.
Print Assumptions free_running_cycle_check_sound.

(* Non-vacuity: concrete runs. *)
Definition ex_cfg : cfg := mkCfg 100 200.

(* a timer at 130 set during start; a wait with two slice time-outs; a push landing inside the wait
   (flag, then notify), a wake-up cycle stamped by the clock (112), the timer cycle at exactly 130
   with the wall clock late (141), an already-due wall-clock alarm entered for max(130+1, 145) = 145,
   delivered late at exactly 145, a stop landing in the last wait, the exit. *)
Definition ex_run : list label :=
  [LReq 1 30 0 0 130; LStarted;
   LTop; LRead 90; LWaitBefore; LWaitAfter; LRead 95; LWaitBefore; XPushSet; XPushNotify; LWaitAfter; LRead 112;
   LAdv 112; LEvalBegin 112; LPushNode; LEvalEnd;
   LTop; LRead 113; LWaitBefore; LWaitAfter; LRead 141; LAdv 130; LEvalBegin 130; LNode;
   LReq 2 120 145 0 145; LEvalEnd;
   LTop; LRead 150; LAdv 145; LEvalBegin 145; LNode; LEvalEnd;
   LTop; LRead 151; LWaitBefore; XStopSet; LWaitAfter; XStopNotify; LRead 152; LAdv 152; LExit].

Example ex_run_is_a_run :
  match exec ex_cfg (init ex_cfg 80) ex_run with
  | Some s => ph s = PDone /\ map ct (cycles s) = [152; 145; 130; 112] /\ map cw (cycles s) = [152; 150; 141; 112] /\
              pend s = [] /\ stop s = true /\ cut s = false
  | None => False
  end.
Proof. vm_compute. repeat split; reflexivity. Qed.

Example ex_cycle_times : eval_times ex_run = [112; 130; 145].
Proof. vm_compute. reflexivity. Qed.

(* a stop landing during the start phase (between two start hooks): the run returns without a cycle *)
Example ex_stop_during_start :
  match exec ex_cfg (init ex_cfg 80) [LNode; LReq 1 30 0 0 130; XStopSet; XStopNotify] with
  | Some s => ph s = PStart /\ stop s = true /\
      match exec ex_cfg s [LNode; LStarted; LExit] with
      | Some s' => ph s' = PDone /\ cycles s' = [] /\ pend s' = [130]
      | None => False
      end /\ exec ex_cfg s [LNode; LStarted; LTop] = None
  | None => False
  end.
Proof. vm_compute. repeat split; reflexivity. Qed.

(* the scan on a push cycle at 10: prefix = [a push source without timer; a push-kind heartbeat holding 50],
   ordinary nodes [due now, re-arming at 70; idle at 30]: the heartbeat is evaluated (push pending), asks for nothing,
   and its 50 is still folded in; the result is min(50, 70, 30) = 30 *)
Example ex_root_scan :
  root_scan 10 true (fun i => if Nat.eqb i 2 then [70] else []) [0; 50] [10; 30] = ([0; 50; 70; 30], 30) /\
  root_scan 10 true (fun i => []) [0; 50] [5] = ([0; 50; 5], 50).
Proof. vm_compute. split; reflexivity. Qed.

Example ex_wfc : wfc ex_cfg.
Proof. unfold wfc, ex_cfg, MAX_DT; simpl; lia. Qed.

(* the hypothesis of no_missed_push_or_stop_while_waiting is met: blocked, push flagged, notify owed *)
Example ex_waiting_with_flag :
  match exec ex_cfg (init ex_cfg 80) (firstn 9 ex_run) with
  | Some s => ph s = PWait 130 false /\ wake_requested s = true /\ notif s = 1
  | None => False
  end.
Proof. vm_compute. repeat split; reflexivity. Qed.

(* the drain cut is reachable: wall clock (5000) past end (2000), a graph re-scheduling itself every
   smallest step from 10 on: cut after the cycles 11..1034 *)
Fixpoint drain_cycles (n : nat) (t : Z) : list label :=
  match n with
  | O => []
  | S k => [LTop; LRead 5000; LAdv t; LEvalBegin t; LNode; LReq 1 1 0 0 (t + 1); LEvalEnd] ++ drain_cycles k (t + 1)
  end.
Definition drain_cfg : cfg := mkCfg 10 2000.
Definition drain_run : list label :=
  [LReq 1 0 0 0 10; LStarted] ++ drain_cycles 1025 10 ++ [LTop; LRead 5000; LAdv 2000; LExit].

Example ex_drain_cut :
  match exec drain_cfg (init drain_cfg 5000) drain_run with
  | Some s => ph s = PDone /\ cut s = true /\ stop s = false /\ pend s = [1035] /\ length (cycles s) = 1026%nat
  | None => False
  end.
Proof. vm_compute. repeat split; reflexivity. Qed.

(* a run that ends by reaching end_time with nothing dropped (hypotheses of rt_no_drop) *)
Example ex_no_drop_hyps :
  match exec ex_cfg (init ex_cfg 80)
             [LReq 1 30 0 0 130; LStarted; LTop; LRead 300; LAdv 130; LEvalBegin 130; LNode; LReq 1 90 0 0 220; LEvalEnd;
              LTop; LRead 301; LAdv 200; LExit] with
  | Some s => ph s = PDone /\ stop s = false /\ cut s = false /\ pend s = [220]
  | None => False
  end.
Proof. vm_compute. repeat split; reflexivity. Qed.
