(* EngineWitness.v — the concrete witness (by computation) for the statements that are false of the
   faithful model: a wake-up the node has abandoned.  It is replayed on the implementation by the checks. *)
Require Import Base Sched Engine.

Module Engine_witness.
Definition abandoned_case : wire :=
  [[1; 1; 20]; [2; 0; 1; 1; 1; 0; 0];
   [3; 0; -2; 6; 5; 0]; [3; 0; 0; 1; 3; 1]; [3; 0; 0; 1; 6; 1]].

Lemma abandoned_wakeup : exists case : wire, In [12; 0; 4; 1; 0; 7] (run_core case).
Proof. exists abandoned_case. vm_compute. tauto. Qed.
End Engine_witness.
