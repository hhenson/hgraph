(* PushQInv2.v — preservation of the invariant (PushQInv.v) by the evaluation thread's steps and by
   the global labels; the invariant holds in every reachable state. *)
Require Import Base PushQ PushQInv.
Local Open Scope nat_scope.

Lemma cnt_waiting_le_inside l : cnt is_waiting l <= cnt inside l.
Proof. apply cnt_le. intros x; destruct x; simpl; congruence. Qed.
Lemma cnt_woken_le_inside l : cnt is_woken l <= cnt inside l.
Proof. apply cnt_le. intros x; destruct x; simpl; congruence. Qed.

Definition same_or_woken (a b : prod) : Prop :=
  b = a \/ (pc a = PWaiting /\ b = set_pc PWoken a).

(* what a notification on capacity_available (notify_one, notify_all) does to the producers *)
Definition woke : list prod -> list prod -> Prop := Forall2 same_or_woken.

Lemma woke_refl l : woke l l.
Proof. induction l; constructor; [left; reflexivity|assumption]. Qed.

Lemma woke_length l l' : woke l l' -> length l' = length l.
Proof. induction 1; simpl; congruence. Qed.

Lemma woke_nth l l' p : woke l l' -> same_or_woken (nth p l idle_prod) (nth p l' idle_prod).
Proof.
  intros W. revert p. induction W as [|a b l l' H W IH]; intros [|p]; simpl; try (left; reflexivity); [exact H|apply IH].
Qed.

Lemma woke_cnt f l l' : f PWaiting = f PWoken -> woke l l' -> cnt f l' = cnt f l.
Proof.
  intros Hf W. induction W as [|a b l l' [->|[E ->]] W IH]; simpl; [reflexivity|congruence|].
  rewrite E, Hf, IH. reflexivity.
Qed.

Lemma woke_sum l l' : woke l l' -> cnt is_waiting l' + cnt is_woken l' = cnt is_waiting l + cnt is_woken l.
Proof.
  induction 1 as [|a b l l' [->|[E ->]] W IH]; simpl; [reflexivity|lia|]. rewrite E. simpl. lia.
Qed.

Lemma woke_all l : woke l (map wake l).
Proof.
  induction l as [|x r IH]; constructor; [|exact IH].
  unfold wake. destruct (pc x) eqn:E; simpl; try (left; reflexivity). right. split; [exact E|reflexivity].
Qed.

Lemma cnt_waiting_map_wake l : cnt is_waiting (map wake l) = 0.
Proof.
  induction l as [|x r IH]; simpl; [reflexivity|]. rewrite IH.
  unfold wake. destruct (pc x) eqn:E; simpl; rewrite ?E; reflexivity.
Qed.

Lemma woke_first l : woke l (wake_first l).
Proof.
  induction l as [|x r IH]; simpl; [constructor|].
  destruct (pc x) eqn:E; simpl; constructor; try exact IH; try (left; reflexivity).
  - right. split; [exact E|reflexivity].
  - apply woke_refl.
Qed.

Lemma cnt_waiting_wake_first l : cnt is_waiting (wake_first l) = pred (cnt is_waiting l).
Proof.
  induction l as [|x r IH]; simpl; [reflexivity|].
  destruct (pc x) eqn:E; simpl; rewrite ?E; simpl; try exact IH. reflexivity.
Qed.

Lemma woke_one l w : pc (nth w l idle_prod) = PWaiting -> woke l (update w (set_pc PWoken) l).
Proof.
  revert w; induction l as [|x r IH]; intros [|w] E; simpl in *; try discriminate; constructor.
  - right. split; [exact E|reflexivity].
  - apply woke_refl.
  - left; reflexivity.
  - apply IH, E.
Qed.

Lemma notify_one_spec w s : exists l', notify_one w s = set_prods l' s /\ woke (prods s) l' /\
  cnt is_waiting l' = pred (cnt is_waiting (prods s)).
Proof.
  unfold notify_one. destruct (is_waiting (pc (get_prod w s))) eqn:E.
  - unfold goto, upd_prod. exists (update w (set_pc PWoken) (prods s)). split; [reflexivity|].
    unfold get_prod in E. destruct (pc (nth w (prods s) idle_prod)) eqn:E2; try discriminate.
    split; [apply woke_one, E2|].
    destruct (Nat.lt_ge_cases w (length (prods s))) as [H|H]; [|rewrite nth_overflow in E2 by exact H; discriminate].
    pose proof (cnt_update is_waiting w (set_pc PWoken) (prods s) idle_prod H) as U. rewrite E2 in U. cbn in U. lia.
  - exists (wake_first (prods s)). split; [reflexivity|]. split; [apply woke_first|apply cnt_waiting_wake_first].
Qed.

Lemma calls_woke l l' acc : Calls l acc -> woke l l' -> Calls l' acc.
Proof.
  intros K W. apply (calls_later l); [exact K|exact (woke_length _ _ W)|]. intros p.
  destruct (woke_nth _ _ p W) as [->|[Ew ->]]; [apply later_refl|].
  apply later_same_call; cbn [cur nsent pc set_pc]; try reflexivity; [congruence|rewrite Ew; reflexivity|discriminate].
Qed.

(* For the evaluation thread's own steps and the global labels.  Only the clause a goal needs is put in the
   context (beside c_cfg, c_acc, c_act): with all ten there, [intuition] and [lia] spend their time splitting the
   disjunctions of clauses they do not need. *)
Ltac counts C :=
  pose proof (c_cfg C) as Cfg; pose proof (c_acc C) as Acc; pose proof (c_act C) as Act;
  split;
  [ | |pose proof (c_cap C) as Cap|pose proof (c_wake C) as Wake|pose proof (c_note C) as Note|
  |pose proof (c_det C) as Det|pose proof (c_stp C) as Stp|pose proof (c_cvs C) as Cvs|pose proof (c_cva C) as Cva];
  clear C; cbn in *;
  try match goal with Ec : cons _ = _ |- _ => rewrite Ec in *; cbn in * end;
  try solve [intuition congruence]; try solve [intros; lia].

(* the notifications on capacity_available: the pop's notify_one (Queue) or notify_all (Burst), the stop's notify_all *)
Lemma inv_woke s l' c' : Inv s -> woke (prods s) l' ->
  (exists more, cons s = CPopped more /\ c' = CRearm more) \/ (cons s = CStopB /\ c' = CStopC) ->
  cnt is_waiting l' = 0 \/ (is_popped (cons s) = true /\ pol s = Queue /\ cnt is_waiting l' = pred (cnt is_waiting (prods s))) ->
  Inv (set_cons c' (set_prods l' s)).
Proof.
  intros [C L T K] Wk Hc Hw. split.
  - pose proof (woke_cnt is_mark _ _ eq_refl Wk) as Wm. pose proof (woke_cnt is_notify _ _ eq_refl Wk) as Wn.
    pose proof (woke_cnt inside _ _ eq_refl Wk) as Wi. pose proof (woke_sum _ _ Wk) as Ws.
    destruct Hc as [(more & Ec & ->)|(Ec & ->)], Hw as [Hw|(Hq & Hp & Hw)]; counts C.
    (* one waiter fewer, one woken sender more: the slot freed by the pop is handed over *)
    intros Hw' Ha. destruct (Cva ltac:(lia) Ha) as [C1 [[C2 _]|C2]]; [congruence|].
    split; [exact C1|right; clear - C2 Ws Hw Hw'; lia].
  - destruct Hc as [(more & Ec & ->)|(Ec & ->)]; cbn; exact L.
  - destruct Hc as [(more & Ec & ->)|(Ec & ->)]; rewrite Ec in T; exact T.
  - exact (calls_woke _ _ _ K Wk).
Qed.

Lemma inv_pop s : Inv s -> cons s = CReset true -> Inv (pop s).
Proof.
  intros [C L T K] Ec. unfold pop.
  pose proof (c_acc C) as A. rewrite Ec in A, T. cbn in A. rewrite A in L.
  destruct (vals s) as [|v r] eqn:Ev.
  { (* nothing to pop: the thread leaves [CReset] all the same, and the deliveries need no longer be before [now] *)
    destruct (pol s) eqn:Epol; (split; [counts C|cbn; rewrite A, Ev; exact L|cbn; rewrite Epol; exact (times_stale _ _ _ _ T)|exact K]). }
  destruct (pol s) eqn:Epol; (split; [|cbn [accepting accepted delivered vals set_cons set_delivered set_vals]; rewrite A, flatd_snoc, L, <- ?app_assoc, ?app_nil_r; reflexivity| |exact K]);
    try (cbn; rewrite Epol; apply times_snoc; [exact T|discriminate|try reflexivity; discriminate]).
  - destruct r; counts C; rewrite Ev in *; cbn [length] in *.
    1,3: intros Hw _; destruct (Cva Hw A) as [C1 [[_ C2]|C2]]; [discriminate|split; [exact C1|right; clear - C2; lia]].
    intros Hc. specialize (Cap Hc). clear - Cap. lia.
  - counts C.
  - counts C.
Qed.

Lemma inv_step s l s' : Inv s -> step l s = Some s' -> Inv s'.
Proof.
  intros I H. assert (I' := I). destruct I' as [C L T K].
  destruct l as [p h|p v k|p|p| | |t|w| | | | | ]; cbn [step] in H.
  - (* LBind *)
    destruct (pc (get_prod p s)) eqn:E; try discriminate.
    destruct (Nat.ltb_spec p (length (prods s))) as [Hp|]; inversion H; subst.
    eapply (inv_move s p _ _ PIdle (active s) (flag s) I Hp E); side.
  - (* LBegin *)
    destruct (pc (get_prod p s)) eqn:E; try discriminate.
    destruct (Nat.ltb_spec p (length (prods s))); inversion H; subst. apply inv_begin; assumption.
  - (* LProd *)
    destruct (Nat.ltb_spec p (length (prods s))) as [Hp|]; [|discriminate]. eapply inv_prod_step; eassumption.
  - (* LSpur *)
    destruct (pc (get_prod p s)) eqn:E; try discriminate. inversion H; subst.
    destruct (Nat.lt_ge_cases p (length (prods s))) as [Hp|Hp];
      [|unfold get_prod in E; rewrite nth_overflow in E by exact Hp; discriminate].
    eapply (inv_move s p _ _ _ (active s) (flag s) I Hp E); side.
  - (* LCBlock *)
    destruct (cons s) eqn:Ec; try discriminate. destruct (flag s || stop_req s) eqn:Hb; inversion H; subst.
    split; [counts C|exact L|exact T|exact K].
  - (* LCWake *)
    destruct (cons s) eqn:Ec; try discriminate. inversion H; subst. apply inv_cwake; assumption.
  - (* LCBegin *)
    destruct (cons s) eqn:Ec; try discriminate. destruct (Z.ltb_spec (now s) t); inversion H; subst.
    split; [destruct (flag s) eqn:Ef; counts C|exact L|apply (times_later _ _ _ _ _ _ T); cbn; [lia|right; assumption]|exact K].
  - (* LCons *)
    unfold cons_step in H. destruct (cons s) as [| | |pend|more|more| | | ] eqn:Ec; try discriminate.
    + destruct pend; inversion H; subst; [apply inv_pop; assumption|].
      (* the only step here that leaves [CReset]: elsewhere [destruct (cons s)] has already made [T] say [false] *)
      split; [counts C|exact L|exact (times_stale _ _ _ _ T)|exact K].
    + inversion H; subst. destruct (pol s) eqn:Epol.
      * destruct (notify_one_spec w s) as (l' & -> & Wk & Hw).
        apply inv_woke; [exact I|exact Wk|left; eauto|right; rewrite Ec; auto].
      * apply (inv_woke s (map wake (prods s))); [exact I|apply woke_all|left; eauto|left; apply cnt_waiting_map_wake].
      * rewrite <- Epol in T. split; [counts C|exact L|exact T|exact K].
    + destruct more; [destruct (stop_req s) eqn:Hs|]; inversion H; subst;
        (split; [counts C|exact L|exact T|exact K]).
    + (* CStopA: the policy's stop drops what is queued *)
      inversion H; subst. pose proof (c_acc C) as A. rewrite Ec in A. cbn in A. rewrite A in L.
      split; [counts C|split; [reflexivity|exists (vals s); exact L]|exact T|exact K].
    + inversion H; subst.
      apply (inv_woke s (map wake (prods s))); [exact I|apply woke_all|right; auto|left; apply cnt_waiting_map_wake].
    + destruct (Nat.eqb_spec (active s) 0); inversion H; subst. pose proof (cnt_waiting_le_inside (prods s)).
      split; [counts C|exact L|exact T|exact K].
  - (* LCStop *)
    destruct (cons s) eqn:Ec; try discriminate. inversion H; subst.
    split; [counts C|exact L|exact T|exact K].
  - (* LCStart: nobody is inside the detached control, so nobody waits *)
    destruct (cons s) eqn:Ec; try discriminate. inversion H; subst.
    pose proof (c_det C (c_stp C Ec)) as D0. rewrite (c_act C) in D0. pose proof (cnt_waiting_le_inside (prods s)).
    split; [counts C|reflexivity|split; [exact Logic.I|intros tb []]|split; [exact (k_cur K)|intros e []|constructor|]].
    cbn. intros q Hq Ha. pose proof (cnt_ex_pos inside (prods s) idle_prod q Hq) as P.
    destruct (pc (nth q (prods s) idle_prod)); try discriminate Ha; specialize (P eq_refl); lia.
  - (* LReqStop *)
    inversion H; subst. split; [counts C|exact L|exact T|exact K].
  - (* LReqNotify *)
    destruct (stop_notifies s) eqn:En; inversion H; subst.
    destruct (notify_exec_spec (set_stop_notifies n s)) as [[Ec ->]|[Ec ->]]; cbn in Ec.
    + split; [counts C|exact L|exact T|exact K].
    + split; [counts C|exact L|rewrite Ec in T; exact T|exact K].
  - (* LClearStop: nothing is queued while the graph is stopped *)
    destruct (cons s) eqn:Ec; try discriminate. inversion H; subst.
    pose proof (c_acc C) as A. rewrite Ec in A. cbn in A. rewrite A in L. destruct L as [Lv Lr].
    split; [counts C|cbn; rewrite A; auto|cbn; rewrite Ec; exact T|exact K].
Qed.

Lemma inv_do_step s l : Inv s -> Inv (do_step s l).
Proof. intros I. unfold do_step. destruct (step l s) eqn:E; [eapply inv_step; eauto|exact I]. Qed.

Lemma inv_run ls s : Inv s -> Inv (run ls s).
Proof. apply fold_left_ind. intros a l _. apply inv_do_step. Qed.

Theorem inv_reach pl c n ls : Inv (reach pl c n ls).
Proof. apply inv_run. apply inv_init. Qed.
