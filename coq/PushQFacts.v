(* PushQFacts.v — what Props/C16.v takes from the model beside the invariant itself: clauses of the invariant
   read at any state that has it ([inv_*], [reach_*]); two facts that hold from any state, invariant or not: why a
   producer's step refuses ([refusal_reason]) and what a label, and a run without restart, do to the acceptance log
   ([do_step_log], [run_log]); the evaluation thread emptying the queue on its own ([cycle], [drain], [cycle_queue]:
   read the warning above [run_cons_step] first); the acceptor's checks one by one
   ([chk_*_ok]; Props/C16.v puts them together). *)
Require Import Base PushQ PushQInv PushQInv2.

Local Open Scope nat_scope.

Lemma inv_log s : Inv s ->
  (exists rest, accepted s = flatd (delivered s) ++ rest) /\
  (accepting s = true -> accepted s = flatd (delivered s) ++ vals s) /\
  (accepting s = false -> vals s = []).
Proof.
  intros I. pose proof (i_log I) as L. destruct (accepting s).
  - split; [exists (vals s); exact L|]. split; [intros _; exact L|discriminate].
  - destruct L as [L1 L2]. split; [exact L2|]. split; [discriminate|intros _; exact L1].
Qed.

Lemma reach_prefix pl c n ls : let s := reach pl c n ls in
  exists rest, map e_val (accepted s) = map e_val (flatd (delivered s)) ++ rest.
Proof.
  intros s. destruct (inv_log s (inv_reach pl c n ls)) as [[rest E] _].
  exists (map e_val rest). rewrite E, map_app. reflexivity.
Qed.

Lemma inv_delivered_pps s : Inv s -> PPS (flatd (delivered s)).
Proof.
  intros I. destruct (inv_log s I) as [[rest E] _]. apply (PPS_prefix _ rest). rewrite <- E. exact (k_pps (i_calls I)).
Qed.

Lemma reach_accept_order pl c n ls : let s := reach pl c n ls in
  forall i j e1 e2, nth_error (accepted s) i = Some e1 -> nth_error (accepted s) j = Some e2 ->
    i < j -> e_pid e1 = e_pid e2 -> e_seq e1 < e_seq e2.
Proof. intros s. apply PPS_nth. exact (k_pps (i_calls (inv_reach pl c n ls))). Qed.

Lemma reach_pending_le_cap pl c n ls : let s := reach pl c n ls in cap s <> 0 -> length (vals s) <= cap s.
Proof. intros s. exact (c_cap (i_counts (inv_reach pl c n ls))). Qed.

Definition stopped_for (p : nat) (s : state) : Prop :=
  handle (get_prod p s) <> epoch s \/ closing s = true \/ attached s = false \/ stop_req s = true \/ accepting s = false.

(* producer p's call is decided "refused / failed" in this step *)
Definition refusal_step (p : nat) (s s' : state) : Prop :=
  (pc (get_prod p s) = PEnter /\ pc (get_prod p s') = PIdle) \/
  (pc (get_prod p s) <> PLeave 0 /\ pc (get_prod p s') = PLeave 0).

Lemma get_prod_upd p g s : p < length (prods s) -> get_prod p (upd_prod p g s) = g (get_prod p s).
Proof. intros Hp. apply nth_update_same, Hp. Qed.

Lemma get_prod_goto p x s : p < length (prods s) -> pc (get_prod p (goto p x s)) = x.
Proof. intros Hp. unfold goto. rewrite get_prod_upd by exact Hp. reflexivity. Qed.

Lemma admission_refuses p pr s : p < length (prods s) -> pc (get_prod p (admission p pr s)) = PLeave 0 ->
  accepting s = false \/ (knd pr = KTry /\ full s = true).
Proof.
  intros Hp. unfold admission, push. destruct (accepting s); cbn [negb]; [|left; reflexivity].
  destruct (full s); [destruct (knd pr)|destruct (is_nil (vals s))]; rewrite get_prod_goto by exact Hp;
    intros R; try discriminate R.
  right; auto.
Qed.

Lemma refusal_reason s p s' :
  step (LProd p) s = Some s' -> refusal_step p s s' ->
  stopped_for p s \/ (knd (get_prod p s) = KTry /\ full s = true).
Proof.
  cbn [step]. destruct (Nat.ltb_spec p (length (prods s))) as [Hp|]; [|discriminate].
  unfold prod_step, stopped_for, refusal_step.
  (* the reasons that are guards themselves come first: once none of them holds, [cbn] decides every guard
     outside the admission check, and each program counter has one successor *)
  destruct (Nat.eqb_spec (handle (get_prod p s)) (epoch s)); [|auto].
  destruct (closing s); [auto|]. destruct (attached s); [|auto]. destruct (stop_req s); [auto 6|]. cbn [negb orb].
  intros H R. destruct (pc (get_prod p s)); try discriminate H; inversion H; subst s'; clear H;
    destruct R as [[R1 R]|[R1 R]]; try discriminate R1.
  - (* PEnter, to PStopChk *) rewrite get_prod_goto in R by exact Hp. discriminate R.
  - (* PEnter again, under the second disjunct of [refusal_step] *) rewrite get_prod_goto in R by exact Hp. discriminate R.
  - (* PStopChk, to PAdmit *) rewrite get_prod_goto in R by exact Hp. discriminate R.
  - (* PAdmit *) destruct (admission_refuses _ _ _ Hp R) as [A|F]; [auto 6|right; exact F].
  - (* PWoken *) destruct (admission_refuses _ _ _ Hp R) as [A|F]; [auto 6|right; exact F].
  - (* PMark, to PNotify *) rewrite get_prod_goto in R by exact Hp. discriminate R.
  - (* PNotify, to PLeave 1 *) rewrite get_prod_goto in R; [discriminate R|]. unfold notify_exec. destruct (cons s); exact Hp.
  - (* PLeave, to PIdle *) rewrite get_prod_upd in R by exact Hp. discriminate R.
Qed.

(* stated so that it composes along a run ([log_step_trans]) *)
Definition log_step (s s' : state) : Prop :=
  (exists more, accepted s' = accepted s ++ more) /\
  (accepting s = false -> accepted s' = accepted s /\ accepting s' = false).

Lemma log_quiet s s' : accepted s' = accepted s -> (accepting s = false -> accepting s' = false) -> log_step s s'.
Proof. intros E A. split; [exists []; rewrite app_nil_r; exact E|auto]. Qed.

Lemma log_step_trans s1 s2 s3 : log_step s1 s2 -> log_step s2 s3 -> log_step s1 s3.
Proof.
  intros [[m1 E1] A1] [[m2 E2] A2]. split; [exists (m1 ++ m2); rewrite E2, E1, app_assoc; reflexivity|].
  intros A. destruct (A1 A) as [<- A']. exact (A2 A').
Qed.

Lemma admission_log p pr s : log_step s (admission p pr s).
Proof.
  unfold admission, push. destruct (accepting s) eqn:A; cbn [negb]; [|apply log_quiet; auto].
  destruct (full s); [destruct (knd pr); (apply log_quiet; auto)|].
  split; [exists [cur pr]; destruct (is_nil (vals s)); reflexivity|congruence].
Qed.

Lemma do_step_log l s : l <> LCStart -> log_step s (do_step s l).
Proof.
  intros Hl. unfold do_step.
  (* every leaf of [step] but the push, a disabled label included, leaves the log alone and does not reopen the queue *)
  destruct l as [p h|p v k|p|p| | |t|w| | | | | ]; cbn [step]; try congruence.
  - destruct (pc (get_prod p s)), (p <? length (prods s)); apply log_quiet; auto.
  - destruct (pc (get_prod p s)), (p <? length (prods s)); apply log_quiet; auto.
  - destruct (p <? length (prods s)); [unfold prod_step|apply log_quiet; auto].
    destruct (pc (get_prod p s)); try apply admission_log.
    + apply log_quiet; auto.
    + destruct (negb (Nat.eqb (handle (get_prod p s)) (epoch s)) || closing s || negb (attached s)); apply log_quiet; auto.
    + destruct (stop_req s); apply log_quiet; auto.
    + apply log_quiet; auto.
    + destruct (stop_req s); apply log_quiet; auto.
    + unfold notify_exec. destruct (cons s); apply log_quiet; auto.
    + apply log_quiet; auto.
  - destruct (pc (get_prod p s)); apply log_quiet; auto.
  - destruct (cons s), (flag s || stop_req s); apply log_quiet; auto.
  - destruct (cons s); apply log_quiet; auto.
  - destruct (cons s), (now s <? t)%Z; apply log_quiet; auto.
  - unfold cons_step. destruct (cons s) as [| | |pend|more|more| | | ].
    + apply log_quiet; auto.
    + apply log_quiet; auto.
    + apply log_quiet; auto.
    + destruct pend; [unfold pop; destruct (pol s), (vals s)|]; apply log_quiet; auto.
    + unfold notify_one. destruct (pol s); [destruct (is_waiting (pc (get_prod w s)))| |]; apply log_quiet; auto.
    + destruct more; [destruct (stop_req s)|]; apply log_quiet; auto.
    + apply log_quiet; auto.
    + apply log_quiet; auto.
    + destruct (Nat.eqb (active s) 0); apply log_quiet; auto.
  - destruct (cons s); apply log_quiet; auto.
  - apply log_quiet; auto.
  - unfold notify_exec. destruct (stop_notifies s); [|cbn [cons set_stop_notifies]; destruct (cons s)]; apply log_quiet; auto.
  - destruct (cons s); apply log_quiet; auto.
Qed.

Lemma run_log ls s : (forall l, In l ls -> l <> LCStart) -> log_step s (run ls s).
Proof.
  intros Hl. unfold run. apply fold_left_ind; [|apply log_quiet; auto]. intros a l Hin A.
  exact (log_step_trans _ a _ A (do_step_log l a (Hl l Hin))).
Qed.

Lemma cnt_pos_pc f x l : (forall y, f y = true -> y = x) -> cnt f l > 0 ->
  exists p, p < length l /\ pc (nth p l idle_prod) = x.
Proof.
  intros Hf H. destruct (cnt_pos_ex f l idle_prod H) as [p [Hp E]]. exists p. split; [exact Hp|apply Hf; exact E].
Qed.

Lemma inv_no_lost_wakeup s : Inv s -> vals s <> [] -> stop_req s = false ->
  flag s = true \/ (exists p, p < length (prods s) /\ pc (get_prod p s) = PMark) \/ cons_rearming (cons s) = true.
Proof.
  intros I Hv Hs. destruct (c_wake (i_counts I) Hv Hs) as [H|[H|H]]; auto.
  right; left. apply (cnt_pos_pc is_mark PMark); [intros y; destruct y; simpl; congruence|exact H].
Qed.

Lemma inv_no_lost_notification s : Inv s -> cons s = CBlocked -> flag s = true \/ stop_req s = true ->
  (exists p, p < length (prods s) /\ pc (get_prod p s) = PNotify) \/ stop_notifies s > 0.
Proof.
  intros I Hc Hf. assert (Hb : flag s || stop_req s = true) by (destruct Hf as [-> | ->]; [reflexivity|apply orb_true_r]).
  destruct (c_note (i_counts I) Hc Hb) as [H|H]; [left|right; exact H].
  apply (cnt_pos_pc is_notify PNotify); [intros y; destruct y; simpl; congruence|exact H].
Qed.

(* the fuel 8 is the one the harness's [seq_eval] runs a cycle with (PushQ.v); a cycle of the queue policy takes three steps *)

Definition cycle (s : state) : state := run_cons 8 (do_step s (LCBegin (now s + 1))).
Fixpoint drain (n : nat) (s : state) : state := match n with O => s | S k => drain k (cycle s) end.

Lemma notify_one_eq w s : notify_one w s = set_prods (prods (notify_one w s)) s.
Proof. unfold notify_one. destruct (is_waiting (pc (get_prod w s))); reflexivity. Qed.

(* [run_cons] at a numeral fuel is a trap for the kernel, in coqc and in coqchk alike.  Its whd unfolds
   [run_cons (S n) x] as soon as it meets it, and where a guard of the machine is stuck on a variable
   ([now s <? now s + 1], [negb (is_nil r)], the [is_waiting] of [notify_one]) it is left with nine branches per
   unit of fuel, which it compares pairwise with the other side: minutes (measured about 5x per unit of fuel).
   So no conversion may touch a goal in which [run_cons] or [cycle] is applied to a state: no [cbn], [simpl],
   [change] or [reflexivity] there (also not under [Arguments run_cons : simpl never]: the tactic is then quick and
   the Qed is not), and no equation between two whole states built by different chains of setters (to compare
   [pol x] with [pol y] the kernel first tries [x] with [y], through all sixteen fields of every layer).  What is
   safe: the two equations below, proved at a variable fuel, where [run_cons (S f)] unfolds once and stops, used
   by [rewrite] with the next state normalised in the side condition; conclusions field by field; and [drain_S]. *)
Lemma run_cons_step f s s1 : cons_step 0 s = Some s1 -> run_cons (S f) s = run_cons f s1.
Proof.
  intros E. cbn [run_cons]. unfold do_step. cbn [step]. rewrite E. unfold cons_step in E.
  destruct (cons s); try discriminate E; try reflexivity. destruct (Nat.eqb (active s) 0); [reflexivity|discriminate E].
Qed.

Lemma run_cons_idle f s : cons s = CIdle -> run_cons f s = s.
Proof. intros E. destruct f; [reflexivity|]. cbn [run_cons]. rewrite E. reflexivity. Qed.

Lemma cycle_queue s v r :
  pol s = Queue -> vals s = v :: r -> cons s = CIdle -> stop_req s = false -> flag s = true ->
  let s' := cycle s in
  pol s' = Queue /\ vals s' = r /\ cons s' = CIdle /\ stop_req s' = false /\ flag s' = negb (is_nil r) /\
  delivered s' = delivered s ++ [((now s + 1)%Z, [v])] /\ accepted s' = accepted s.
Proof.
  intros Hp Hv Hc Hs Hf. unfold cycle, do_step. cbn [step]. rewrite Hc, Hf, (proj2 (Z.ltb_lt _ _)) by lia.
  (* the flag is reset; pop, notify a sender, re-arm if more is queued *)
  erewrite run_cons_step by (unfold cons_step, pop; cbn; rewrite Hp, Hv; reflexivity).
  erewrite run_cons_step by (unfold cons_step; cbn; rewrite Hp; reflexivity).
  rewrite notify_one_eq.
  destruct r; (erewrite run_cons_step by (unfold cons_step; cbn; rewrite ?Hs; reflexivity)); rewrite run_cons_idle by reflexivity;
    cbn; auto 10.
Qed.

(* not [reflexivity]: the kernel would first try the arguments, [s] against [cycle s], and evaluate that [cycle s] in place *)
Lemma drain_S n s : drain (S n) s = drain n (cycle s).
Proof. lazy beta iota delta [drain]. reflexivity. Qed.

Local Open Scope Z_scope.

Lemma memz_In v l : memz v l = true <-> In v l.
Proof.
  induction l as [|x r IH]; simpl; [split; [discriminate|tauto]|].
  rewrite orb_true_iff, IH, Z.eqb_eq. tauto.
Qed.

Lemma nodupb_NoDup l : nodupb l = true <-> NoDup l.
Proof.
  induction l as [|x r IH]; simpl; [split; [constructor|reflexivity]|].
  rewrite andb_true_iff, negb_true_iff, IH, NoDup_cons_iff, <- memz_In, not_true_iff_false. reflexivity.
Qed.

Lemma increasingb_ok l : increasingb l = true <-> increasing l.
Proof.
  induction l as [|a r IH]; simpl; [tauto|].
  rewrite andb_true_iff, IH. destruct r as [|b r']; [tauto|]. rewrite Z.ltb_lt. tauto.
Qed.

Lemma is_nil_true {A} (l : list A) : is_nil l = true <-> l = [].
Proof. destruct l; simpl; split; congruence. Qed.
Lemma is_nil_false {A} (l : list A) : negb (is_nil l) = true <-> l <> [].
Proof. destruct l; simpl; split; congruence. Qed.

Lemma forallb_map {A B} (f : B -> bool) (g : A -> B) l : forallb f (map g l) = forallb (fun x => f (g x)) l.
Proof. induction l as [|a r IH]; [reflexivity|]. cbn [map forallb]. rewrite IH. reflexivity. Qed.

Lemma forallb_iff {A} (f : A -> bool) (P : A -> Prop) l :
  (forall x, In x l -> (f x = true <-> P x)) -> (forallb f l = true <-> forall x, In x l -> P x).
Proof. intros E. rewrite forallb_forall. split; intros H x Hx; apply (E x Hx), H, Hx. Qed.

Lemma orb_imp a b : a || b = true <-> (a = false -> b = true).
Proof. destruct a; cbn; intuition congruence. Qed.

Lemma chk_wf_ok h : chk_wf h = true <->
  (forall x, In x (h_sends h) -> s_b x < s_a x /\ (s_res x = 0 \/ s_res x = 1)) /\
  NoDup (map s_v (h_sends h)) /\ h_err h = false /\ h_stop_b h < h_stop_r h /\ h_stop_b h < h_stop_e h.
Proof.
  unfold chk_wf. rewrite !andb_true_iff, nodupb_NoDup, negb_true_iff, !Z.ltb_lt, <- !and_assoc.
  repeat apply and_iff_compat_r. apply forallb_iff. intros x _. lia.
Qed.

Lemma chk_once_ok h : chk_once h = true <->
  NoDup (flat h) /\ forall v, In v (flat h) -> exists x, In x (h_sends h) /\ s_v x = v /\ s_res x = 1.
Proof.
  unfold chk_once. rewrite andb_true_iff, nodupb_NoDup. apply and_iff_compat_l, forallb_iff. intros v _.
  rewrite existsb_exists. split; intros [x [Hx E]]; exists x; (split; [exact Hx|lia]).
Qed.

Lemma index_of_nonneg v l : 0 <= index_of v l.
Proof. induction l as [|x r IH]; cbn [index_of]; [lia|destruct (x =? v); lia]. Qed.

Lemma index_of_lt v l : index_of v l < zlen l <-> In v l.
Proof.
  unfold zlen. induction l as [|x r IH]; cbn [index_of length In]; [lia|].
  rewrite Nat2Z.inj_succ, <- IH. pose proof (index_of_nonneg v r). destruct (Z.eqb_spec x v); lia.
Qed.

Lemma chk_fifo_ok h : chk_fifo h = true <->
  forall x y, In x (acc_sends h) -> In y (acc_sends h) -> In (s_v y) (flat h) -> s_a x < s_b y ->
    (if is_confl (h_pol h) then In (s_v x) (flat h) -> index_of (s_v x) (flat h) < index_of (s_v y) (flat h)
     else index_of (s_v x) (flat h) < index_of (s_v y) (flat h)).
Proof.
  unfold chk_fifo. rewrite forallb_map. cbn [fst snd].
  (* the acceptor's outer loop is over y *)
  transitivity (forall y, In y (acc_sends h) -> forall x, In x (acc_sends h) -> In (s_v y) (flat h) -> s_a x < s_b y ->
    (if is_confl (h_pol h) then In (s_v x) (flat h) -> index_of (s_v x) (flat h) < index_of (s_v y) (flat h)
     else index_of (s_v x) (flat h) < index_of (s_v y) (flat h)));
    [|split; [intros H x y Hx Hy; exact (H y Hy x Hx)|intros H y Hy x Hx; exact (H x y Hx Hy)]].
  apply forallb_iff. intros y _. rewrite forallb_map. cbn [fst snd].
  destruct (Z.ltb_spec (index_of (s_v y) (flat h)) (zlen (flat h))) as [Hy|Hy]; cbn [negb orb].
  - apply forallb_iff. intros x _. destruct (is_confl (h_pol h)); rewrite <- ?index_of_lt; lia.
  - split; [intros _ x _ Hin|reflexivity]. apply index_of_lt in Hin. lia.
Qed.

Lemma chk_times_ok h : chk_times h = true <->
  increasing (map d_t (h_delivs h)) /\ increasing (map d_cs (h_delivs h)) /\
  forall d, In d (h_delivs h) -> d_cs d < d_s d /\
    (if is_queue (h_pol h) || is_confl (h_pol h) then length (d_vals d) = 1%nat else d_vals d <> []).
Proof.
  unfold chk_times. rewrite !andb_true_iff, !increasingb_ok, and_assoc.
  apply and_iff_compat_l, and_iff_compat_l, forallb_iff. intros d _.
  rewrite andb_true_iff, Z.ltb_lt. apply and_iff_compat_l.
  destruct (is_queue (h_pol h) || is_confl (h_pol h)); [apply Nat.eqb_eq|apply is_nil_false].
Qed.

Lemma chk_cap_ok h : chk_cap h = true <->
  (forall tn, In tn (h_samples h) -> snd tn <= (if is_confl (h_pol h) then 1 else h_cap h) \/ (h_cap h = 0 /\ is_confl (h_pol h) = false)) /\
  (h_cap h > 0 -> is_confl (h_pol h) = false -> forall x, In x (acc_sends h) -> undelivered_at_least h x <= h_cap h).
Proof.
  unfold chk_cap. rewrite andb_true_iff. apply Morphisms_Prop.and_iff_morphism.
  - apply forallb_iff. intros tn _. destruct (is_confl (h_pol h)); lia.
  - rewrite <- orb_assoc, !orb_imp, negb_false_iff, Z.ltb_lt, <- Z.gt_lt_iff.
    apply imp_iff_compat_l, imp_iff_compat_l, forallb_iff. intros x _. lia.
Qed.

Lemma chk_refuse_ok h : chk_refuse h = true <->
  forall r, In r (h_sends h) -> s_res r = 0 ->
    h_stop_b h < s_a r \/
    (s_blk r = false /\ is_confl (h_pol h) = false /\ h_cap h > 0 /\ h_cap h <= queued_at_most h r).
Proof. apply forallb_iff. intros r _. lia. Qed.

Lemma chk_after_stop_ok h : chk_after_stop h = true <->
  forall x, In x (h_sends h) -> h_stop_r h < s_b x -> s_res x = 0.
Proof. apply forallb_iff. intros x _. lia. Qed.

Lemma chk_all_ok h : chk_all h = true <->
  (h_full_run h = true ->
   h_stalled h = false /\
   (if is_confl (h_pol h)
    then (acc_sends h <> [] -> flat h <> []) /\
         forall y x, In y (last_deliv_send h) -> In x (acc_sends h) -> ~ s_a y < s_b x
    else forall x, In x (acc_sends h) -> In (s_v x) (flat h))).
Proof.
  unfold chk_all. rewrite orb_imp, negb_false_iff, andb_true_iff, negb_true_iff.
  apply imp_iff_compat_l, and_iff_compat_l. destruct (is_confl (h_pol h)).
  - rewrite andb_true_iff, orb_imp, <- negb_true_iff, !is_nil_false, forallb_forall. apply and_iff_compat_l. split.
    + intros H y x Hy Hx. specialize (H y Hy). rewrite forallb_forall in H. specialize (H x Hx). lia.
    + intros H y Hy. apply forallb_forall. intros x Hx. specialize (H y x Hy Hx). lia.
  - apply forallb_iff. intros x _. apply memz_In.
Qed.

Lemma chk_latest_ok h : chk_latest h = true <->
  (is_confl (h_pol h) = true ->
   forall d y x, In d (h_delivs h) -> In y (acc_sends h) -> In (s_v y) (d_vals d) -> In x (acc_sends h) ->
   ~ (s_a y < s_b x /\ s_a x < d_cs d)).
Proof.
  unfold chk_latest. rewrite orb_imp, negb_false_iff. apply imp_iff_compat_l.
  (* the acceptor looks y's value up in d before it runs over x *)
  transitivity (forall d, In d (h_delivs h) -> forall y, In y (acc_sends h) -> In (s_v y) (d_vals d) ->
                forall x, In x (acc_sends h) -> ~ (s_a y < s_b x /\ s_a x < d_cs d));
    [|split; [intros H d y x Hd Hy Hin Hx; exact (H d Hd y Hy Hin x Hx)|intros H d Hd y Hy Hin x Hx; exact (H d y x Hd Hy Hin Hx)]].
  apply forallb_iff. intros d _. apply forallb_iff. intros y _. rewrite orb_imp, negb_false_iff, memz_In.
  apply imp_iff_compat_l, forallb_iff. intros x _. lia.
Qed.

Lemma chk_batch_ok h : chk_batch h = true <->
  (is_confl (h_pol h) = false -> h_cap h > 0 -> forall d, In d (h_delivs h) -> zlen (d_vals d) <= h_cap h).
Proof.
  unfold chk_batch. rewrite <- orb_assoc, !orb_imp, negb_false_iff, Z.ltb_lt, <- Z.gt_lt_iff.
  apply imp_iff_compat_l, imp_iff_compat_l, forallb_iff. intros d _. lia.
Qed.
