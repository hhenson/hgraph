Require Import Base Nestw.

Lemma stream_eqb_spec a : forall b, stream_eqb a b = true <-> a = b.
Proof.
  induction a as [|[t x] r IH]; intros [|[t' x'] r']; simpl; split; intros H; try discriminate; auto.
  - apply andb_prop in H as [H H3]. apply andb_prop in H as [H1 H2]. apply IH in H3. f_equal; [f_equal; lia|auto].
  - inversion H; subst. rewrite !Z.eqb_refl. simpl. apply IH. reflexivity.
Qed.

Lemma accept_spec out :
  accept out = true <->
  completed 0 out = true /\ completed 1 out = true /\ completed 2 out = true
  /\ stream_of 1 out = stream_of 0 out /\ stream_of 2 out = stream_of 0 out
  /\ completed 3 out = completed 4 out /\ stream_of 4 out = stream_of 3 out.
Proof.
  unfold accept. rewrite !andb_true_iff, !stream_eqb_spec, Bool.eqb_true_iff. tauto.
Qed.

Lemma run_nestw_spec w : run_nestw w = [[1]] <-> accept (after_marker w) = true.
Proof. unfold run_nestw. destruct (accept _); split; intros H; auto; discriminate. Qed.
