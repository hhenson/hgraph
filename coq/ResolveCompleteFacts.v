(* ResolveCompleteFacts.v — the matchers compute the instance tests of ResolveMatchFacts.v: they are sound and,
   except in the output direction, complete.  All of it is one notion, [least_ext], proved once for each kind of
   step the matchers are made of; [smatch_least], [tmatch_least], [imatch_least] are then one induction each,
   the others a case split.  [match_args_sound] puts them together for a candidate's parameter list; the whole of
   [try_match] is [accepted_candidate_matches] in Props/C19.v. *)
Require Import Base Resolve ResolveMatchFacts.

Fixpoint no_bv (p : tpat) : bool :=
  match p with
  | PTsbVar _ => false
  | PTsl _ e => no_bv e
  | PTsd _ v => no_bv v
  | PTsb _ _ fps => forallb (fun fq => no_bv (snd fq)) fps
  | PRef q => no_bv q
  | _ => true
  end.

Definition no_bundle_binding (sg : rmap) : Prop :=
  forall v b, afind v (r_sc sg) = Some b -> bundle_id b = None.

Lemma bundle_is_a_base s b : bundle_is_a s b = true -> bundle_id b <> None.
Proof. destruct s, b; cbn; discriminate. Qed.

Definition mono (g : rmap -> bool) : Prop := forall m m', extends m m' -> g m = true -> g m' = true.

Definition sound (f : rmap -> option rmap) (g : rmap -> bool) : Prop :=
  forall m m', f m = Some m' -> extends m m' /\ g m' = true.

Lemma mono_var {A} (k : comp A) v h : mono (fun m => match afind v (get k m) with Some b => h b | None => false end).
Proof. intros m m' X%(extends_get k). destruct (afind v (get k m)) as [b|] eqn:E; [|discriminate]. rewrite (X v b E). auto. Qed.

(* [least_ext C f g]: the step [f] computes the least extension of its input map that passes the test [g], least
   among the substitutions in [C]; so a failed step means that no substitution in [C] above the input passes.
   [C] is there because some steps of the model are sound but not least.  A TSB schema variable and the
   top-level variable of the output direction compare an existing binding by something weaker than equality,
   so a different binding would have done as well: their [C] is empty ([sound_var]), whence [no_bv].  The input
   direction lets a scalar variable bound to a bundle take any descendant, so which position binds first
   matters: least only below [no_bundle_binding] ([ts_in_least]).  Every other step is least below anything. *)
Definition least_ext (C : rmap -> Prop) (f : rmap -> option rmap) (g : rmap -> bool) : Prop :=
  mono g /\ sound f g /\
  forall sg, C sg -> forall m, extends m sg -> g sg = true -> exists m', f m = Some m' /\ extends m' sg.

Lemma least_weaken (C C' : rmap -> Prop) f g : (forall sg, C' sg -> C sg) -> least_ext C f g -> least_ext C' f g.
Proof. intros W [M [S K]]. split; [|split]; auto. Qed.

Lemma sound_var {A} (k : comp A) v x (cmp : A -> bool) (ok : bool) : (ok = true -> cmp x = true) ->
  least_ext (fun _ => False)
            (fun m => match afind v (get k m) with
                      | Some b => if cmp b then Some m else None
                      | None => if ok then Some (put k m v x) else None
                      end)
            (fun m => match afind v (get k m) with Some b => cmp b | None => false end).
Proof.
  intros R. split; [apply mono_var | split; [|intros sg []]].
  intros m m'. destruct (afind v (get k m)) as [b|] eqn:E.
  - destruct (cmp b) eqn:E1; intros [= <-]. rewrite E. auto using extends_refl.
  - destruct ok; intros [= <-]. rewrite afind_put, R; auto using extends_put.
Qed.

Section Least.
  Variable C : rmap -> Prop.
  Notation least := (least_ext C).

  Lemma least_none : least (fun _ => None) (fun _ => false).
  Proof. split; [|split]; [intros m m' _ [=] | intros m m' [=] | intros sg _ m _ [=]]. Qed.

  Lemma least_test (c : bool) : least (fun m => if c then Some m else None) (fun _ => c).
  Proof.
    split; [|split]; [intros m m' _ H; exact H | | intros sg _ m X ->; eauto].
    intros m m'. destruct c; intros [= <-]. auto using extends_refl.
  Qed.

  Lemma least_seq f1 g1 f2 g2 : least f1 g1 -> least f2 g2 ->
    least (fun m => match f1 m with Some m1 => f2 m1 | None => None end) (fun m => g1 m && g2 m).
  Proof.
    intros [M1 [S1 C1]] [M2 [S2 C2]]. split; [|split].
    - intros m m' X [H1 H2]%andb_prop. rewrite (M1 _ _ X H1), (M2 _ _ X H2). auto.
    - intros m m'. destruct (f1 m) as [m1|] eqn:E; [|discriminate]. intros H.
      destruct (S1 _ _ E) as [X1 G1], (S2 _ _ H) as [X2 G2].
      split; [eapply extends_trans; eauto|]. rewrite (M1 _ _ X2 G1), G2. auto.
    - intros sg HC m X [H1 H2]%andb_prop. destruct (C1 sg HC m X H1) as [m1 [-> X1]]. exact (C2 sg HC m1 X1 H2).
  Qed.

  Lemma least_list {P T} (f : P -> T -> rmap -> option rmap) (g : rmap -> P -> T -> bool) ps :
    Forall (fun p => forall t, least (f p t) (fun m => g m p t)) ps ->
    forall ts, least (match_list f ps ts) (fun m => forall2b (g m) ps ts).
  Proof.
    induction 1 as [|p r Hp _ IH]; intros [|t ts]; cbn [match_list forall2b]; try apply least_none.
    - apply (least_test true).
    - apply least_seq; auto.
  Qed.

  (* comparing by equality, the binding found is the only possible one *)
  Lemma least_var {A} (k : comp A) v x (ok : bool) :
    least (fun m => match afind v (get k m) with
                    | Some b => if ceqb k b x && ok then Some m else None
                    | None => if ok then Some (put k m v x) else None
                    end)
          (fun m => match afind v (get k m) with Some b => ceqb k b x && ok | None => false end).
  Proof.
    destruct (sound_var k v x (fun b => ceqb k b x && ok) ok) as [M [S _]]; [intros ->; rewrite ceqb_refl; auto|].
    split; [exact M | split; [exact S|]].
    intros sg _ m X. destruct (afind v (get k sg)) as [b|] eqn:Eb; [|discriminate]. intros [->%ceqb_eq ->]%andb_prop.
    destruct (afind v (get k m)) as [b'|] eqn:Em.
    - rewrite (extends_get k _ _ X _ _ Em) in Eb. injection Eb as ->. rewrite ceqb_refl. exists m. auto.
    - eauto using extends_put_in.
  Qed.

  Lemma smatch_least p : forall s, least (smatch p s) (fun m => sinst m p s).
  Proof.
    induction p as [v cn | c | | c IH | c IH | ps IH | c IH | k v IHk IHv] using spat_ind'; intros s; cbn [smatch sinst].
    - apply (least_var CSc).
    - apply least_test.
    - destruct s; try apply least_none; apply (least_test true).
    - destruct s; try apply least_none; [destruct (hom_elem l); [|apply least_none]|]; apply IH.
    - destruct s; try apply least_none; [destruct (hom_elem l); [|apply least_none]|]; apply IH.
    - destruct s; try apply least_none. apply least_list, IH.
    - destruct s; try apply least_none. apply IH.
    - destruct s; try apply least_none. apply least_seq; auto.
  Qed.

  Lemma szmatch_least sz n : least (szmatch sz n) (fun m => szinst m sz n).
  Proof. destruct sz; cbn [szmatch szinst]; [apply least_test | apply (least_var CSz)]. Qed.
End Least.

Lemma smatch_sound p s : sound (smatch p s) (fun m => sinst m p s).
Proof. apply (smatch_least (fun _ => True)). Qed.

Lemma szmatch_sound sz n : sound (szmatch sz n) (fun m => szinst m sz n).
Proof. apply (szmatch_least (fun _ => True)). Qed.

(* [least_list] when each field has a proviso of its own *)
Lemma least_fields {P T} (c : P -> bool) D (f : P -> T -> rmap -> option rmap) (g : rmap -> P -> T -> bool) ps :
  Forall (fun p => forall t, least_ext (fun sg => c p = true /\ D sg) (f p t) (fun m => g m p t)) ps ->
  forall ts, least_ext (fun sg => forallb c ps = true /\ D sg) (match_list f ps ts) (fun m => forall2b (g m) ps ts).
Proof.
  intros H. apply least_list. rewrite Forall_forall in *. intros p Hp t. eapply least_weaken, H, Hp.
  intros sg [HB HD]. split; [exact (proj1 (forallb_forall _ _) HB p Hp) | exact HD].
Qed.

(* [D] is spare: [imatch_least] uses it for [no_bundle_binding] *)
Lemma tmatch_least D p : forall t, least_ext (fun sg => no_bv p = true /\ D sg) (tmatch p t) (fun m => tinst m p t).
Proof.
  induction p as [v cn | c | sp | sp | sz e IH | k v IH | a per mn sp | nd nm fps IH | v | q IH | ] using tpat_ind';
    intros t0; cbn [tmatch tinst is_pref no_bv].
  - apply (least_var _ CTs).
  - apply least_test.
  - destruct (strip_refs t0); try apply least_none. apply smatch_least.
  - destruct (strip_refs t0); try apply least_none. apply smatch_least.
  - destruct (strip_refs t0); try apply least_none. apply least_seq; [apply szmatch_least | apply IH].
  - destruct (strip_refs t0); try apply least_none. apply least_seq; [apply smatch_least | apply IH].
  - destruct (strip_refs t0); try apply least_none. apply least_seq; [apply smatch_least | apply least_test].
  - destruct (strip_refs t0); try apply least_none.
    destruct (name_ok nd nm name && fnames_eqb fps fs); [|apply least_none].
    apply (least_fields (fun fq => no_bv (snd fq))). eapply Forall_impl, IH. intros fq H gx. apply H.
  - destruct (strip_refs t0); try apply least_none.
    eapply least_weaken, (sound_var CTs v _ (fun b => tty_equiv b _) true); [intros sg [[=] _] | intros _; apply tty_equiv_refl].
  - destruct t0; try apply least_none. apply IH.
  - destruct (strip_refs t0); try apply least_none. apply (least_test _ true).
Qed.

Lemma tmatch_sound p t : sound (tmatch p t) (fun m => tinst m p t).
Proof. apply (tmatch_least (fun _ => True)). Qed.

(* the [PTs] step of [imatch] (input_scalar_pattern_match) *)
Lemma ts_in_least sp s :
  least_ext no_bundle_binding
            (fun m => match sp with
                      | PSVar v _ => match afind v (r_sc m) with
                                     | Some b => if bundle_is_a s b then Some m else smatch sp s m
                                     | None => smatch sp s m
                                     end
                      | _ => smatch sp s m
                      end)
            (fun m => sinst m sp s || bound_bundle_accepts m sp s).
Proof.
  destruct (smatch_least no_bundle_binding sp s) as [M [S K]].
  assert (mono (fun m => bound_bundle_accepts m sp s)) as MB.
  { destruct sp; try (intros m m' _ H; exact H). apply (mono_var CSc). }
  assert (sound (smatch sp s) (fun m => sinst m sp s || bound_bundle_accepts m sp s)) as S'.
  { intros m m' [X G]%S. rewrite G. auto. }
  (* below a substitution without bundle bindings the bundle rule never applies *)
  assert (forall sg, no_bundle_binding sg -> forall m, extends m sg -> sinst sg sp s || bound_bundle_accepts sg sp s = true ->
          exists m', smatch sp s m = Some m' /\ extends m' sg) as K'.
  { intros sg NB m X H. apply (K sg NB m X). apply orb_prop in H as [H|H]; [exact H|]. destruct sp; try discriminate.
    cbn [bound_bundle_accepts] in H. destruct (afind v (r_sc sg)) as [b|] eqn:E; [|discriminate].
    destruct (bundle_is_a_base _ _ H (NB _ _ E)). }
  split; [intros m m' X [H|H]%orb_prop; [rewrite (M _ _ X H) | rewrite (MB _ _ X H), orb_true_r]; auto | split].
  - destruct sp; try exact S'. intros m m'. cbn [bound_bundle_accepts].
    destruct (afind v (r_sc m)) as [b|] eqn:E; [|apply S']. destruct (bundle_is_a s b) eqn:EB; [|apply S'].
    intros [= <-]. rewrite E, EB, orb_true_r. auto using extends_refl.
  - intros sg NB. destruct sp; try exact (K' sg NB). intros m X.
    destruct (afind v (r_sc m)) as [b|] eqn:E; [|exact (K' sg NB m X)].
    destruct (bundle_is_a s b) eqn:EB; [|exact (K' sg NB m X)].
    destruct (bundle_is_a_base _ _ EB (NB _ _ (proj1 (proj2 X) _ _ E))).
Qed.

Lemma imatch_least p : forall t,
  least_ext (fun sg => no_bv p = true /\ no_bundle_binding sg) (imatch p t) (fun m => iinst m p t).
Proof.
  induction p as [v cn | c | sp | sp | sz e IH | k v IH | a per mn sp | nd nm fps IH | v | q IH | ] using tpat_ind';
    intros t0; cbn [imatch iinst].
  - apply tmatch_least.
  - apply least_test.
  - destruct (strip_refs t0); try apply least_none. eapply least_weaken, ts_in_least. tauto.
  - apply tmatch_least.
  - destruct (strip_refs t0); try apply least_none. apply least_seq; [apply szmatch_least | apply IH].
  - destruct (strip_refs t0); try apply least_none. apply least_seq; [apply smatch_least | apply IH].
  - apply tmatch_least.
  - destruct (strip_refs t0); try apply least_none.
    destruct (name_ok nd nm name && fnames_eqb fps fs); [|apply least_none].
    apply (least_fields (fun fq => no_bv (snd fq))). eapply Forall_impl, IH. intros fq H gx. apply H.
  - apply (tmatch_least _ (PTsbVar v)).
  - apply IH.
  - apply (least_test _ true).
Qed.

(* [C] is empty for every pattern: stable and sound only, nothing is claimed least ([match_complete] has no
   output part) *)
Lemma omatch_least p t : least_ext (fun _ => False) (omatch p t) (fun m => oinst m p t).
Proof.
  assert (least_ext (fun _ => False) (tmatch p t) (fun m => tinst m p t)) as T
    by (eapply least_weaken, (tmatch_least (fun _ => True)); intros sg []).
  destruct p; try exact T. unfold omatch, oinst. destruct (is_ref t); [|exact T].
  apply (sound_var CTs v t (fun b => tty_equiv (deref b) (deref t))). intros _. apply tty_equiv_refl.
Qed.

(* promotion of plain values: only the extension property is stated *)
Lemma vsm_extends p : forall v m m', vsm p v m = Some m' -> extends m m'.
Proof.
  induction p as [x cn | c | sp | sp | sz e IH | k c IH | a per mn sp | nd nm fps IH | x | q IH | ] using tpat_ind';
    intros v m m'; cbn [vsm]; try discriminate.
  - destruct (afind x (r_ts m)); [destruct (vs_is t v); intros [= <-]; apply extends_refl | apply tmatch_sound].
  - destruct (vs_is c v); intros [= <-]. apply extends_refl.
  - apply smatch_sound.
  - destruct v; try discriminate. apply smatch_sound.
  - destruct v; try discriminate. destruct (szmatch sz 0 m) as [m1|] eqn:E; [|discriminate]. intros H.
    eapply extends_trans; [eapply szmatch_sound, E | eapply IH, H].
  - destruct v; try discriminate. destruct (smatch k v1 m) as [m1|] eqn:E; [|discriminate]. intros H.
    eapply extends_trans; [eapply smatch_sound, E | eapply IH, H].
  - destruct v; try discriminate. destruct ((if a then 0 else per) =? 0); [apply smatch_sound | discriminate].
  - destruct (sty_eqb v (SAtom 0)); intros [= <-]. apply extends_refl.
Qed.

Lemma promote_extends p : forall v m m', promote p v m = Some m' -> extends m m'.
Proof.
  induction p as [x cn | c | sp | sp | sz e IH | k c IH | a per mn sp | nd nm fps IH | x | q IH | ] using tpat_ind';
    intros v m m'; cbn [promote]; try apply vsm_extends; try apply IH.
  - destruct (afind x (r_ts m)); [destruct (compat t v); intros [= <-]; apply extends_refl | apply vsm_extends].
  - destruct (compat c v); intros [= <-]. apply extends_refl.
  - destruct sp; try apply vsm_extends. destruct (sty_eqb v s); intros [= <-]. apply extends_refl.
Qed.

Lemma arg_inst_mono m m' pr a : extends m m' -> arg_inst m pr a -> arg_inst m' pr a.
Proof.
  intros X. destruct pr as [p|sp], a as [t|v| |]; cbn [arg_inst]; auto.
  - apply (imatch_least p t), X.
  - destruct sp; auto; apply (smatch_least (fun _ => True)), X.
Qed.

Lemma match_arg_sound pr a m adj m' adj' :
  match_arg pr a (m, adj) = Some (m', adj') ->
  extends m m' /\ arg_inst m' pr a /\ adj' = adj + arg_cost pr a.
Proof.
  unfold match_arg. destruct pr as [p|sp], a as [t|v| |]; try discriminate; try (destruct sp; discriminate);
    cbn [arg_inst arg_cost].
  - destruct (imatch p t m) as [m1|] eqn:E; intros [= <- <-]. apply (imatch_least p t) in E. destruct p; tauto.
  - destruct (promote p v m) as [m1|] eqn:E; intros [= <- <-]. apply promote_extends in E. destruct p; auto.
  - intros [= <- <-]. split; [apply extends_refl | split; [exact I | destruct p; lia]].
  - (* every scalar pattern but a concrete one is matched by [smatch] at no cost *)
    destruct sp; try (destruct (smatch _ v m) as [m1|] eqn:E; intros [= <- <-]; apply smatch_sound in E; split; [tauto|]; split; [tauto|lia]).
    destruct (sty_eqb v s) eqn:E1; [|destruct (coercible v s)]; intros [= <- <-];
      (split; [apply extends_refl | split; [|lia]]); [left; apply sty_eqb_eq, E1 | right; reflexivity].
  - destruct sp; try discriminate. intros [= <- <-]. split; [apply extends_refl | split; [exact I | lia]].
Qed.

Lemma match_args_sound ps : forall al m adj m' adj',
  match_args ps al (m, adj) = Some (m', adj') ->
  extends m m' /\ Forall2 (arg_inst m') ps al /\ adj' = adj + args_cost ps al.
Proof.
  induction ps as [|pr r IH]; intros [|a al] m adj m' adj'; cbn [match_args args_cost]; try discriminate.
  - intros [= <- <-]. split; [apply extends_refl | split; [constructor | lia]].
  - destruct (match_arg pr a (m, adj)) as [[m1 adj1]|] eqn:E; [|discriminate].
    apply match_arg_sound in E as [X1 [G1 ->]]. intros [X2 [G2 ->]]%IH.
    split; [eapply extends_trans; eauto|]. split; [|lia]. constructor; [eapply arg_inst_mono; eauto | exact G2].
Qed.
