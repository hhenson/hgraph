(* ResolveMatchFacts.v — what the theorems about the matchers of Resolve.v are stated over; before that, the
   induction principles for the four nested types ([sty_ind'] .. [tpat_ind']) and the model's boolean equalities
   read as equalities ([sty_eqb_eq], [tty_eqb_eq]), which ResolveSubstFacts.v and ResolveInheritFacts.v use as well.

   [comp]           : the three components of the resolution map under one index, so that what holds of
       one store ([get], [put], [bind]) is proved once; [bind_ts/sc/sz] are its three instances.
   [sinst/tinst/iinst/oinst m p t] : the pattern p, read under the ONE substitution m,
       accepts t.  They are the matchers with the state threading removed: no map
       is produced, every variable is looked up in the same m.
   [arg_inst], [arg_cost] : the same for one argument position of try_match, and what it adds to the rank.
   That the matchers compute these tests is proved in ResolveCompleteFacts.v. *)
Require Import Base Resolve.

Section ForallOf.
  Context {A : Type} (P : A -> Prop) (f : forall x, P x).
  Fixpoint Forall_of (l : list A) : Forall P l :=
    match l with [] => Forall_nil P | x :: r => Forall_cons x (f x) (Forall_of r) end.
End ForallOf.

Section StyInd.
  Variable P : sty -> Prop.
  Hypothesis HAtom : forall a, P (SAtom a).
  Hypothesis HTuple : forall l, Forall P l -> P (STuple l).
  Hypothesis HList : forall e, P e -> P (SList e).
  Hypothesis HSet : forall e, P e -> P (SSet e).
  Hypothesis HMap : forall k v, P k -> P v -> P (SMap k v).
  Hypothesis HBundle : forall id ps, Forall P ps -> P (SBundle id ps).
  Fixpoint sty_ind' (s : sty) : P s :=
    match s with
    | SAtom a => HAtom a
    | STuple l => HTuple l (Forall_of P sty_ind' l)
    | SList e => HList e (sty_ind' e)
    | SSet e => HSet e (sty_ind' e)
    | SMap k v => HMap k v (sty_ind' k) (sty_ind' v)
    | SBundle id ps => HBundle id ps (Forall_of P sty_ind' ps)
    end.
End StyInd.

Section TtyInd.
  Variable P : tty -> Prop.
  Hypothesis HTs : forall s, P (TTs s).
  Hypothesis HTss : forall s, P (TTss s).
  Hypothesis HTsl : forall e n, P e -> P (TTsl e n).
  Hypothesis HTsd : forall k v, P v -> P (TTsd k v).
  Hypothesis HTsw : forall s p m, P (TTsw s p m).
  Hypothesis HTsb : forall nm fs, Forall (fun ft => P (snd ft)) fs -> P (TTsb nm fs).
  Hypothesis HRef : forall t, P t -> P (TRef t).
  Hypothesis HSignal : P TSignal.
  Fixpoint tty_ind' (t : tty) : P t :=
    match t with
    | TTs s => HTs s
    | TTss s => HTss s
    | TTsl e n => HTsl e n (tty_ind' e)
    | TTsd k v => HTsd k v (tty_ind' v)
    | TTsw s p m => HTsw s p m
    | TTsb nm fs => HTsb nm fs (Forall_of _ (fun ft => tty_ind' (snd ft)) fs)
    | TRef x => HRef x (tty_ind' x)
    | TSignal => HSignal
    end.
End TtyInd.

Section SpatInd.
  Variable P : spat -> Prop.
  Hypothesis HVar : forall v cn, P (PSVar v cn).
  Hypothesis HConc : forall s, P (PSConc s).
  Hypothesis HUnk0 : P PSUnk0.
  Hypothesis HUnk1 : forall c, P c -> P (PSUnk1 c).
  Hypothesis HHom : forall c, P c -> P (PSHom c).
  Hypothesis HFix : forall l, Forall P l -> P (PSFix l).
  Hypothesis HSet : forall c, P c -> P (PSSet c).
  Hypothesis HMap : forall k v, P k -> P v -> P (PSMap k v).
  Fixpoint spat_ind' (p : spat) : P p :=
    match p with
    | PSVar v cn => HVar v cn
    | PSConc s => HConc s
    | PSUnk0 => HUnk0
    | PSUnk1 c => HUnk1 c (spat_ind' c)
    | PSHom c => HHom c (spat_ind' c)
    | PSFix l => HFix l (Forall_of P spat_ind' l)
    | PSSet c => HSet c (spat_ind' c)
    | PSMap k v => HMap k v (spat_ind' k) (spat_ind' v)
    end.
End SpatInd.

Section TpatInd.
  Variable P : tpat -> Prop.
  Hypothesis HVar : forall v cn, P (PVar v cn).
  Hypothesis HConc : forall t, P (PConc t).
  Hypothesis HTs : forall s, P (PTs s).
  Hypothesis HTss : forall s, P (PTss s).
  Hypothesis HTsl : forall sz e, P e -> P (PTsl sz e).
  Hypothesis HTsd : forall k v, P v -> P (PTsd k v).
  Hypothesis HTsw : forall a p m s, P (PTsw a p m s).
  Hypothesis HTsb : forall nd nm fs, Forall (fun fq => P (snd fq)) fs -> P (PTsb nd nm fs).
  Hypothesis HTsbVar : forall v, P (PTsbVar v).
  Hypothesis HRef : forall q, P q -> P (PRef q).
  Hypothesis HSignal : P PSignal.
  Fixpoint tpat_ind' (p : tpat) : P p :=
    match p with
    | PVar v cn => HVar v cn
    | PConc t => HConc t
    | PTs s => HTs s
    | PTss s => HTss s
    | PTsl sz e => HTsl sz e (tpat_ind' e)
    | PTsd k v => HTsd k v (tpat_ind' v)
    | PTsw a p m s => HTsw a p m s
    | PTsb nd nm fs => HTsb nd nm fs (Forall_of _ (fun fq => tpat_ind' (snd fq)) fs)
    | PTsbVar v => HTsbVar v
    | PRef q => HRef q (tpat_ind' q)
    | PSignal => HSignal
    end.
End TpatInd.

Lemma forall2b_refl {A} (f : A -> A -> bool) l : Forall (fun x => f x x = true) l -> forall2b f l l = true.
Proof. induction 1 as [|x r Hx _ IH]; cbn [forall2b]; auto. rewrite Hx, IH. auto. Qed.

Lemma forall2b_eq {A} (f : A -> A -> bool) l :
  Forall (fun x => forall y, f x y = true -> x = y) l -> forall l', forall2b f l l' = true -> l = l'.
Proof.
  induction 1 as [|x r Hx _ IH]; intros [|y r']; cbn [forall2b]; auto; try discriminate.
  intros [H1 H2]%andb_prop. f_equal; auto.
Qed.

Lemma forall2b_impl {A B} (f g : A -> B -> bool) l :
  Forall (fun x => forall y, f x y = true -> g x y = true) l ->
  forall l', forall2b f l l' = true -> forall2b g l l' = true.
Proof.
  induction 1 as [|x r Hx _ IH]; intros [|y r']; cbn [forall2b]; auto.
  intros [H1 H2]%andb_prop. rewrite (Hx y H1), (IH r' H2). auto.
Qed.

Lemma forall2b_map {A B A' B'} (f : A' -> B' -> bool) (g : A -> A') (h : B -> B') l : forall l',
  forall2b f (map g l) (map h l') = forall2b (fun x y => f (g x) (h y)) l l'.
Proof. induction l as [|x r IH]; intros [|y r']; cbn [map forall2b]; auto. rewrite IH. auto. Qed.

Lemma sty_eqb_refl s : sty_eqb s s = true.
Proof.
  induction s as [a | l IH | e IH | e IH | k v IHk IHv | id ps IH] using sty_ind'; cbn [sty_eqb];
    rewrite ?Z.eqb_refl, ?IHk, ?IHv; auto; apply forall2b_refl, IH.
Qed.

Lemma sty_eqb_eq a : forall b, sty_eqb a b = true -> a = b.
Proof.
  induction a as [a | l IH | e IH | e IH | k v IHk IHv | id ps IH] using sty_ind'; intros [b | l' | e' | e' | k' v' | id' ps'];
    cbn [sty_eqb]; try discriminate; intros H; try apply andb_prop in H as [H1 H2]; f_equal; auto; try lia;
    eapply forall2b_eq; eauto.
Qed.

Lemma tty_eqb_refl t : tty_eqb t t = true.
Proof.
  induction t as [s | s | e n IH | k v IH | s p m | nm fs IH | t IH | ] using tty_ind'; cbn [tty_eqb];
    rewrite ?sty_eqb_refl, ?Z.eqb_refl, ?IH; auto.
  apply forall2b_refl. eapply Forall_impl, IH. intros ft H. rewrite Z.eqb_refl, H. auto.
Qed.

Lemma tty_eqb_eq a : forall b, tty_eqb a b = true -> a = b.
Proof.
  induction a as [s | s | e n IH | k v IH | s p m | nm fs IH | t IH | ] using tty_ind';
    intros [s' | s' | e' n' | k' v' | s' p' m' | nm' fs' | t' | ]; cbn [tty_eqb]; try discriminate; auto.
  - intros ->%sty_eqb_eq. reflexivity.
  - intros ->%sty_eqb_eq. reflexivity.
  - intros [H1 ->%IH]%andb_prop. f_equal. lia.
  - intros [->%sty_eqb_eq ->%IH]%andb_prop. reflexivity.
  - intros [[->%sty_eqb_eq H2]%andb_prop H3]%andb_prop. f_equal; lia.
  - intros [H1 H2]%andb_prop. f_equal; [lia|]. eapply forall2b_eq, H2. eapply Forall_impl, IH.
    intros [f x] Hx [g y] [Hf Hy]%andb_prop. cbn [fst snd] in *. f_equal; [lia | auto].
  - intros ->%IH. reflexivity.
Qed.

Lemma tty_equiv_refl t : tty_equiv t t = true.
Proof.
  induction t as [s | s | e n IH | k v IH | s p m | nm fs IH | t IH | ] using tty_ind'; cbn [tty_equiv];
    rewrite ?sty_eqb_refl, ?Z.eqb_refl, ?IH; auto.
  apply forall2b_refl. eapply Forall_impl, IH. intros ft H. rewrite Z.eqb_refl, H. auto.
Qed.

Definition sub {A : Type} (l l' : list (Z * A)) : Prop := forall v x, afind v l = Some x -> afind v l' = Some x.

Definition extends (m m' : rmap) : Prop :=
  sub (r_ts m) (r_ts m') /\ sub (r_sc m) (r_sc m') /\ sub (r_sz m) (r_sz m').

Lemma extends_refl m : extends m m.
Proof. unfold extends, sub; auto. Qed.

Lemma extends_trans a b c : extends a b -> extends b c -> extends a c.
Proof. unfold extends, sub. intros [A1 [A2 A3]] [B1 [B2 B3]]. repeat split; auto. Qed.

Lemma sub_cons {A} (l : list (Z * A)) v x : afind v l = None -> sub l ((v, x) :: l).
Proof.
  intros H k y Hk. cbn [afind]. destruct (v =? k) eqn:E; auto.
  assert (v = k) by lia. subst. congruence.
Qed.

Lemma sub_cons_in {A} (l s : list (Z * A)) v x : sub l s -> afind v s = Some x -> sub ((v, x) :: l) s.
Proof.
  intros H Hv k y. cbn [afind]. destruct (v =? k) eqn:E; auto.
  intros [= <-]. assert (v = k) by lia. subst. auto.
Qed.

Inductive comp : Type -> Type := CTs : comp tty | CSc : comp sty | CSz : comp Z.

Definition get {A} (k : comp A) : rmap -> list (Z * A) :=
  match k with CTs => r_ts | CSc => r_sc | CSz => r_sz end.
Definition put {A} (k : comp A) : rmap -> Z -> A -> rmap :=
  match k with CTs => put_ts | CSc => put_sc | CSz => put_sz end.
Definition ceqb {A} (k : comp A) : A -> A -> bool :=
  match k with CTs => tty_eqb | CSc => sty_eqb | CSz => Z.eqb end.

Lemma ceqb_refl {A} (k : comp A) x : ceqb k x x = true.
Proof. destruct k; [apply tty_eqb_refl | apply sty_eqb_refl | apply Z.eqb_refl]. Qed.

Lemma ceqb_eq {A} (k : comp A) a b : ceqb k a b = true -> a = b.
Proof. destruct k; [apply tty_eqb_eq | apply sty_eqb_eq | apply Z.eqb_eq]. Qed.

Lemma extends_get {A} (k : comp A) m m' : extends m m' -> sub (get k m) (get k m').
Proof. intros [X1 [X2 X3]]. destruct k; assumption. Qed.

Lemma afind_put {A} (k : comp A) m v x : afind v (get k (put k m v x)) = Some x.
Proof. destruct k; cbn; rewrite Z.eqb_refl; auto. Qed.

Lemma extends_put {A} (k : comp A) m v x : afind v (get k m) = None -> extends m (put k m v x).
Proof. intros H. destruct k; (repeat split; try (intros ? ? ?; assumption)); apply sub_cons, H. Qed.

Lemma extends_put_in {A} (k : comp A) m s v x : extends m s -> afind v (get k s) = Some x -> extends (put k m v x) s.
Proof. intros [X1 [X2 X3]] H. destruct k; (repeat split; auto); apply sub_cons_in; auto. Qed.

(* [bind_ts m v t] is [bind CTs m v t] by conversion, and so on *)
Definition bind {A} (k : comp A) (m : rmap) (v : Z) (x : A) : option rmap :=
  match afind v (get k m) with
  | None => Some (put k m v x)
  | Some b => if ceqb k b x then Some m else None
  end.

Lemma bind_extends {A} (k : comp A) m v x m' : bind k m v x = Some m' -> extends m m' /\ afind v (get k m') = Some x.
Proof.
  unfold bind. destruct (afind v (get k m)) as [b|] eqn:E; [destruct (ceqb k b x) eqn:Eb|]; intros [= <-].
  - apply ceqb_eq in Eb as ->. auto using extends_refl.
  - auto using extends_put, afind_put.
Qed.

Lemma bind_rejects {A} (k : comp A) m v x b : afind v (get k m) = Some b -> b <> x -> bind k m v x = None.
Proof. intros E Hne. unfold bind. rewrite E. destruct (ceqb k b x) eqn:Eb; auto. apply ceqb_eq in Eb. contradiction. Qed.

Lemma bind_ts_extends m v t m' : bind_ts m v t = Some m' -> extends m m' /\ afind v (r_ts m') = Some t.
Proof. exact (bind_extends CTs m v t m'). Qed.

Lemma bind_ts_rejects m v t b : afind v (r_ts m) = Some b -> b <> t -> bind_ts m v t = None.
Proof. exact (bind_rejects CTs m v t b). Qed.

Lemma bind_ts_same m v t : afind v (r_ts m) = Some t -> bind_ts m v t = Some m.
Proof. intros E. unfold bind_ts. rewrite E, tty_eqb_refl. auto. Qed.

Lemma bind_sc_extends m v s m' : bind_sc m v s = Some m' -> extends m m' /\ afind v (r_sc m') = Some s.
Proof. exact (bind_extends CSc m v s m'). Qed.

Lemma bind_sc_rejects m v s b : afind v (r_sc m) = Some b -> b <> s -> bind_sc m v s = None.
Proof. exact (bind_rejects CSc m v s b). Qed.

Lemma bind_sz_extends m v n m' : bind_sz m v n = Some m' -> extends m m' /\ afind v (r_sz m') = Some n.
Proof. exact (bind_extends CSz m v n m'). Qed.

Lemma bind_sz_rejects m v n b : afind v (r_sz m) = Some b -> b <> n -> bind_sz m v n = None.
Proof. exact (bind_rejects CSz m v n b). Qed.

Lemma bind_hints_extends names : forall hints m m', bind_hints names hints m = Some m' -> extends m m'.
Proof.
  induction names as [|v r IH]; intros [|h hs] m m'; cbn [bind_hints]; try (intros [= <-]; apply extends_refl).
  destruct (bind_sz m v h) as [m1|] eqn:E; [|discriminate]. intros H.
  eapply extends_trans; [eapply bind_sz_extends, E | eapply IH, H].
Qed.

Fixpoint sinst (m : rmap) (p : spat) (s : sty) {struct p} : bool :=
  match p with
  | PSVar v cn => match afind v (r_sc m) with Some b => sty_eqb b s && allowed_s cn s | None => false end
  | PSConc c => sty_eqb c s
  | PSUnk0 => match s with SList _ | STuple _ => true | _ => false end
  | PSUnk1 c | PSHom c =>
      match s with
      | SList e => sinst m c e
      | STuple l => match hom_elem l with Some e => sinst m c e | None => false end
      | _ => false
      end
  | PSFix ps => match s with STuple l => forall2b (fun q x => sinst m q x) ps l | _ => false end
  | PSSet c => match s with SSet e => sinst m c e | _ => false end
  | PSMap k v => match s with SMap a b => sinst m k a && sinst m v b | _ => false end
  end.

Definition szinst (m : rmap) (sz : szpat) (n : Z) : bool :=
  match sz with
  | SzFix k => (k =? 0) || (k =? n)
  | SzVar v cn => match afind v (r_sz m) with Some b => (b =? n) && allowed_z cn n | None => false end
  end.

Definition fields_inst (g : tpat -> tty -> bool) (fps : list (Z * tpat)) (tfs : list (Z * tty)) : bool :=
  forall2b (fun fq gx => g (snd fq) (snd gx)) fps tfs.

(* generic direction (ts_pattern_match): REF transparent unless the pattern asks for a REF *)
Fixpoint tinst (m : rmap) (p : tpat) (t0 : tty) {struct p} : bool :=
  let t := if is_pref p then t0 else strip_refs t0 in
  match p with
  | PVar v cn => match afind v (r_ts m) with Some b => tty_eqb b t && allowed_t cn t | None => false end
  | PConc c => tty_equiv c t
  | PTs sp => match t with TTs s => sinst m sp s | _ => false end
  | PTss sp => match t with TTss s => sinst m sp s | _ => false end
  | PTsl sz e => match t with TTsl te n => szinst m sz n && tinst m e te | _ => false end
  | PTsd k v => match t with TTsd tk tv => sinst m k tk && tinst m v tv | _ => false end
  | PTsw any per mn sp =>
      match t with TTsw s tp tm => sinst m sp s && (any || ((per =? tp) && (mn =? tm))) | _ => false end
  | PTsb named name fps =>
      match t with
      | TTsb tname tfs =>
          name_ok named name tname && fnames_eqb fps tfs &&
          forall2b (fun fq gx => tinst m (snd fq) (snd gx)) fps tfs
      | _ => false
      end
  | PTsbVar v =>
      match t with
      | TTsb _ _ => match afind v (r_ts m) with Some b => tty_equiv b t | None => false end
      | _ => false
      end
  | PRef q => match t with TRef u => tinst m q u | _ => false end
  | PSignal => match t with TSignal => true | _ => false end
  end.

(* input_scalar_pattern_match: a scalar variable bound to a named bundle accepts any descendant bundle *)
Definition bound_bundle_accepts (m : rmap) (sp : spat) (s : sty) : bool :=
  match sp with
  | PSVar v _ => match afind v (r_sc m) with Some b => bundle_is_a s b | None => false end
  | _ => false
  end.

(* input direction (input_ts_pattern_match): SIGNAL accepts anything, REF adapts at the consumer,
   concrete leaves compare dereferenced *)
Fixpoint iinst (m : rmap) (p : tpat) (t0 : tty) {struct p} : bool :=
  let t := strip_refs t0 in
  match p with
  | PSignal => true
  | PRef q => iinst m q (match t0 with TRef u => u | _ => t0 end)
  | PConc c => input_accepts c t
  | PTsl sz e => match t with TTsl te n => szinst m sz n && iinst m e te | _ => false end
  | PTsd k v => match t with TTsd tk tv => sinst m k tk && iinst m v tv | _ => false end
  | PTsb named name fps =>
      match t with
      | TTsb tname tfs =>
          name_ok named name tname && fnames_eqb fps tfs &&
          forall2b (fun fq gx => iinst m (snd fq) (snd gx)) fps tfs
      | _ => false
      end
  | PTsbVar v =>
      match t with
      | TTsb _ _ => match afind v (r_ts m) with Some b => tty_equiv b t | None => false end
      | _ => false
      end
  | PTs sp => match t with TTs s => sinst m sp s || bound_bundle_accepts m sp s | _ => false end
  | PVar _ _ | PTss _ | PTsw _ _ _ _ => tinst m p t
  end.

(* output direction (output_ts_pattern_match): a top-level variable takes a requested REF verbatim *)
Definition oinst (m : rmap) (p : tpat) (t : tty) : bool :=
  match p with
  | PVar v cn =>
      if is_ref t then
        match afind v (r_ts m) with Some b => tty_equiv (deref b) (deref t) | None => false end
      else tinst m p t
  | _ => tinst m p t
  end.

Definition arg_inst (m : rmap) (pr : param) (a : arg) : Prop :=
  match pr, a with
  | PIn _, ANull => True
  | PIn p, ATs t => iinst m p t = true
  | PIn _, ASc _ => True                       (* promoted constant: see promote_extends *)
  | PScal (PSVar _ _), AAbsent => True
  | PScal (PSConc c), ASc v => v = c \/ coercible v c = true
  | PScal sp, ASc v => sinst m sp v = true
  | _, _ => False
  end.

(* the inheritance distance for a concrete TS[Base] leaf taking a TS[Derived] (input_adaptation_rank),
   1 for a plain value promoted to a const source, 1 for a coerced scalar *)
Definition arg_cost (pr : param) (a : arg) : Z :=
  match pr, a with
  | PIn (PConc c), ATs t => adaptation_rank_c c t
  | PIn _, ASc _ => 1
  | PScal (PSConc c), ASc v => if sty_eqb v c then 0 else 1
  | _, _ => 0
  end.

Fixpoint args_cost (ps : list param) (al : list arg) : Z :=
  match ps, al with
  | pr :: ps', a :: al' => arg_cost pr a + args_cost ps' al'
  | _, _ => 0
  end.
