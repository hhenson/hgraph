(* DeltaFacts.v — lemmas about the C20 model (Delta.v); the theorems of Props/C20.v follow from them.

   [recreates_all]: for every shape, [good] pre-state and [tick] of it, applying the captured delta
   to the pre-state re-creates the tick (committed value, delta captured again, marks; the tick is
   observable).  By induction on the shape; sets element by element (three bits each; [set_inv_run]
   is their invariant under any script of set calls), dictionaries slot by slot
   through [get] on key-sorted association lists.
   Then recording a history of such ticks and replaying it: the cycle-aligned buffer
   ([replay_record_gen]), the sparse (time, delta) list ([sparse_replay_gen]), RECOVER ([recover_gen]).
   These speak of [rec_hist], [srec_hist], [replay_cursor], [sreplay_run], [last_state_from], defined
   here: the first two are Delta.dense_of and Delta.sparse_of under another name, the loops are what
   Delta.run_replay and Delta.run_sreplay do to the output (no clock, end of run, printing or second
   recorder); no lemma ties them to those.
   Last: the insert_key rule before the repair as a model of its own ([dict_at_old] .. [run_ops_old])
   with the witness that refutes the round trip under it, and concrete histories that satisfy [chain].
   The other witnesses that the side conditions of [tick] are necessary are in Props/C20.v; all are
   replayed on the implementation (docs/notes-delta.md). *)
Require Import Base DeltaLib DeltaLibFacts Delta.

Lemma Exists_existsb {A} (p : A -> bool) l : Exists (fun x => p x = true) l -> existsb p l = true.
Proof. intros H. apply existsb_exists. apply Exists_exists in H. exact H. Qed.

Lemma Forall2_len {A B} (R : A -> B -> Prop) l l' : Forall2 R l l' -> length l = length l'.
Proof. induction 1; cbn; congruence. Qed.

Lemma set_nth_app {A} (pfx : list A) x y r : set_nth (length pfx) x (pfx ++ y :: r) = pfx ++ x :: r.
Proof. unfold set_nth. induction pfx as [|a p IH]; cbn; [reflexivity|]. f_equal. exact IH. Qed.

Definition pick {A B} (p : A -> bool) (g : A -> B) (a : option A) : option B :=
  match a with Some x => if p x then Some (g x) else None | None => None end.

Section Assoc.
  Context {A : Type}.
  Implicit Types l : list (Z * A).

  Lemma ksorted_nil : ksorted (@nil (Z * A)).
  Proof. exact I. Qed.

  Lemma get_head_none x v l : ksorted ((x, v) :: l) -> get x l = None.
  Proof. intros H. destruct (ksorted_tail _ _ _ H) as [_ Hlb]. apply get_none_lb with (x := x); [exact Hlb|lia]. Qed.

  Lemma In_keys_get k l : ksorted l -> In k (keys l) -> exists v, get k l = Some v.
  Proof.
    intros Hs Hin. apply mem_In in Hin. rewrite <- has_mem in Hin. unfold has in Hin.
    destruct (get k l) as [v|]; [eauto|discriminate].
  Qed.

  Lemma Forall_get (P : Z * A -> Prop) l k v : Forall P l -> get k l = Some v -> P (k, v).
  Proof. intros HF Hg. apply get_In in Hg. rewrite Forall_forall in HF. apply HF, Hg. Qed.

  Definition fm {B} (p : A -> bool) (g : A -> B) l : list (Z * B) :=
    map (fun kv => (fst kv, g (snd kv))) (filter (fun kv => p (snd kv)) l).

  Lemma mem_keys_fm {B} p (g : A -> B) l y : mem y (keys (fm p g l)) = true -> mem y (keys l) = true.
  Proof.
    unfold fm, keys. induction l as [|[k v] r IH]; cbn [filter snd]; [auto|].
    destruct (p v); cbn [map fst mem]; rewrite ?orb_true_iff; tauto.
  Qed.

  Lemma ksorted_fm {B} p (g : A -> B) l : ksorted l -> ksorted (fm p g l).
  Proof.
    induction l as [|[k v] r IH]; intros H; [exact I|].
    destruct (ksorted_tail _ _ _ H) as [Hr Hlb]. unfold fm; cbn [filter snd].
    destruct (p v); [|exact (IH Hr)]. apply sorted_cons; [exact (IH Hr)|].
    intros y Hy. exact (Hlb y (mem_keys_fm _ _ _ _ Hy)).
  Qed.

  Lemma get_fm {B} p (g : A -> B) l k : ksorted l -> get k (fm p g l) = pick p g (get k l).
  Proof.
    induction l as [|[x v] r IH]; intros H; [reflexivity|].
    destruct (ksorted_tail _ _ _ H) as [Hr Hlb]. specialize (IH Hr).
    unfold fm in *; cbn [filter snd get].
    destruct (Z.eqb_spec k x) as [->|Hk]; cbn [pick].
    - rewrite (get_none_lb x r x Hlb) in IH by lia.
      destruct (p v); cbn [map get fst snd]; [rewrite Z.eqb_refl; reflexivity|exact IH].
    - destruct (p v); cbn [map get fst]; [destruct (Z.eqb_spec k x); [contradiction|]|]; exact IH.
  Qed.

  Lemma mem_keys_fm_get {B} p (g : A -> B) l k : ksorted l ->
    mem k (keys (fm p g l)) = match get k l with Some v => p v | None => false end.
  Proof.
    intros H. rewrite <- has_mem. unfold has. rewrite (get_fm _ _ _ _ H).
    destruct (get k l) as [v|]; [cbn; destruct (p v)|]; reflexivity.
  Qed.

  Lemma In_fm {B} p (g : A -> B) l k v : In (k, v) l -> p v = true -> In (k, g v) (fm p g l).
  Proof. intros Hin Hp. apply in_map_iff. exists (k, v). split; [reflexivity|apply filter_In; auto]. Qed.
End Assoc.

Lemma fm_ext {A A' B} (p : A -> bool) (g : A -> B) (p' : A' -> bool) (g' : A' -> B) l l' :
  ksorted l -> ksorted l' -> (forall k, pick p g (get k l) = pick p' g' (get k l')) -> fm p g l = fm p' g' l'.
Proof.
  intros H H' He. apply ksorted_ext; [apply ksorted_fm, H|apply ksorted_fm, H'|].
  intros k. rewrite !get_fm by assumption. apply He.
Qed.

Lemma shape_ind' (P : shape -> Prop) :
  P TS -> P SIGNAL -> (forall p m, P (TSW p m)) -> P TSS ->
  (forall e, P e -> P (TSD e)) -> (forall n e, P e -> P (TSL n e)) ->
  (forall fs, Forall P fs -> P (TSB fs)) -> forall sh, P sh.
Proof.
  intros Hts Hsig Hw Hss Hd Hl Hb.
  fix IH 1. intros [| |p m| |e|n e|fs].
  - exact Hts.
  - exact Hsig.
  - apply Hw.
  - exact Hss.
  - apply Hd, IH.
  - apply Hl, IH.
  - apply Hb. induction fs as [|f r IHr]; constructor; [apply IH|exact IHr].
Qed.

Definition clean_flags : sflags := mkF true false false false true.

(* [good sh n]: a committed state (between cycles) all of whose dictionary keys carry a valid,
   published child — what every replayable history maintains.  A window's [1 <= p] is part of it,
   so the round trip needs no [wf_shape]: that enters only where a [fresh] state must be good. *)
Fixpoint good (sh : shape) (n : node) : Prop :=
  match sh, n with
  | TS, NLeaf m _ | SIGNAL, NLeaf m _ => m = false
  | TSW p _, NWin m _ => m = false /\ (1 <= p)%nat
  | TSS, NSet m _ el ad rm => m = false /\ sorted el /\ ad = [] /\ rm = []
  | TSD e, NDict m _ items =>
      m = false /\ ksorted items /\
      Forall (fun kv => fst (snd kv) = clean_flags /\ nvalid (snd (snd kv)) = true /\ good e (snd (snd kv))) items
  | TSL n e, NIdx m _ kids => m = false /\ length kids = n /\ Forall (good e) kids
  | TSB fs, NIdx m _ kids =>
      m = false /\
      (fix go (fs : list shape) (kids : list node) : Prop :=
         match fs, kids with
         | f :: fs', c :: kids' => good f c /\ go fs' kids'
         | [], [] => True
         | _, _ => False
         end) fs kids
  | _, _ => False
  end.

Definition slot_tick (tk : node -> node -> Prop) (fr : node) (o0 : option (sflags * node)) (f : sflags) (c : node) : Prop :=
  match o0 with
  | Some (_, c0) =>
      if f_live f then
        f_removed f = false /\ f_published f = true /\ (if f_modified f then tk c0 c else c = c0)
      else f_removed f = true
  | None =>
      if f_live f then f_removed f = false /\ f_modified f = true /\ f_published f = true /\ tk fr c
      else f_removed f = false
  end.

(* [tick sh pre live]: [live] is [pre] after one cycle of mutations, its delta surface
   (added/removed elements, removed keys, modified slots, modified flags) tells the truth about
   the change, and every ticking collection node either changed or became valid (no ineffective
   empty tick), and no bundle leaves a never-ticked set/dict field unset beside a ticking one *)
Fixpoint tick (sh : shape) (pre live : node) : Prop :=
  match sh, pre, live with
  | TS, NLeaf _ _, NLeaf m v => m = true /\ exists z, v = Some z
  | SIGNAL, NLeaf _ _, NLeaf m v => m = true /\ v = Some 1
  | TSW p _, NWin _ v0, NWin m v1 => m = true /\ exists z, v1 = lastn p (v0 ++ [z])
  | TSS, NSet _ v0 el0 _ _, NSet m v el ad rm =>
      m = true /\ v = true /\ sorted ad /\ sorted rm /\
      Forall (fun k => mem k el0 = false) ad /\
      Forall (fun k => mem k el0 = true) rm /\
      el = fold_left (fun s k => ins k s) ad (fold_left (fun s k => del k s) rm el0) /\
      (ad <> [] \/ rm <> [] \/ v0 = false)
  | TSD e, NDict _ v0 items0, NDict m v items =>
      m = true /\ v = true /\ ksorted items /\
      Forall (fun kv => slot_tick (tick e) (fresh e) (get (fst kv) items0) (fst (snd kv)) (snd (snd kv))) items /\
      Forall (fun kv => has (fst kv) items = true) items0 /\
      (Exists (fun kv => f_removed (fst (snd kv)) = true \/ (f_live (fst (snd kv)) = true /\ f_modified (fst (snd kv)) = true)) items
       \/ v0 = false)
  | TSL n e, NIdx _ _ kids0, NIdx m v kids =>
      m = true /\ v = true /\
      Forall2 (fun c0 c => (nmod c = true /\ tick e c0 c) \/ c = c0) kids0 kids /\
      Exists (fun c => nmod c = true) kids
  | TSB fs, NIdx _ _ kids0, NIdx m v kids =>
      m = true /\ v = true /\
      (fix go (fs : list shape) (kids0 kids : list node) : Prop :=
         match fs, kids0, kids with
         | f :: fs', c0 :: k0', c :: k' =>
             ((nmod c = true /\ tick f c0 c) \/ (c = c0 /\ has_effect f c0 (field_default f) = false)) /\ go fs' k0' k'
         | [], [], [] => True
         | _, _, _ => False
         end) fs kids0 kids /\
      Exists (fun c => nmod c = true) kids
  | _, _, _ => False
  end.

Definition recreates (sh : shape) (pre live : node) : Prop :=
  let out := apply sh pre (capture sh live) in
  nmod out = true /\ nvalid out = true /\ nvalid live = true /\
  observable sh live (capture sh live) = true /\
  commit sh out = commit sh live /\
  capture sh out = capture sh live /\
  good sh (commit sh live).

Definition Recreates (f : shape) : Prop := forall pre live, good f pre -> tick f pre live -> recreates f pre live.

Fixpoint wf_shape (sh : shape) : Prop :=
  match sh with
  | TSW p _ => (1 <= p)%nat
  | TSD e => wf_shape e
  | TSL _ e => wf_shape e
  | TSB fs => (fix go (fs : list shape) : Prop := match fs with [] => True | f :: r => wf_shape f /\ go r end) fs
  | _ => True
  end.

Lemma good_nmod sh n : good sh n -> nmod n = false.
Proof. destruct sh, n; cbn [good nmod]; tauto. Qed.

Lemma tick_nmod sh pre live : tick sh pre live -> nmod live = true.
Proof. destruct sh, pre, live; cbn [tick nmod]; tauto. Qed.

(* the inner fixpoint of [good] at TSB under a name (convertible; [tick_tsb], [good_slot] likewise
   name pieces of [tick] and [good] so that lemmas can be stated over them) *)
Definition good_tsb := (fix go (fs : list shape) (kids : list node) : Prop :=
         match fs, kids with
         | f :: fs', c :: kids' => good f c /\ go fs' kids'
         | [], [] => True
         | _, _ => False
         end).

Lemma good_tsb_unfold fs m v kids : good (TSB fs) (NIdx m v kids) = (m = false /\ good_tsb fs kids).
Proof. reflexivity. Qed.

Lemma nvalid_commit sh n : nvalid (commit sh n) = nvalid n.
Proof. destruct sh, n; reflexivity. Qed.

Lemma good_fresh : forall sh, wf_shape sh -> good sh (fresh sh).
Proof.
  induction sh as [| |p m| |e IH|n e IH|fs IH] using shape_ind'; intros Hwf; cbn [good fresh].
  - reflexivity.
  - reflexivity.
  - split; [reflexivity|exact Hwf].
  - repeat split; exact I.
  - repeat split; try exact I; constructor.
  - repeat split; [apply repeat_length|]. apply Forall_forall. intros x Hx. apply repeat_spec in Hx. subst x. apply IH, Hwf.
  - split; [reflexivity|]. induction IH as [|f r Hf _ IHr]; [exact I|]. cbn. split; [apply Hf, Hwf|apply IHr, Hwf].
Qed.

Lemma commit_good : forall sh n, good sh n -> commit sh n = n.
Proof.
  induction sh as [| |p m| |e IH|n e IH|fs IH] using shape_ind'; intros nd Hg; destruct nd; cbn [good] in Hg; try contradiction; cbn [commit].
  - subst; reflexivity.
  - subst; reflexivity.
  - destruct Hg as [-> _]; reflexivity.
  - destruct Hg as (-> & _ & -> & ->); reflexivity.
  - destruct Hg as (-> & _ & HF). f_equal.
    induction HF as [|[k [f c]] r (Hf & _ & Hgc) _ IHr]; [reflexivity|]. cbn [fst snd] in Hf, Hgc. subst f.
    cbn [filter slot_live fst snd clean_flags f_live map]. rewrite (IH _ Hgc), IHr. reflexivity.
  - destruct Hg as (-> & _ & HF). f_equal. induction HF; cbn [map]; f_equal; auto.
  - destruct Hg as (-> & HG). f_equal. revert kids HG.
    induction IH as [|f r Hf _ IHr]; intros [|c kids] HG; try contradiction; [reflexivity|].
    cbn [zipw]. f_equal; [apply Hf, HG|apply IHr, HG].
Qed.

Lemma apply_no_effect sh out d : has_effect sh out d = false -> apply sh out d = out.
Proof. intros H. destruct sh; cbn [apply]; rewrite H; reflexivity. Qed.

Lemma lastn_length k l : (length (lastn k l) <= length l)%nat.
Proof.
  induction l as [|x r IH]; cbn [lastn length]; [destruct (0 <=? k)%nat; cbn; lia|].
  destruct (S (length r) <=? k)%nat; cbn [length]; lia.
Qed.

Lemma last_opt_app l z : last_opt (l ++ [z]) = Some z.
Proof.
  induction l as [|x r IH]; [reflexivity|]. cbn [app last_opt].
  destruct (r ++ [z]) eqn:E; [destruct r; discriminate|]. exact IH.
Qed.

Lemma last_lastn k l z : (1 <= k)%nat -> last_opt (lastn k (l ++ [z])) = Some z.
Proof.
  intros Hk. induction l as [|x r IH]; cbn [app lastn]; [destruct k; [lia|reflexivity]|].
  destruct (length (x :: r ++ [z]) <=? k)%nat; [exact (last_opt_app (x :: r) z)|exact IH].
Qed.

Lemma recreates_tsw p mn : Recreates (TSW p mn).
Proof.
  intros pre live. destruct pre as [|m0 v0| | |]; try contradiction. destruct live as [|m v| | |]; try contradiction.
  intros [-> Hp] [-> [z ->]]. unfold recreates. pose proof (last_lastn p v0 z Hp) as Hlast.
  cbn [capture]. rewrite Hlast. cbn [apply has_effect win_push nmod nvalid commit capture observable has_value andb].
  rewrite Hlast. destruct (lastn p (v0 ++ [z])); [discriminate Hlast|]. repeat split. exact Hp.
Qed.

Lemma fold_ins_mem l acc k : mem k (fold_left (fun s x => ins x s) l acc) = mem k l || mem k acc.
Proof.
  revert acc; induction l as [|x r IH]; intros acc; cbn [fold_left mem]; [reflexivity|].
  rewrite IH, mem_ins. destruct (k =? x), (mem k r), (mem k acc); reflexivity.
Qed.

Lemma fold_ins_sorted l acc : sorted acc -> sorted (fold_left (fun s x => ins x s) l acc).
Proof. apply fold_left_ind. intros a b _. apply sorted_ins. Qed.

Lemma fold_del_sorted l acc : sorted acc -> sorted (fold_left (fun s x => del x s) l acc).
Proof. apply fold_left_ind. intros a b _. apply sorted_del. Qed.

Lemma fold_del_mem l acc k : sorted acc -> mem k (fold_left (fun s x => del x s) l acc) = negb (mem k l) && mem k acc.
Proof.
  revert acc; induction l as [|x r IH]; intros acc H; cbn [fold_left mem]; [reflexivity|].
  rewrite IH by (apply sorted_del; exact H). rewrite mem_del by exact H.
  destruct (k =? x), (mem k r), (mem k acc); reflexivity.
Qed.

(* A set node is determined by three bits per element: in the set, added this cycle, removed this
   cycle.  add and remove change the bits of their own element only, so what a script of them does
   is a matter of boolean case analysis. *)
Definition bits (n : node) (k : Z) : bool * bool * bool :=
  match n with NSet _ _ el ad rm => (mem k el, mem k ad, mem k rm) | _ => (false, false, false) end.

Definition set_node (n : node) : Prop :=
  match n with NSet _ _ el ad rm => sorted el /\ sorted ad /\ sorted rm | _ => False end.

Definition add_bits (b : bool * bool * bool) : bool * bool * bool :=
  let '(e, a, r) := b in if e then b else if r then (true, a, false) else (true, true, r).
Definition remove_bits (b : bool * bool * bool) : bool * bool * bool :=
  let '(e, a, r) := b in if e then if a then (false, false, r) else (false, a, true) else b.

Definition acts_on_bits (op : Z -> node -> node) (fb : bool * bool * bool -> bool * bool * bool) : Prop :=
  forall x n, set_node n ->
    set_node (op x n) /\ nmod (op x n) = true /\ nvalid (op x n) = true /\
    forall k, bits (op x n) k = if k =? x then fb (bits n k) else bits n k.

Lemma set_add_bits : acts_on_bits set_add add_bits.
Proof.
  intros x [| |m v el ad rm| |]; try contradiction. intros (He & Ha & Hr). unfold set_add.
  destruct (mem x el) eqn:E1; [|destruct (mem x rm) eqn:E2]; cbn [set_node nmod nvalid bits];
    (repeat split; auto using sorted_ins, sorted_del);
    intros k; rewrite ?mem_ins, ?mem_del by assumption;
    destruct (Z.eqb_spec k x) as [->|]; rewrite ?E1, ?E2; reflexivity.
Qed.

Lemma set_remove_bits : acts_on_bits set_remove remove_bits.
Proof.
  intros x [| |m v el ad rm| |]; try contradiction. intros (He & Ha & Hr). unfold set_remove.
  destruct (mem x el) eqn:E1; [destruct (mem x ad) eqn:E2|]; cbn [set_node nmod nvalid bits];
    (repeat split; auto using sorted_ins, sorted_del);
    intros k; rewrite ?mem_ins, ?mem_del by assumption;
    destruct (Z.eqb_spec k x) as [->|]; rewrite ?E1, ?E2; reflexivity.
Qed.

Lemma fold_bits op fb : acts_on_bits op fb -> (forall b, fb (fb b) = fb b) ->
  forall l n, set_node n ->
    set_node (fold_left (fun s x => op x s) l n) /\
    forall k, bits (fold_left (fun s x => op x s) l n) k = if mem k l then fb (bits n k) else bits n k.
Proof.
  intros Hop Hfb. induction l as [|x l IH]; intros n Hn; cbn [fold_left mem]; [auto|].
  destruct (Hop x n Hn) as (Hn' & _ & _ & Hb). destruct (IH _ Hn') as [Hs Hk]. split; [exact Hs|].
  intros k. rewrite Hk, Hb. destruct (k =? x); cbn [orb]; [rewrite Hfb; destruct (mem k l)|]; reflexivity.
Qed.

Lemma set_node_ext n n' : set_node n -> set_node n' -> nmod n = nmod n' -> nvalid n = nvalid n' ->
  (forall k, bits n k = bits n' k) -> n = n'.
Proof.
  destruct n as [| |m v el ad rm| |], n' as [| |m' v' el' ad' rm'| |]; try contradiction.
  cbn [set_node nmod nvalid bits]. intros (He & Ha & Hr) (He' & Ha' & Hr') -> -> Hb.
  f_equal; apply sorted_ext; try assumption; intros k; specialize (Hb k); congruence.
Qed.

Lemma add_bits_idem b : add_bits (add_bits b) = add_bits b.
Proof. destruct b as [[[] a] []]; reflexivity. Qed.
Lemma remove_bits_idem b : remove_bits (remove_bits b) = remove_bits b.
Proof. destruct b as [[[] []] r]; reflexivity. Qed.

Lemma recreates_tss : Recreates TSS.
Proof.
  intros pre live. destruct pre as [| |m0 v0 el0 ad0 rm0| |]; try contradiction.
  destruct live as [| |m v el ad rm| |]; try contradiction.
  intros (-> & Hel0 & -> & ->) (-> & -> & Had & Hrm & Hadout & Hrmin & -> & Heff).
  set (el := fold_left (fun s k => ins k s) ad (fold_left (fun s k => del k s) rm el0)).
  assert (Hel : sorted el) by apply fold_ins_sorted, fold_del_sorted, Hel0.
  assert (Hout : apply TSS (NSet false v0 el0 [] []) (DSet ad rm) = NSet true true el ad rm).
  { cbn [apply].
    assert (Heffb : has_effect TSS (NSet false v0 el0 [] []) (DSet ad rm) = true)
      by (cbn; destruct ad, rm, v0; try reflexivity; destruct Heff as [H|[H|H]]; congruence).
    rewrite Heffb.
    destruct (fold_bits _ _ set_remove_bits remove_bits_idem rm (NSet false v0 el0 [] [])) as [N1 B1]; [repeat split; auto|].
    destruct (fold_bits _ _ set_add_bits add_bits_idem ad _ N1) as [N2 B2].
    destruct (fold_left (fun s x => set_add x s) ad _) as [| |m2 v2 el2 ad2 rm2| |]; try contradiction.
    cbn [set_touch]. apply set_node_ext; [exact N2|repeat split; assumption|reflexivity|reflexivity|].
    intros k. change (bits (NSet true true el2 ad2 rm2) k) with (bits (NSet m2 v2 el2 ad2 rm2) k).
    rewrite B2, B1. unfold el. cbn [bits mem]. rewrite fold_ins_mem, fold_del_mem by exact Hel0.
    rewrite Forall_forall in Hadout, Hrmin. specialize (Hadout k). specialize (Hrmin k). rewrite <- mem_In in Hadout, Hrmin.
    destruct (mem k ad), (mem k rm), (mem k el0); try reflexivity;
      try discriminate (Hadout eq_refl); discriminate (Hrmin eq_refl). }
  unfold recreates. cbn [capture]. rewrite Hout. cbn. repeat split; auto.
Qed.

(* the invariant of a set's slot storage during a cycle; [e0]: the element was in the set before the tick *)
Definition bits_inv (e0 : bool) (b : bool * bool * bool) : Prop :=
  let '(e, a, r) := b in (a = true -> e0 = false) /\ (r = true -> e0 = true) /\ e = e0 && negb r || a.
Definition set_inv (el0 : list Z) (n : node) : Prop := set_node n /\ forall k, bits_inv (mem k el0) (bits n k).

Lemma set_inv_acts el0 op fb : acts_on_bits op fb -> (forall e0 b, bits_inv e0 b -> bits_inv e0 (fb b)) ->
  forall x n, set_inv el0 n -> set_inv el0 (op x n) /\ nmod (op x n) = true /\ nvalid (op x n) = true.
Proof.
  intros Hop Hfb x n [Hn Hi]. destruct (Hop x n Hn) as (Hn' & Hm & Hv & Hb). repeat split; auto.
  intros k. rewrite Hb. destruct (k =? x); auto.
Qed.

Lemma add_bits_inv e0 b : bits_inv e0 b -> bits_inv e0 (add_bits b).
Proof. destruct b as [[[] []] []], e0; cbn; intuition congruence. Qed.
Lemma remove_bits_inv e0 b : bits_inv e0 b -> bits_inv e0 (remove_bits b).
Proof. destruct b as [[[] []] []], e0; cbn; intuition congruence. Qed.

Lemma set_inv_touch el0 n : set_inv el0 n ->
  set_inv el0 (set_touch n) /\ nmod (set_touch n) = true /\ nvalid (set_touch n) = true.
Proof. destruct n; intros [Hn Hi]; try contradiction. split; [exact (conj Hn Hi)|split; reflexivity]. Qed.

Lemma set_inv_op el0 c a n : set_inv el0 n ->
  set_inv el0 (leaf_op TSS c a n) /\ nmod (leaf_op TSS c a n) = true /\ nvalid (leaf_op TSS c a n) = true.
Proof.
  intros Hn. cbn [leaf_op].
  destruct (c =? 3); [exact (set_inv_acts _ _ _ set_add_bits add_bits_inv a n Hn)|].
  destruct (c =? 4); [exact (set_inv_acts _ _ _ set_remove_bits remove_bits_inv a n Hn)|].
  destruct (c =? 5); [exact (set_inv_touch _ _ Hn)|].
  destruct n as [| |m v el ad rm| |]; try contradiction (proj1 Hn). apply set_inv_touch.
  apply fold_left_ind; [|exact Hn]. intros n x _ Hn'. apply (set_inv_acts _ _ _ set_remove_bits remove_bits_inv x n Hn').
Qed.

Definition set_script := list (Z * Z).    (* (code, arg): 3 add, 4 remove, 5 touch, otherwise clear *)
Definition run_set (ops : set_script) (n : node) : node :=
  fold_left (fun s o => leaf_op TSS (fst o) (snd o) s) ops n.

Lemma set_inv_run el0 ops : forall n, set_inv el0 n ->
  set_inv el0 (run_set ops n) /\ (ops <> [] -> nmod (run_set ops n) = true /\ nvalid (run_set ops n) = true).
Proof.
  induction ops as [|[c a] r IH]; intros n Hn; [split; [exact Hn|congruence]|].
  destruct (set_inv_op el0 c a n Hn) as (Hn' & Hm & Hv). destruct (IH _ Hn') as [Hi Hmk].
  split; [exact Hi|]. intros _. destruct r; [split; assumption|apply Hmk; discriminate].
Qed.

Definition tick_tsb := (fix go (fs : list shape) (kids0 kids : list node) : Prop :=
         match fs, kids0, kids with
         | f :: fs', c0 :: k0', c :: k' =>
             ((nmod c = true /\ tick f c0 c) \/ (c = c0 /\ has_effect f c0 (field_default f) = false)) /\ go fs' k0' k'
         | [], [], [] => True
         | _, _, _ => False
         end).

Definition cap_field (f : shape) (c : node) : delta := if nmod c && nvalid c then capture f c else field_default f.

Lemma recreates_has_effect f c0 c : good f c0 -> recreates f c0 c -> has_effect f c0 (capture f c) = true.
Proof.
  intros Hg (Hm & _). destruct (has_effect f c0 (capture f c)) eqn:E; [reflexivity|].
  rewrite apply_no_effect in Hm by exact E. rewrite (good_nmod _ _ Hg) in Hm. discriminate.
Qed.

(* field by field; the three [existsb] equations are the has_effect gate, the parent's mark
   ([idx_set_kids]) and [observable] of a bundle: each holds exactly when some field ticked *)
Lemma tsb_pointwise fs : Forall Recreates fs -> forall kids0 kids,
  good_tsb fs kids0 -> tick_tsb fs kids0 kids ->
  let ds := zipw cap_field fs kids in
  let outk := zipw3 apply fs kids0 ds in
  zipw commit fs outk = zipw commit fs kids /\
  zipw cap_field fs outk = ds /\
  existsb (fun b => b) (zipw3 has_effect fs kids0 ds) = existsb nmod kids /\
  existsb (fun b => b) (zipw newly kids0 outk) = existsb nmod kids /\
  existsb (fun b => b) (zipw3 (fun f c cd => nmod c && observable f c cd) fs kids ds) = existsb nmod kids /\
  good_tsb fs (zipw commit fs kids).
Proof.
  intros IHs. induction IHs as [|f r Hf Hr IH]; intros kids0 kids Hg Ht;
    destruct kids0 as [|c0 k0]; destruct kids as [|c k]; cbn in Hg, Ht; try contradiction.
  - cbn. repeat split; reflexivity.
  - destruct Hg as [Hgc Hgr]. destruct Ht as [Hc Htr].
    specialize (IH k0 k Hgr Htr). cbn zeta in IH. destruct IH as (I1 & I2 & I3 & I4 & I5 & I6).
    cbn [zipw zipw3 existsb]. cbn zeta.
    pose proof (good_nmod _ _ Hgc) as Hm0.
    destruct Hc as [[Hm Htk]|[-> Hne]].
    + pose proof (Hf c0 c Hgc Htk) as HR. pose proof (recreates_has_effect _ _ _ Hgc HR) as He.
      destruct HR as (Rm & Rv & Rlv & Ro & Rc & Rcap & Rg).
      assert (Hcf : cap_field f c = capture f c) by (unfold cap_field; rewrite Hm, Rlv; reflexivity).
      rewrite !Hcf.
      assert (Hcf2 : cap_field f (apply f c0 (capture f c)) = capture f c)
        by (unfold cap_field; rewrite Rm, Rv; exact Rcap).
      rewrite Hcf2, He, Rc, Ro, I1, I2. unfold newly at 1. rewrite Hm0, Rm, Hm. cbn [negb andb orb].
      repeat split; try reflexivity; assumption.
    + assert (Hcf : cap_field f c0 = field_default f) by (unfold cap_field; rewrite Hm0; reflexivity).
      rewrite !Hcf. rewrite (apply_no_effect _ _ _ Hne), Hne, Hcf.
      rewrite I1, I2, I3. unfold newly at 1. rewrite Hm0. cbn [negb andb orb].
      rewrite I4, I5. repeat split; try reflexivity; [rewrite (commit_good _ _ Hgc); exact Hgc|exact I6].
Qed.

Lemma recreates_tsb fs : Forall Recreates fs -> Recreates (TSB fs).
Proof.
  intros IHs pre live Hg Ht.
  destruct pre as [| | | |m0 v0 kids0]; try contradiction. destruct live as [| | | |m v kids]; try contradiction.
  destruct Hg as [-> Hg]. destruct Ht as (-> & -> & Ht & Hex).
  destruct (tsb_pointwise fs IHs kids0 kids Hg Ht) as (P1 & P2 & P3 & P4 & P5 & P6).
  apply Exists_existsb in Hex.
  unfold recreates. change (capture (TSB fs) (NIdx true true kids)) with (DBundle (zipw cap_field fs kids)).
  cbn [apply has_effect]. rewrite P3, Hex.
  unfold idx_set_kids. rewrite P4, Hex.
  cbn [nmod nvalid]. change (commit (TSB fs) (NIdx true true ?k)) with (NIdx false true (zipw commit fs k)).
  change (capture (TSB fs) (NIdx true true ?k)) with (DBundle (zipw cap_field fs k)).
  cbn [observable]. rewrite P1, P2, P5, Hex. repeat split; try reflexivity. exact P6.
Qed.

Definition tsl_items (e : shape) (o : Z) (kids : list node) : list (Z * delta) :=
  map (fun ic => (fst ic, capture e (snd ic))) (filter (fun ic => nmod (snd ic) && nvalid (snd ic)) (index_from o kids)).

Definition tsl_step (e : shape) := fun s (kd : Z * delta) => idx_child (Z.to_nat (fst kd)) (fun c => apply e c (snd kd)) s.

Definition tsl_out (e : shape) : list node -> list node -> list node :=
  zipw (fun c0 c => if nmod c then apply e c0 (capture e c) else c0).

(* apply_delta_tsl visits the children that ticked, left to right; [pfx] are those already passed *)
Lemma tsl_fold e : Recreates e -> forall kids0 kids,
  Forall2 (fun c0 c => (nmod c = true /\ tick e c0 c) \/ c = c0) kids0 kids -> Forall (good e) kids0 ->
  forall o pfx m v, o = Z.of_nat (length pfx) ->
  fold_left (tsl_step e) (tsl_items e o kids) (NIdx m v (pfx ++ kids0)) =
    NIdx (m || existsb nmod kids) (v || existsb nmod kids) (pfx ++ tsl_out e kids0 kids) /\
  map (commit e) (tsl_out e kids0 kids) = map (commit e) kids /\
  tsl_items e o (tsl_out e kids0 kids) = tsl_items e o kids /\
  Forall (good e) (map (commit e) kids).
Proof.
  intros He kids0 kids HF. induction HF as [|c0 c k0 k Hc HF IH]; intros Hg o pfx m v Ho.
  - cbn. rewrite !orb_false_r. repeat split; constructor.
  - apply Forall_cons_iff in Hg. destruct Hg as [Hgc Hgr]. pose proof (good_nmod _ _ Hgc) as Hm0.
    assert (Ho' : forall x : node, o + 1 = Z.of_nat (length (pfx ++ [x])))
      by (intros x; rewrite app_length, Nat2Z.inj_add, Ho; reflexivity).
    unfold tsl_items, tsl_out in *. cbn [index_from filter zipw snd fst map existsb].
    destruct Hc as [[Hm Htk]| ->].
    + (* the child ticked: the step re-creates it and marks the parent *)
      destruct (He c0 c Hgc Htk) as (Rm & Rv & Rlv & _ & Rc & Rcap & Rg).
      destruct (IH Hgr _ (pfx ++ [apply e c0 (capture e c)]) true true (Ho' _)) as (I1 & I2 & I3 & I4).
      rewrite <- !app_assoc in I1. cbn [app] in I1.
      rewrite Hm, Rlv, Rm, Rv. cbn [andb map fold_left fst snd]. rewrite Rc, Rcap, I2, I3, !orb_true_r.
      repeat split; [|constructor; assumption].
      unfold tsl_step at 2, idx_child. cbn [fst snd]. rewrite Ho, Nat2Z.id, nth_error_app_len, set_nth_app, Hm0, Rm, <- Ho. exact I1.
    + destruct (IH Hgr _ (pfx ++ [c0]) m v (Ho' _)) as (I1 & I2 & I3 & I4).
      rewrite <- !app_assoc in I1. cbn [app] in I1.
      rewrite Hm0. cbn [andb map orb]. rewrite Hm0. cbn [andb map]. rewrite I2, I3.
      repeat split; [exact I1|constructor; [rewrite (commit_good _ _ Hgc); exact Hgc|exact I4]].
Qed.

Lemma recreates_tsl n e : Recreates e -> Recreates (TSL n e).
Proof.
  intros He pre live Hg Ht.
  destruct pre as [| | | |m0 v0 kids0]; try contradiction. destruct live as [| | | |m v kids]; try contradiction.
  destruct Hg as (-> & Hlen & Hg). destruct Ht as (-> & -> & HF & Hex).
  destruct (tsl_fold e He kids0 kids HF Hg 0 [] false v0 eq_refl) as (F1 & F2 & F3 & F4).
  apply Exists_existsb in Hex. rewrite Hex, !orb_true_r in F1. cbn [app] in F1.
  unfold recreates. change (capture (TSL n e) (NIdx true true kids)) with (DList (tsl_items e 0 kids)).
  cbn [apply has_effect observable nmod andb].
  (* a child ticked, so the delta has an item *)
  destruct (tsl_items e 0 kids) as [|it its]; [discriminate F1|]. cbn [is_nil negb].
  fold (tsl_step e). rewrite F1.
  cbn [nmod nvalid]. change (commit (TSL n e) (NIdx true true ?k)) with (NIdx false true (map (commit e) k)).
  change (capture (TSL n e) (NIdx true true ?k)) with (DList (tsl_items e 0 k)).
  rewrite F2, F3. repeat split; [|exact F4].
  rewrite map_length. apply Forall2_len in HF. lia.
Qed.

Section Dict.
Implicit Types (it : list (Z * (sflags * node))) (s : sflags * node) (o : option (sflags * node)).

Definition slot_upd (k : Z) (u : option (sflags * node) -> option (sflags * node)) (n n' : node) : Prop :=
  match n, n' with
  | NDict _ _ it, NDict _ _ it' =>
      (ksorted it -> ksorted it') /\ forall j, get j it' = if j =? k then u (get j it) else get j it
  | _, _ => False
  end.

Definition erase_slot s : sflags * node :=
  let (f, c) := s in
  if f_live f then
    (if f_published f then
       if f_added f then mkF false false (f_removed f) false false else mkF false (f_added f) true false false
     else mkF false (f_added f) (f_removed f) false false, c)
  else s.

Lemma dict_erase_upd k m v it : slot_upd k (option_map erase_slot) (NDict m v it) (dict_erase k (NDict m v it)).
Proof.
  cbn [dict_erase]. destruct (get k it) as [[f c]|] eqn:E; [destruct (f_live f) eqn:L|];
    (split; [try apply ksorted_put; auto|]); intros j; rewrite ?get_put;
    destruct (Z.eqb_spec j k) as [->|]; try reflexivity; rewrite E; cbn; rewrite ?L; reflexivity.
Qed.

Definition child_slot (e : shape) (g : node -> node) o : sflags * node :=
  let (f, c) := match o with
                | Some (f, c) => if f_live f then (f, c) else (restore_modified (resurrect_flags f c) c, c)
                | None => (flags0, fresh e)
                end in
  if negb (nmod c) && nmod (g c) then (slot_child_modified f (g c), g c) else (f, g c).

Lemma dict_child_upd e k g m v it :
  slot_upd k (fun o => Some (child_slot e g o)) (NDict m v it) (dict_child e k g (NDict m v it)).
Proof.
  unfold dict_child, dict_at, child_slot.
  destruct (get k it) as [[f c]|] eqn:E; [destruct (f_live f) eqn:L|]; rewrite ?get_put, ?Z.eqb_refl, ?E;
    match goal with |- context [negb (nmod ?c) && nmod ?c'] => destruct (negb (nmod c) && nmod c') eqn:N end;
    (split; [intros; repeat apply ksorted_put; assumption|]);
    intros j; rewrite !get_put; destruct (Z.eqb_spec j k) as [->|]; rewrite ?E, ?L, ?N; reflexivity.
Qed.

Lemma slot_upd_fold {B} (F : B -> node -> node) (key : B -> Z) (u : B -> option (sflags * node) -> option (sflags * node)) :
  (forall b m v it, slot_upd (key b) (u b) (NDict m v it) (F b (NDict m v it))) ->
  forall l m v it, exists m' v' it',
    fold_left (fun n b => F b n) l (NDict m v it) = NDict m' v' it' /\ (ksorted it -> ksorted it') /\
    forall j, get j it' = fold_left (fun o b => if j =? key b then u b o else o) l (get j it).
Proof.
  intros HF. induction l as [|b l IH]; intros m v it; cbn [fold_left]; [eauto 6|].
  specialize (HF b m v it). destruct (F b (NDict m v it)) as [| | |m1 v1 it1|]; try contradiction.
  destruct HF as [Hs Hg], (IH m1 v1 it1) as (m' & v' & it' & -> & Hs' & Hg').
  exists m', v', it'. repeat split; [auto|]. intros j. rewrite Hg', Hg. reflexivity.
Qed.

Lemma fold_upd_mem {T} (f : T -> T) j l : (forall t, f (f t) = f t) ->
  forall t, fold_left (fun a x => if j =? x then f a else a) l t = if mem j l then f t else t.
Proof.
  intros Hf. induction l as [|x l IH]; intros t; cbn [fold_left mem]; [reflexivity|].
  rewrite IH. destruct (j =? x); cbn [orb]; [rewrite Hf; destruct (mem j l)|]; reflexivity.
Qed.

Lemma fold_upd_get {T D} (u : D -> T -> T) j (l : list (Z * D)) : ksorted l ->
  forall t, fold_left (fun a kd => if j =? fst kd then u (snd kd) a else a) l t =
            match get j l with Some d => u d t | None => t end.
Proof.
  induction l as [|[x d] l IH]; intros Hs t; cbn [fold_left get fst snd]; [reflexivity|].
  destruct (ksorted_tail _ _ _ Hs) as [Hl Hlb]. rewrite (IH Hl).
  destruct (Z.eqb_spec j x) as [->|]; [rewrite (get_none_lb x l x Hlb) by lia|]; reflexivity.
Qed.

(* what apply_delta_tsd does to the slots, key by key *)
Lemma apply_tsd_slots e rm md m v it : ksorted md ->
  exists m' v' it',
    fold_left (fun n kd => dict_child e (fst kd) (fun c => apply e c (snd kd)) n) md
      (fold_left (fun n k => dict_erase k n) rm (NDict m v it)) = NDict m' v' it' /\
    (ksorted it -> ksorted it') /\
    forall j, get j it' =
      let o := if mem j rm then option_map erase_slot (get j it) else get j it in
      match get j md with Some d => Some (child_slot e (fun c => apply e c d) o) | None => o end.
Proof.
  intros Hmd.
  destruct (slot_upd_fold _ _ _ dict_erase_upd rm m v it) as (m1 & v1 & it1 & -> & Hs1 & Hg1).
  destruct (slot_upd_fold (fun kd => dict_child e (fst kd) (fun c => apply e c (snd kd))) fst _
              (fun kd => dict_child_upd e (fst kd) _) md m1 v1 it1) as (m2 & v2 & it2 & -> & Hs2 & Hg2).
  exists m2, v2, it2. repeat split; [auto|].
  intros j. rewrite Hg2, Hg1, (fold_upd_get (fun d a => Some (child_slot e (fun c => apply e c d) a)) j md Hmd).
  rewrite fold_upd_mem; [reflexivity|].
  intros [[f c]|]; [cbn; destruct (f_live f) eqn:L; [destruct (f_published f), (f_added f)|cbn; rewrite L]|]; reflexivity.
Qed.

(* the three things a dictionary shows of a slot: its committed form, its removal, its modified child *)
Definition s_live s : bool := f_live (fst s).
Definition s_removed s : bool := f_removed (fst s).
Definition s_modified s : bool := f_live (fst s) && f_modified (fst s) && nvalid (snd s).
Definition commit_slot (e : shape) s : sflags * node := (clear_flags (fst s), commit e (snd s)).
Definition rm_keys it : list Z := keys (fm s_removed (fun _ => tt) it).
Definition md_of (e : shape) it : list (Z * delta) := fm s_modified (fun s => capture e (snd s)) it.
Definition views (e : shape) o :=
  (pick s_live (commit_slot e) o, pick s_removed (fun _ => tt) o, pick s_modified (fun s => capture e (snd s)) o).

Lemma capture_tsd e m v it : capture (TSD e) (NDict m v it) = DDict (rm_keys it) (md_of e it).
Proof. cbn [capture]. unfold rm_keys, fm, keys. rewrite map_map. reflexivity. Qed.
Lemma commit_tsd e m v it : commit (TSD e) (NDict m v it) = NDict false v (fm s_live (commit_slot e) it).
Proof. reflexivity. Qed.

Definition good_slot (e : shape) s : Prop := fst s = clean_flags /\ nvalid (snd s) = true /\ good e (snd s).

(* what apply_delta_tsd makes of the slot [o0] when the ticking dictionary shows [os] *)
Definition recreate_slot (e : shape) o0 os : option (sflags * node) :=
  let o1 := if match os with Some s => s_removed s | None => false end then option_map erase_slot o0 else o0 in
  match pick s_modified (fun s => capture e (snd s)) os with
  | Some d => Some (child_slot e (fun c => apply e c d) o1)
  | None => o1
  end.

(* Of one slot of a ticking dictionary: the re-created slot shows what the ticking one shows; if the
   ticking slot is live it commits to a good slot again; if it is removed, the key was a (clean) key of
   the pre-state.  The third holds of [slot_tick] and the good pre-state slot alone, without
   [Recreates e] or [good e (fresh e)]; it stands here because its case analysis is the one below. *)
Lemma slot_recreated e o0 f c : Recreates e -> good e (fresh e) ->
  (forall s, o0 = Some s -> good_slot e s) -> slot_tick (tick e) (fresh e) o0 f c ->
  views e (recreate_slot e o0 (Some (f, c))) = views e (Some (f, c)) /\
  (f_live f = true -> good_slot e (commit_slot e (f, c))) /\
  (f_removed f = true -> exists c0, o0 = Some (clean_flags, c0)).
Proof.
  intros He Hfresh H0 St. destruct f as [lv ad rm md pb]. unfold slot_tick in St. cbn [f_live f_removed f_modified f_published] in St.
  unfold views, recreate_slot, s_modified, s_live, s_removed, good_slot, commit_slot. cbn [fst snd f_live f_removed f_modified f_published pick].
  destruct o0 as [[f0 c0]|]; [destruct (H0 _ eq_refl) as (E0 & Hv0 & Hg0); cbn [fst snd] in E0, Hv0, Hg0; subst f0|]; destruct lv.
  - destruct St as (-> & -> & St'). destruct md.
    + destruct (He c0 c Hg0 St') as (Rm & Rv & Lv & _ & Rc & Rcap & Rg).
      rewrite Lv. cbn. rewrite (good_nmod _ _ Hg0), Rm. cbn. unfold slot_child_modified. rewrite Rv. cbn.
      rewrite Rc, Rcap, nvalid_commit, Lv. repeat split; auto; discriminate.
    + subst c. cbn. rewrite nvalid_commit, (commit_good _ _ Hg0). repeat split; auto; discriminate.
  - subst rm. cbn. split; [reflexivity|split; [discriminate|eauto]].
  - destruct St as (-> & -> & -> & St').
    destruct (He _ c Hfresh St') as (Rm & Rv & Lv & _ & Rc & Rcap & Rg).
    rewrite Lv. cbn. rewrite (good_nmod _ _ Hfresh), Rm. cbn. unfold slot_child_modified. rewrite Rv. cbn.
    rewrite Rc, Rcap, nvalid_commit, Lv. repeat split; auto; discriminate.
  - subst rm. cbn. repeat split; discriminate.
Qed.

Lemma recreates_tsd e : good e (fresh e) -> Recreates e -> Recreates (TSD e).
Proof.
  intros Hfresh He pre live Hg Ht.
  destruct pre as [| | |m0 v0 it0|]; try contradiction. destruct live as [| | |m v it|]; try contradiction.
  destruct Hg as (-> & Hs0 & HG0). destruct Ht as (-> & -> & Hs & HT & HH & Heff).
  rewrite Forall_forall in HT.
  (* Hrec : for every (k, (f, c)) in [it], the three conjuncts of [slot_recreated] with [get k it0] as the pre-state slot [o0] *)
  pose proof (fun k f c Hin => slot_recreated e _ f c He Hfresh (fun s => Forall_get _ _ k s HG0) (HT (k, (f, c)) Hin)) as Hrec.
  cbn [fst snd] in Hrec.
  assert (Heffb : has_effect (TSD e) (NDict false v0 it0) (DDict (rm_keys it) (md_of e it)) = true).
  { cbn [has_effect]. destruct (md_of e it) as [|kd mdr] eqn:Emd; [|reflexivity].
    destruct (rm_keys it) as [|k r] eqn:Erm; cbn [is_nil negb existsb].
    - destruct Heff as [Hex| ->]; [exfalso|reflexivity].
      apply Exists_exists in Hex. destruct Hex as ([k [f c]] & Hin & [Hr|[Hl Hm]]); cbn [fst snd] in Hr || cbn [fst snd] in Hl, Hm.
      + apply (In_fm s_removed (fun _ => tt)), (in_map fst) in Hin; [|exact Hr]. change (In k (rm_keys it)) in Hin. rewrite Erm in Hin. exact Hin.
      + destruct (Hrec k f c Hin) as (_ & Hv & _). destruct (Hv Hl) as (_ & Hv' & _). cbn [snd commit_slot] in Hv'. rewrite nvalid_commit in Hv'.
        apply (In_fm s_modified (fun s => capture e (snd s))) in Hin; [|unfold s_modified; cbn [fst snd]; rewrite Hl, Hm, Hv'; reflexivity].
        change (In (k, capture e c) (md_of e it)) in Hin. rewrite Emd in Hin. exact Hin.
    - assert (Hk : mem k (rm_keys it) = true) by (rewrite Erm; cbn; rewrite Z.eqb_refl; reflexivity).
      unfold rm_keys in Hk. rewrite mem_keys_fm_get in Hk by exact Hs.
      destruct (get k it) as [[f c]|] eqn:Eg; [|discriminate]. apply get_In in Eg.
      destruct (Hrec k f c Eg) as (_ & _ & Hc). destruct (Hc Hk) as [c0 E0]. unfold dict_contains. rewrite E0. reflexivity. }
  unfold recreates. rewrite capture_tsd. cbn [apply]. rewrite Heffb.
  destruct (apply_tsd_slots e (rm_keys it) (md_of e it) false v0 it0 (ksorted_fm _ _ _ Hs)) as (m' & v' & it' & -> & Hs' & Hg').
  specialize (Hs' Hs0).
  assert (Hview : forall j, views e (get j it') = views e (get j it)).
  { intros j. rewrite Hg'. unfold rm_keys, md_of. rewrite mem_keys_fm_get, get_fm by exact Hs. fold (recreate_slot e (get j it0) (get j it)).
    destruct (get j it) as [[f c]|] eqn:Eg; [apply (Hrec j f c (get_In _ _ _ Eg))|].
    destruct (get j it0) as [s0|] eqn:E0; [|reflexivity].
    pose proof (Forall_get _ _ _ _ HH E0) as Hh. unfold has in Hh. cbn [fst] in Hh. rewrite Eg in Hh. discriminate. }
  cbn [dict_touch nmod nvalid]. rewrite !commit_tsd, !capture_tsd. unfold rm_keys, md_of, views in *.
  rewrite (fm_ext s_live _ s_live _ it' it), (fm_ext s_removed _ s_removed _ it' it), (fm_ext s_modified _ s_modified _ it' it)
    by (try assumption; intros k; injection (Hview k); eauto).
  repeat split; [apply ksorted_fm, Hs|].
  apply Forall_forall. intros x Hin. apply in_map_iff in Hin. destruct Hin as ([k [f c]] & <- & Hin).
  apply filter_In in Hin. destruct Hin as [Hin El]. apply (Hrec k f c Hin), El.
Qed.

(* the intended netting of time_series.rst "Slot lifetime" (reinsertion within the cycle resurrects
   the same slot without reconstructing its payload): only the touch remains *)
Lemma erase_recreate_nets e m v items k c :
  ksorted items -> get k items = Some (clean_flags, c) -> nmod c = false ->
  dict_at e k (dict_erase k (NDict m v items)) = NDict true true items.
Proof.
  intros Hs Hg Hm. unfold dict_erase. rewrite Hg. cbn [f_live clean_flags f_published f_added].
  unfold dict_at. rewrite get_put, Z.eqb_refl. cbn [f_live].
  unfold resurrect_flags, restore_modified. cbn [f_removed f_added f_modified f_published f_live].
  rewrite Hm. cbn [andb]. f_equal. apply ksorted_ext; [repeat apply ksorted_put; exact Hs|exact Hs|].
  intros j. rewrite !get_put. destruct (Z.eqb_spec j k) as [->|]; [symmetry; exact Hg|reflexivity].
Qed.
End Dict.

Theorem recreates_all : forall sh, wf_shape sh -> Recreates sh.
Proof.
  induction sh as [| |p m| |e IH|n e IH|fs IH] using shape_ind'; intros Hwf.
  - intros [] []; try contradiction. intros _ [-> [z ->]]. repeat split.
  - intros [] []; try contradiction. intros _ [-> ->]. repeat split.
  - apply recreates_tsw.
  - exact recreates_tss.
  - apply recreates_tsd; [apply good_fresh, Hwf|apply IH, Hwf].
  - apply recreates_tsl, IH, Hwf.
  - apply recreates_tsb. induction IH as [|f r Hf _ IHr]; constructor; [apply Hf|apply IHr]; apply Hwf.
Qed.

(* the replay node, entry by entry (replay_step at cursor i reads entry i) *)
Definition step_entry (sh : shape) (en : option delta) (out : node) : node :=
  match en with Some d => apply sh (commit sh out) d | None => commit sh out end.

Fixpoint replay_list (sh : shape) (ens : buffer) (out : node) : list node :=
  match ens with [] => [] | en :: r => step_entry sh en out :: replay_list sh r (step_entry sh en out) end.

Fixpoint replay_last (sh : shape) (ens : buffer) (out : node) : node :=
  match ens with [] => out | en :: r => replay_last sh r (step_entry sh en out) end.

Lemma replay_list_app sh a b out :
  replay_list sh (a ++ b) out = replay_list sh a out ++ replay_list sh b (replay_last sh a out).
Proof. revert out; induction a as [|en r IH]; intros out; cbn; [reflexivity|]. f_equal. apply IH. Qed.

Lemma replay_last_app sh a b out : replay_last sh (a ++ b) out = replay_last sh b (replay_last sh a out).
Proof. revert out; induction a as [|en r IH]; intros out; cbn; [reflexivity|]. apply IH. Qed.

Definition stream (sh : shape) (outs : list node) : buffer :=
  map (fun o => if nmod o then Some (capture sh o) else None) outs.

Lemma replay_holes sh s : good sh s -> forall k out, commit sh out = s ->
  stream sh (replay_list sh (repeat None k) out) = repeat None k /\
  filter nmod (replay_list sh (repeat None k) out) = [] /\
  commit sh (replay_last sh (repeat None k) out) = s.
Proof.
  intros Hg. unfold stream. induction k as [|k IH]; intros out Ho;
    cbn [repeat replay_list replay_last step_entry map filter]; [auto|].
  rewrite Ho, (good_nmod _ _ Hg). destruct (IH s (commit_good _ _ Hg)) as (-> & -> & ->). auto.
Qed.

(* a history: at strictly increasing cycle times, the successive post-tick states of a
   time-series, each a coherent effective tick of the committed previous one;  [len] is the
   length the cycle-aligned buffer has reached *)
Fixpoint chain (sh : shape) (s : node) (len : nat) (h : list (Z * node)) : Prop :=
  match h with
  | [] => True
  | (t, live) :: r =>
      MIN_ST + Z.of_nat len <= t /\ tick sh s live /\ chain sh (commit sh live) (S (Z.to_nat (t - MIN_ST))) r
  end.

Definition rec_hist (sh : shape) (h : list (Z * node)) (buf : buffer) : buffer :=
  fold_left (fun b tl => recorder sh (fst tl) (snd tl) b) h buf.

Lemma replay_record_gen sh : wf_shape sh -> forall h s out buf0,
  good sh s -> commit sh out = s -> chain sh s (length buf0) h ->
  exists suffix,
    rec_hist sh h buf0 = buf0 ++ suffix /\
    stream sh (replay_list sh suffix out) = suffix /\
    map (commit sh) (filter nmod (replay_list sh suffix out)) = map (fun tl => commit sh (snd tl)) h /\
    Forall2 (fun tl o => nth_error (buf0 ++ suffix) (Z.to_nat (fst tl - MIN_ST)) = Some (Some (capture sh (snd tl))))
            h (filter nmod (replay_list sh suffix out)).
Proof.
  intros Hwf. induction h as [|[t live] r IH]; intros s out buf0 Hg Ho Hc.
  - exists []. cbn. rewrite app_nil_r. repeat split; constructor.
  - destruct Hc as (Ht & Htk & Hc).
    destruct (recreates_all sh Hwf s live Hg Htk) as (Rm & _ & _ & Ro & Rc & Rcap & Rg).
    set (d := capture sh live) in *. set (k := (Z.to_nat (t - MIN_ST) - length buf0)%nat).
    (* the recorder pads up to the tick's cycle: the tick lands at index t - MIN_ST *)
    assert (Hpos : length (buf0 ++ repeat None k) = Z.to_nat (t - MIN_ST))
      by (rewrite app_length, repeat_length; unfold k, MIN_ST in *; lia).
    destruct (IH (commit sh live) (apply sh s d) (buf0 ++ repeat None k ++ [Some d]) Rg Rc) as (suf & S1 & S2 & S3 & S4).
    { rewrite app_assoc, app_length, Hpos, Nat.add_1_r. exact Hc. }
    rewrite <- !app_assoc in S1, S4. cbn [app] in S1, S4.
    exists (repeat None k ++ Some d :: suf).
    destruct (replay_holes sh s Hg k out Ho) as (Hh1 & Hh2 & Hh3).
    unfold stream in *. rewrite replay_list_app, map_app, filter_app, Hh1, Hh2.
    cbn [replay_list step_entry map filter app fst snd]. rewrite Hh3, Rm. cbn [map]. rewrite Rcap, S2, S3, Rc.
    repeat split; [|constructor; [|exact S4]].
    + cbn [rec_hist fold_left fst snd]. unfold recorder at 2. fold d. rewrite (tick_nmod _ _ _ Htk), Ro. exact S1.
    + cbn [fst snd]. rewrite app_assoc, <- Hpos. apply nth_error_app_len.
Qed.

(* the cursor-driven loop of the replay node: what Delta.run_replay does to the output, without
   its clock, end time, printing and second recorder *)
Fixpoint replay_cursor (sh : shape) (buf : buffer) (fuel i : nat) (out : node) : list node :=
  match fuel with
  | O => []
  | S f => if (length buf <=? i)%nat then []
           else replay_step sh buf i out :: replay_cursor sh buf f (S i) (replay_step sh buf i out)
  end.

Lemma replay_cursor_list sh suf : forall pfx out,
  replay_cursor sh (pfx ++ suf) (length suf) (length pfx) out = replay_list sh suf out.
Proof.
  induction suf as [|en r IH]; intros pfx out; cbn [length replay_cursor replay_list]; [reflexivity|].
  rewrite app_length. cbn [length]. destruct (Nat.leb_spec (length pfx + S (length r)) (length pfx)); [lia|].
  replace (replay_step sh (pfx ++ en :: r) (length pfx) out) with (step_entry sh en out)
    by (unfold replay_step; rewrite nth_error_app_len; destruct en; reflexivity).
  f_equal. specialize (IH (pfx ++ [en]) (step_entry sh en out)).
  rewrite <- app_assoc, app_length, Nat.add_1_r in IH. exact IH.
Qed.

Definition srec_hist (sh : shape) (h : list (Z * node)) (buf : sbuffer) : sbuffer :=
  fold_left (fun b tl => srecorder sh (fst tl) (snd tl) b) h buf.

Definition entries_of (sh : shape) (h : list (Z * node)) : sbuffer :=
  map (fun tl => (fst tl, capture sh (snd tl))) h.

(* the evaluations of the sparse replay node in which its output ticks: what Delta.run_sreplay
   does to the output, without the end of the run, the printing and the second recorder *)
Fixpoint sreplay_run (sh : shape) (fuel : nat) (now : Z) (ents : sbuffer) (out : node) : list (Z * node) :=
  match fuel with
  | O => []
  | S f =>
      let (ents', out') := sparse_scan sh now ents (commit sh out) in
      let here := if nmod out' then [(now, out')] else [] in
      match ents' with
      | (w, _) :: _ => if now <? w then here ++ sreplay_run sh f w ents' out' else here
      | [] => here
      end
  end.

Lemma srec_hist_chain sh : forall h s len buf, chain sh s len h -> srec_hist sh h buf = buf ++ entries_of sh h.
Proof.
  induction h as [|[t live] r IH]; intros s len buf Hc; cbn [srec_hist fold_left entries_of map].
  - rewrite app_nil_r. reflexivity.
  - destruct Hc as (_ & Htk & Hc). unfold srecorder at 2. cbn [fst snd]. rewrite (tick_nmod _ _ _ Htk).
    fold (srec_hist sh r (buf ++ [(t, capture sh live)])).
    rewrite (IH _ _ _ Hc), <- app_assoc. reflexivity.
Qed.

Lemma sreplay_at sh : wf_shape sh -> forall h s out len t live fuel,
  good sh s -> commit sh out = s -> chain sh s len ((t, live) :: h) -> (length h < fuel)%nat ->
  let run := sreplay_run sh fuel t (entries_of sh ((t, live) :: h)) out in
  map fst run = map fst ((t, live) :: h) /\
  map (fun to => capture sh (snd to)) run = map (fun tl => capture sh (snd tl)) ((t, live) :: h) /\
  map (fun to => commit sh (snd to)) run = map (fun tl => commit sh (snd tl)) ((t, live) :: h).
Proof.
  intros Hwf. induction h as [|[t2 live2] r IH]; intros s out len t live fuel Hg Ho Hc Hf;
    destruct fuel as [|f]; try lia; destruct Hc as (_ & Htk & Hc);
    destruct (recreates_all sh Hwf s live Hg Htk) as (Rm & _ & _ & _ & Rc & Rcap & Rg);
    cbn [entries_of map fst snd sreplay_run sparse_scan]; rewrite Z.ltb_irrefl, Ho; cbn [sparse_scan].
  - rewrite Rm. cbn. rewrite Rcap, Rc. repeat split; reflexivity.
  - assert (Ht2 : t < t2) by (destruct Hc as (Hl2 & _); unfold MIN_ST in *; lia).
    assert (E1 : (t2 <? t) = false) by lia. assert (E2 : (t <? t2) = true) by lia. rewrite E1, E2, Rm, E2.
    destruct (IH (commit sh live) (apply sh s (capture sh live)) _ t2 live2 f Rg Rc Hc) as (I1 & I2 & I3);
      [cbn [length] in Hf; lia|].
    cbn [entries_of map fst snd] in I1, I2, I3.
    cbn [app map fst snd]. rewrite I1, I2, I3, Rcap, Rc. repeat split; reflexivity.
Qed.

Theorem sparse_replay_gen sh : wf_shape sh -> forall h s out len rs,
  good sh s -> commit sh out = s -> chain sh s len h ->
  match h with (t, _) :: _ => rs <= t | [] => True end ->
  let run := sreplay_run sh (S (length h)) rs (entries_of sh h) out in
  map fst run = map fst h /\
  map (fun to => capture sh (snd to)) run = map (fun tl => capture sh (snd tl)) h /\
  map (fun to => commit sh (snd to)) run = map (fun tl => commit sh (snd tl)) h.
Proof.
  intros Hwf h s out len rs Hg Ho Hc Hrs. cbn zeta. destruct h as [|[t live] r].
  - cbn [length entries_of map sreplay_run sparse_scan]. rewrite Ho, (good_nmod _ _ Hg). repeat split; reflexivity.
  - destruct (Z.eq_dec rs t) as [->|Hne].
    + apply (sreplay_at sh Hwf r s out len t live _ Hg Ho Hc). cbn [length]. lia.
    + (* the node first wakes at rs < t, finds nothing due and re-arms for t *)
      cbn [sreplay_run entries_of map fst snd sparse_scan].
      assert (E1 : (t <? rs) = false) by lia. assert (E2 : (rs <? t) = true) by lia.
      rewrite E1, Ho, E2, E2, (good_nmod _ _ Hg). cbn [app].
      apply (sreplay_at sh Hwf r s s len t live _ Hg (commit_good _ _ Hg) Hc). cbn [length]. lia.
Qed.

(* Delta.recover with the start state a parameter: [recover sh e T] unfolds to
   [recover_from sh e T (fresh sh)] *)
Definition recover_from (sh : shape) (ents : sbuffer) (T : Z) (out : node) : node :=
  fold_left (fun out td => if fst td <=? T then apply sh (commit sh out) (snd td) else out) ents out.
Definition last_state_from (h : list (Z * node)) (T : Z) (acc : node) : node :=
  fold_left (fun acc tl => if fst tl <=? T then snd tl else acc) h acc.

(* the seed and the source's state stay equal for one of two reasons: the seed is still in step with
   the source, or [T] lies before every entry that is left (the recording is in time order) *)
Lemma recover_gen sh : wf_shape sh -> forall h s len T out acc,
  commit sh out = commit sh acc -> chain sh s len h ->
  T < MIN_ST + Z.of_nat len \/ (good sh s /\ commit sh out = s) ->
  commit sh (recover_from sh (entries_of sh h) T out) = commit sh (last_state_from h T acc).
Proof.
  intros Hwf. induction h as [|[t live] r IH]; intros s len T out acc Hoa Hc HT; [exact Hoa|].
  destruct Hc as (Ht & Htk & Hc).
  cbn [entries_of map fst snd recover_from last_state_from fold_left].
  destruct (t <=? T) eqn:E.
  - destruct HT as [HT|[Hg Ho]]; [lia|].
    destruct (recreates_all sh Hwf s live Hg Htk) as (_ & _ & _ & _ & Rc & _ & Rg).
    rewrite Ho. apply (IH _ _ T _ live Rc Hc). auto.
  - apply (IH _ _ T out acc Hoa Hc). left. unfold MIN_ST in *. lia.
Qed.

(* witness A of Props/C20.v: apply_delta validates the never-ticked set field
   (initialize_tsb_delta_defaults + the empty-tick validation rule) *)
Definition wA_shape := TSB [TSS; TS].
Definition wA_live := run_ops wA_shape [mkOp [1] 1 5] (fresh wA_shape).

(* D.  The insert_key rule BEFORE the repair of the tree: a resurrected slot is not marked modified
   again (remove_key cleared its modified_ bit, and the child, already marked this cycle, does not
   notify twice), so child changed + key erased + key re-inserted in one cycle lost the change. *)
Definition dict_at_old (e : shape) (k : Z) (n : node) : node :=
  match n with
  | NDict _ _ items =>
      match get k items with
      | Some (f, c) => if f_live f then n else NDict true true (put k (resurrect_flags f c, c) items)
      | None => NDict true true (put k (flags0, fresh e) items)
      end
  | _ => n
  end.
Definition at_items (e : shape) (k : Z) (items : list (Z * (sflags * node))) : list (Z * (sflags * node)) :=
  match get k items with
  | Some (f, c) =>
      if f_live f then items
      else put k (if f_removed f then mkF true (f_added f) false (f_modified f) true
                  else if nvalid c then mkF true true false (f_modified f) true
                  else mkF true (f_added f) false (f_modified f) (f_published f), c) items
  | None => put k (flags0, fresh e) items
  end.
Definition dict_child_old (e : shape) (k : Z) (g : node -> node) (n : node) : node :=
  match dict_at_old e k n with
  | NDict m v items =>
      match get k items with
      | Some (f, c) =>
          let c' := g c in
          if negb (nmod c) && nmod c' then NDict true true (put k (slot_child_modified f c', c') items)
          else NDict m v (put k (f, c') items)
      | None => NDict m v items
      end
  | x => x
  end.
Definition leaf_op_old (sh : shape) (code arg : Z) (n : node) : node :=
  match sh with
  | TSD e => if code =? 5 then dict_touch n else if code =? 6 then dict_clear n
             else if code =? 7 then dict_erase arg n else dict_at_old e arg n
  | _ => leaf_op sh code arg n
  end.
Fixpoint do_op_old (path : list Z) (sh : shape) (code arg : Z) (n : node) : node :=
  match path with
  | [] => leaf_op_old sh code arg n
  | p :: rest =>
      match child_shape sh p with
      | Some c =>
          match sh with
          | TSD e => dict_child_old e p (do_op_old rest c code arg) n
          | _ => idx_child (Z.to_nat p) (do_op_old rest c code arg) n
          end
      | None => n
      end
  end.
Definition run_ops_old (sh : shape) (ops : list sop) (n : node) : node :=
  fold_left (fun s o => do_op_old (o_path o) sh (o_code o) (o_arg o) s) ops n.

Definition wD_pre := commit (TSD TSS) (run_ops (TSD TSS) [mkOp [1] 3 10] (fresh (TSD TSS))).
Definition wD_ops := [mkOp [1] 3 12; mkOp [] 7 1; mkOp [] 8 1].

Lemma apply_capture_old_rule_refuted_reinserted_key :
  exists sh pre ops, good sh pre /\
    let live := run_ops_old sh ops pre in
    veq sh live (apply sh pre (capture sh live)) = false.
Proof.
  exists (TSD TSS), wD_pre, wD_ops. split; [|vm_compute; reflexivity].
  vm_compute. repeat split; try exact I. constructor; [|constructor]. cbn. repeat split; exact I.
Qed.

(* closes a [chain] of concrete states once [vm_compute] has evaluated them: what is left are
   conjunctions, [Forall]/[Forall2]/[Exists] over explicit lists, disjunctions and closed equations *)
Ltac tick_solve :=
  repeat first
    [ exact I | reflexivity | discriminate
    | match goal with
      | |- _ /\ _ => split
      | |- exists _, _ => eexists; reflexivity
      | |- Forall _ [] => apply Forall_nil
      | |- Forall _ (_ :: _) => apply Forall_cons
      | |- Forall2 _ [] [] => apply Forall2_nil
      | |- Forall2 _ (_ :: _) (_ :: _) => apply Forall2_cons
      | |- _ <> _ => intro; discriminate
      | |- _ \/ _ => first [ solve [left; tick_solve] | solve [right; tick_solve] ]
      | |- Exists _ (_ :: _) => first [ solve [apply Exists_cons_hd; tick_solve] | apply Exists_cons_tl ]
      end ].

(* a dictionary of sets: two keys appear, then one is removed while the other changes (elements
   added and removed), a gap, then a third key; recorded at cycles 1, 3 and 6 *)
Definition ex1_sh := TSD TSS.
Definition ex1_l1 := run_ops ex1_sh [mkOp [1] 3 10; mkOp [2] 3 20] (fresh ex1_sh).
Definition ex1_l2 := run_ops ex1_sh [mkOp [] 7 1; mkOp [2] 3 21; mkOp [2] 4 20] (commit ex1_sh ex1_l1).
Definition ex1_l3 := run_ops ex1_sh [mkOp [3] 3 5] (commit ex1_sh ex1_l2).
Definition ex1_hist := [(1, ex1_l1); (3, ex1_l2); (6, ex1_l3)].

Example ex1_chain : chain ex1_sh (fresh ex1_sh) 0 ex1_hist.
Proof. vm_compute. tick_solve. Qed.

(* remove and re-add of a key in one cycle (the slot is resurrected with its child), nested
   dictionaries, a bundle whose set field ticks first, a list, a window, a signal *)
Definition ex2_sh := TSB [TSD (TSD TS); TSB [TSS; TS]; TSL 2 (TSW 2 1); SIGNAL].
Definition ex2_l1 := run_ops ex2_sh [mkOp [0; 1; 2] 1 5; mkOp [1; 0] 5 0; mkOp [1; 1] 1 7; mkOp [2; 0] 9 4; mkOp [3] 2 0] (fresh ex2_sh).
Definition ex2_l2 := run_ops ex2_sh [mkOp [0] 7 1; mkOp [0; 1; 3] 1 6; mkOp [2; 0] 9 5; mkOp [2; 1] 9 6] (commit ex2_sh ex2_l1).
Definition ex2_l3 := run_ops ex2_sh [mkOp [0; 1] 7 2; mkOp [1; 0] 3 9] (commit ex2_sh ex2_l2).
Definition ex2_hist := [(2, ex2_l1); (3, ex2_l2); (7, ex2_l3)].

Example ex2_chain : chain ex2_sh (fresh ex2_sh) 0 ex2_hist.
Proof. vm_compute. tick_solve. Qed.

(* under the repaired insert_key rule the old witness of finding D is an ordinary tick:
   child changed, key erased, key re-inserted in one cycle (also for a key that is new in the cycle) *)
Definition ex3_sh := TSD TSS.
Definition ex3_l1 := run_ops ex3_sh [mkOp [1] 3 10] (fresh ex3_sh).
Definition ex3_l2 := run_ops ex3_sh [mkOp [1] 3 12; mkOp [] 7 1; mkOp [] 8 1; mkOp [2] 3 20; mkOp [] 7 2; mkOp [2] 3 21] (commit ex3_sh ex3_l1).
Example ex3_chain : chain ex3_sh (fresh ex3_sh) 0 [(1, ex3_l1); (2, ex3_l2)].
Proof. vm_compute. tick_solve. Qed.
Example ex3_not_under_old_rule :
  capture ex3_sh (run_ops_old ex3_sh [mkOp [1] 3 12; mkOp [] 7 1; mkOp [] 8 1] (commit ex3_sh ex3_l1)) = DDict [] [].
Proof. vm_compute. reflexivity. Qed.

Example ex2_wf : wf_shape ex2_sh.
Proof. cbn. repeat split; lia. Qed.
