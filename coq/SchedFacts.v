(* SchedFacts.v — the scheduler model (Sched.v): the invariant [Inv] (events strictly ordered, the tag index
   exactly the tagged pending events) and its preservation by every operation; an accepted request as one
   equation ([schedule_accepted], over [untag]); what the engine needs of the operations ([shrinks],
   [schedule_spec]); the queries. *)
Require Import Base Sched.
From Coq Require Import Sorted.

Definition ev_lt (a b : ev) : Prop := fst a < fst b \/ (fst a = fst b /\ snd a < snd b).

Lemma ev_ltb_spec a b : ev_ltb a b = true <-> ev_lt a b.
Proof. unfold ev_ltb, ev_lt. lia. Qed.

Lemma ev_eqb_spec a b : ev_eqb a b = true <-> a = b.
Proof.
  unfold ev_eqb. destruct a, b; simpl. split; [intros; f_equal; lia|intros [= -> ->]; lia].
Qed.

Lemma ev_eqb_refl a : ev_eqb a a = true.
Proof. apply ev_eqb_spec; auto. Qed.

Lemma ev_ltb_total a b : ev_ltb a b = false -> ev_eqb a b = false -> ev_lt b a.
Proof. unfold ev_ltb, ev_eqb, ev_lt. lia. Qed.

Lemma ev_lt_trans a b c : ev_lt a b -> ev_lt b c -> ev_lt a c.
Proof. unfold ev_lt; lia. Qed.

Lemma ev_lt_irrefl a : ~ ev_lt a a.
Proof. unfold ev_lt; lia. Qed.

Notation Sorted := (StronglySorted ev_lt).

Lemma sorted_inv x l : Sorted (x :: l) -> Sorted l /\ Forall (ev_lt x) l.
Proof. intros H; inversion H; auto. Qed.

Lemma sorted_lt x l y : Sorted (x :: l) -> In y l -> ev_lt x y.
Proof. intros H. destruct (sorted_inv _ _ H) as [_ F]. rewrite Forall_forall in F. auto. Qed.

Lemma sorted_head_min e r x : Sorted (e :: r) -> In x (e :: r) -> fst e <= fst x.
Proof. intros H [->|Hin]; [lia|]. apply (sorted_lt _ _ _ H) in Hin. unfold ev_lt in Hin. lia. Qed.

Lemma In_ins x e l : In x (ins e l) <-> x = e \/ In x l.
Proof.
  induction l as [|y r IH]; simpl.
  - intuition.
  - destruct (ev_ltb e y) eqn:E1; simpl; [split; intros [H|H]; auto|].
    destruct (ev_eqb e y) eqn:E2; simpl.
    + apply ev_eqb_spec in E2; subst. intuition.
    + rewrite IH. intuition.
Qed.

Lemma sorted_ins e l : Sorted l -> Sorted (ins e l).
Proof.
  induction l as [|y r IH]; simpl; intros H.
  - constructor; auto.
  - destruct (sorted_inv _ _ H) as [Hr Hy].
    destruct (ev_ltb e y) eqn:E1; [|destruct (ev_eqb e y) eqn:E2; auto]; constructor; auto.
    + apply ev_ltb_spec in E1. constructor; auto.
      eapply Forall_impl; [|exact Hy]. intros z. apply ev_lt_trans; auto.
    + apply Forall_forall. intros z Hz. apply In_ins in Hz. destruct Hz as [->|Hz].
      * apply ev_ltb_total; auto.
      * apply (sorted_lt _ _ _ H Hz).
Qed.

Lemma first_time_ins d e l : first_time d (ins e l) = Z.min (fst e) (first_time (fst e) l).
Proof.
  destruct l as [|y r]; simpl; [lia|].
  destruct (ev_ltb e y) eqn:E1; simpl; [apply ev_ltb_spec in E1; unfold ev_lt in E1; lia|].
  destruct (ev_eqb e y) eqn:E2; simpl.
  - apply ev_eqb_spec in E2; subst; lia.
  - pose proof (ev_ltb_total _ _ E1 E2) as C. unfold ev_lt in C. lia.
Qed.

Lemma del_subset x e l : In x (del e l) -> In x l.
Proof.
  induction l as [|y r IH]; simpl; auto.
  destruct (ev_eqb e y); simpl; intuition.
Qed.

Lemma In_del x e l : Sorted l -> (In x (del e l) <-> In x l /\ x <> e).
Proof.
  induction l as [|y r IH]; simpl; intros H.
  - intuition.
  - destruct (sorted_inv _ _ H) as [Hr _].
    destruct (ev_eqb e y) eqn:E.
    + apply ev_eqb_spec in E; subst y. split.
      * intros Hin. split; auto. intros ->. apply (ev_lt_irrefl e), (sorted_lt _ _ _ H Hin).
      * intros [[->|Hin] Hne]; [congruence|auto].
    + assert (e <> y) by (intros ->; rewrite ev_eqb_refl in E; discriminate).
      simpl. rewrite IH by auto. intuition congruence.
Qed.

Lemma sorted_del e l : Sorted l -> Sorted (del e l).
Proof.
  induction l as [|y r IH]; simpl; intros H; auto.
  destruct (sorted_inv _ _ H) as [Hr _].
  destruct (ev_eqb e y); auto.
  constructor; auto. apply Forall_forall. intros z Hz. apply (sorted_lt _ _ _ H), (del_subset _ _ _ Hz).
Qed.

Lemma tag_find_put t' t w m : tag_find t' (tag_put t w m) = if t =? t' then Some w else tag_find t' m.
Proof.
  induction m as [|[k v] r IH]; simpl; [reflexivity|].
  destruct (t <? k) eqn:E1; simpl; [reflexivity|].
  destruct (k =? t) eqn:E2; simpl; rewrite ?IH; destruct (k =? t') eqn:E3, (t =? t') eqn:E4; auto; lia.
Qed.

Lemma tag_find_erase t' t m : tag_find t' (tag_erase t m) = if t =? t' then None else tag_find t' m.
Proof.
  induction m as [|[k v] r IH]; simpl; [destruct (t =? t'); auto|].
  destruct (k =? t) eqn:E1; simpl; rewrite IH; destruct (k =? t') eqn:E3, (t =? t') eqn:E2; auto; lia.
Qed.

Lemma tag_erase_absent t m : tag_find t m = None -> tag_erase t m = m.
Proof.
  induction m as [|[k v] r IH]; simpl; auto.
  destruct (k =? t); [discriminate|]. intros H. f_equal; auto.
Qed.

Definition Inv (s : sched) : Prop :=
  Sorted (events s) /\
  (forall t w, tag_find t (tags s) = Some w <-> (t <> 0 /\ In (w, t) (events s))).

Lemma inv_empty : Inv empty_sched.
Proof. split; simpl; [constructor|]. intros; split; [discriminate|tauto]. Qed.

Lemma inv_tag s t w : Inv s -> t <> 0 -> (tag_find t (tags s) = Some w <-> In (w, t) (events s)).
Proof. intros [_ H] Ht. rewrite H. tauto. Qed.

Lemma inv_untagged s : Inv s -> tag_find 0 (tags s) = None.
Proof. intros [_ H]. destruct (tag_find 0 (tags s)) eqn:F; auto. apply H in F. tauto. Qed.

Lemma inv_tag_unique s t w1 w2 :
  Inv s -> t <> 0 -> In (w1, t) (events s) -> In (w2, t) (events s) -> w1 = w2.
Proof. intros HI Ht H1 H2. apply (inv_tag _ _ _ HI Ht) in H1, H2. congruence. Qed.

Lemma first_time_min d (s : sched) e : Inv s -> In e (events s) -> first_time d (events s) <= fst e.
Proof.
  intros [Hs _] Hin. destruct (events s) as [|y r]; [destruct Hin|].
  apply (sorted_head_min y r e Hs Hin).
Qed.

(* un_schedule_tag, pop_tag, un_schedule_first and every step of advance are this one removal (an untagged
   event has no entry, so erasing tag 0 changes nothing) *)
Lemma inv_remove s w t :
  Inv s -> In (w, t) (events s) -> Inv (mkSched (del (w, t) (events s)) (tag_erase t (tags s))).
Proof.
  intros HI Hin. pose proof HI as [Hs Ht]. split; simpl.
  - apply sorted_del; auto.
  - intros t' w'. rewrite tag_find_erase, In_del by auto.
    destruct (t =? t') eqn:E; [|rewrite Ht].
    + assert (t' = t) by lia; subst t'. split; [discriminate|]. intros (Hne & Hin' & Hd).
      destruct Hd. f_equal. eapply inv_tag_unique; eauto.
    + split; [|tauto]. intros [A B]. repeat split; auto. intros [= _ ?]; lia.
Qed.

Lemma inv_un_schedule_tag t s : Inv s -> Inv (un_schedule_tag t s).
Proof.
  intros H. unfold un_schedule_tag. destruct (tag_find t (tags s)) eqn:E; auto.
  apply inv_remove; auto. apply H in E. tauto.
Qed.

Lemma pop_tag_fst t d s : fst (pop_tag t d s) = un_schedule_tag t s.
Proof. unfold pop_tag, un_schedule_tag. destruct (tag_find t (tags s)); auto. Qed.

Lemma inv_drop_head e r tg : Inv (mkSched (e :: r) tg) -> Inv (mkSched r (tag_erase (snd e) tg)).
Proof.
  destruct e as [w t]. intros H. apply (inv_remove _ w t) in H; simpl in *; auto.
  rewrite ev_eqb_refl in H. exact H.
Qed.

Lemma inv_un_schedule_first s : Inv s -> Inv (un_schedule_first s).
Proof.
  unfold un_schedule_first. destruct s as [[|e r] tg]; simpl; auto. apply inv_drop_head.
Qed.

Definition shrinks (s s' : sched) : Prop :=
  (Inv s -> Inv s') /\ forall x, In x (events s') -> In x (events s).

Lemma shrinks_un_schedule_tag t s : shrinks s (un_schedule_tag t s).
Proof.
  split; [apply inv_un_schedule_tag|]. unfold un_schedule_tag.
  destruct (tag_find t (tags s)); simpl; auto. intros x. apply del_subset.
Qed.

Lemma shrinks_un_schedule_first s : shrinks s (un_schedule_first s).
Proof.
  split; [apply inv_un_schedule_first|]. unfold un_schedule_first.
  destruct (events s) eqn:E; simpl; auto. rewrite E; auto.
Qed.

Lemma shrinks_reset s : shrinks s (reset s).
Proof. split; [intros; apply inv_empty|intros x []]. Qed.

Lemma inv_drop_due now evs tg :
  Inv (mkSched evs tg) -> Inv (mkSched (fst (drop_due now evs tg)) (snd (drop_due now evs tg))).
Proof.
  revert tg; induction evs as [|e r IH]; intros tg H; simpl; auto.
  destruct (fst e <=? now); simpl; auto. apply IH.
  destruct (snd e =? 0) eqn:E; [|apply inv_drop_head; auto].
  rewrite <- (tag_erase_absent (snd e) tg); [apply inv_drop_head; auto|].
  replace (snd e) with 0 by lia. apply (inv_untagged _ H).
Qed.

Lemma advance_fst now s :
  fst (advance now s) =
  mkSched (fst (drop_due now (events s) (tags s))) (snd (drop_due now (events s) (tags s))).
Proof. unfold advance. destruct (drop_due now (events s) (tags s)); auto. Qed.

Lemma advance_snd now s :
  snd (advance now s) = match events (fst (advance now s)) with [] => None | e :: _ => Some (fst e) end.
Proof. unfold advance. destruct (drop_due now (events s) (tags s)); auto. Qed.

Lemma inv_advance now s : Inv s -> Inv (fst (advance now s)).
Proof. intros H. rewrite advance_fst. apply inv_drop_due. destruct s; auto. Qed.

Lemma filter_all_id {A} (f : A -> bool) l : (forall x, In x l -> f x = true) -> filter f l = l.
Proof.
  induction l as [|x r IH]; simpl; intros H; auto.
  rewrite (H x) by auto. f_equal. apply IH. intros; apply H; auto.
Qed.

Lemma drop_due_events now evs tg :
  Sorted evs -> fst (drop_due now evs tg) = filter (fun e => now <? fst e) evs.
Proof.
  revert tg; induction evs as [|e r IH]; intros tg H; simpl; auto.
  destruct (fst e <=? now) eqn:E.
  - replace (now <? fst e) with false by lia. apply IH, (sorted_inv _ _ H).
  - replace (now <? fst e) with true by lia. simpl. f_equal.
    symmetry. apply filter_all_id. intros x Hx.
    pose proof (sorted_head_min e r x H (or_intror Hx)). lia.
Qed.

Lemma advance_consumes_due_only now s :
  Inv s -> events (fst (advance now s)) = filter (fun e => now <? fst e) (events s).
Proof. intros [Hs _]. rewrite advance_fst. apply drop_due_events, Hs. Qed.

Lemma past_dec now (started : bool) when :
  {if started then when <= now else when < now} + {~ (if started then when <= now else when < now)}.
Proof. destruct started; [apply Z_le_dec|apply Z_lt_dec]. Qed.

Lemma schedule_ignored now (started : bool) when tag s :
  (if started then when <= now else when < now) ->
  schedule now started when tag s = (s, None).
Proof.
  intros H. unfold schedule.
  replace (if started then when <=? now else when <? now) with true by (destruct started; lia). auto.
Qed.

(* [evs1] of [schedule]: what an accepted request is inserted into *)
Definition untag (tag : Z) (s : sched) : list ev :=
  if negb (tag =? 0) then
    match tag_find tag (tags s) with Some w => del (w, tag) (events s) | None => events s end
  else events s.

Lemma untag_spec tag s :
  Inv s ->
  Sorted (untag tag s) /\ forall x, In x (untag tag s) <-> In x (events s) /\ (tag = 0 \/ snd x <> tag).
Proof.
  intros HI. pose proof HI as [Hs _]. unfold untag. destruct (tag =? 0) eqn:E0; simpl.
  - split; auto. intros x. split; [intros; split; auto; lia|tauto].
  - assert (U : forall x, In x (events s) -> snd x = tag -> tag_find tag (tags s) = Some (fst x)).
    { intros [w t] Hx <-. simpl in *. apply inv_tag; auto. lia. }
    destruct (tag_find tag (tags s)) as [w0|] eqn:Ef.
    + split; [apply sorted_del; auto|]. intros x. rewrite In_del by auto. split.
      * intros [Hx Hd]. split; auto. right. intros Ht. apply Hd.
        specialize (U x Hx Ht). destruct x; simpl in *; congruence.
      * intros [Hx [?|Ht]]; [lia|]. split; auto. intros ->. auto.
    + split; auto. intros x. split; [|tauto]. intros Hx. split; auto. right. intros Ht.
      specialize (U x Hx Ht). discriminate.
Qed.

Lemma schedule_accepted now (started : bool) when tag s :
  ~ (if started then when <= now else when < now) ->
  schedule now started when tag s =
    (mkSched (ins (when, tag) (untag tag s)) (if negb (tag =? 0) then tag_put tag when (tags s) else tags s),
     if when <? first_time MAX_DT (untag tag s) then Some when else None).
Proof.
  intros H. unfold schedule.
  replace (if started then when <=? now else when <? now) with false by (destruct started; lia).
  fold (untag tag s). cbv zeta. rewrite first_time_ins. f_equal. simpl fst.
  destruct (untag tag s) as [|y r]; simpl.
  - rewrite Z.min_id. reflexivity.
  - destruct (when <? fst y) eqn:E.
    + replace (Z.min when (fst y)) with when by lia. rewrite E. reflexivity.
    + replace (Z.min when (fst y) <? fst y) with false by lia. reflexivity.
Qed.

Lemma inv_schedule now started when tag s :
  Inv s -> Inv (fst (schedule now started when tag s)).
Proof.
  intros HI. destruct (past_dec now started when) as [P|P]; [rewrite schedule_ignored; auto|].
  rewrite schedule_accepted by auto. destruct (untag_spec tag s HI) as [Us Ui]. pose proof HI as [_ Ht].
  split; simpl; [apply sorted_ins; auto|].
  intros t w. rewrite In_ins, Ui. destruct (tag =? 0) eqn:E0; simpl.
  - assert (tag = 0) by lia. rewrite Ht. split; [tauto|]. intros [A [[= -> ->]|[B _]]]; [lia|auto].
  - rewrite tag_find_put. destruct (tag =? t) eqn:E1.
    + assert (t = tag) by lia; subst t. split; [intros [= ->]; split; [lia|auto]|].
      intros [_ [[= ->]|[_ [?|C]]]]; auto; [lia|simpl in C; congruence].
    + rewrite Ht. split; [intros [A B]; split; auto; right; split; auto; right; simpl; lia|].
      intros [A [[= -> ->]|[B _]]]; [lia|auto].
Qed.

Lemma schedule_pending now (started : bool) when tag s x :
  Inv s -> ~ (if started then when <= now else when < now) ->
  (In x (events (fst (schedule now started when tag s))) <->
   x = (when, tag) \/ (In x (events s) /\ (tag = 0 \/ snd x <> tag))).
Proof.
  intros HI P. rewrite schedule_accepted by auto. simpl. rewrite In_ins.
  destruct (untag_spec tag s HI) as [_ U]. rewrite U. reflexivity.
Qed.

(* What the engine needs to know of a request, accepted or not.  The proviso [when < MAX_DT]: an empty scheduler
   counts that sentinel as its earliest time, so a request at or above it with nothing else pending is not reported. *)
Lemma schedule_spec now (started : bool) when tag s s' p :
  Inv s -> schedule now started when tag s = (s', p) ->
  Inv s' /\
  (forall x, In x (events s') ->
     In x (events s) \/ (x = (when, tag) /\ ~ (if started then when <= now else when < now))) /\
  match p with
  | Some w => w = when /\ ~ (if started then when <= now else when < now) /\ forall e, In e (events s') -> when <= fst e
  | None => when < MAX_DT -> forall e, In e (events s') -> exists y, In y (events s) /\ fst y <= fst e
  end.
Proof.
  intros HI E. destruct (past_dec now started when) as [P|P].
  - rewrite schedule_ignored in E by auto. injection E as <- <-. split; [auto|split; [auto|]].
    intros _ e He. exists e. split; [auto|lia].
  - pose proof (inv_schedule now started when tag s HI) as HI'.
    pose proof (fun x => proj1 (schedule_pending now started when tag s x HI P)) as Hsub.
    rewrite schedule_accepted in * by auto. injection E as <- <-. cbn [fst events] in *.
    split; [exact HI'|split; [intros x Hx; apply Hsub in Hx; tauto|]].
    destruct (untag_spec tag s HI) as [Us Ui]. destruct (untag tag s) as [|y r]; cbn [first_time].
    + destruct (when <? MAX_DT) eqn:E; [|lia]. split; [auto|split; [auto|]]. intros e [<-|[]]. simpl; lia.
    + destruct (when <? fst y) eqn:E.
      * split; [auto|split; [auto|]]. intros e He. apply In_ins in He. destruct He as [->|He]; [simpl; lia|].
        pose proof (sorted_head_min y r e Us He). lia.
      * intros _ e He. apply In_ins in He.
        destruct He as [->|He]; [exists y|exists e]; (split; [apply Ui; simpl; auto|simpl; lia]).
Qed.

Lemma inv_sstep s o : Inv s -> Inv (sstep s o).
Proof.
  intros H. destruct o; simpl.
  - apply inv_schedule; auto.
  - apply inv_un_schedule_tag; auto.
  - apply inv_un_schedule_first; auto.
  - rewrite pop_tag_fst. apply inv_un_schedule_tag; auto.
  - apply inv_empty.
  - apply inv_advance; auto.
Qed.

Lemma is_scheduled_now_iff s now :
  Inv s ->
  (is_scheduled_now now s = true <->
   (exists tg, In (now, tg) (events s)) /\ forall e, In e (events s) -> now <= fst e).
Proof.
  intros [Hs _]. unfold is_scheduled_now.
  destruct (events s) as [|e r]; [split; [discriminate|intros [[? []] _]]|]. split.
  - intros H. assert (fst e = now) by lia. split.
    + exists (snd e). left. destruct e; simpl in *; subst; auto.
    + intros x Hx. pose proof (sorted_head_min e r x Hs Hx). lia.
  - intros [[tg Hin] Hmin]. pose proof (sorted_head_min e r _ Hs Hin) as A.
    specialize (Hmin e (or_introl eq_refl)). simpl in A. lia.
Qed.

Lemma queries_agree_inv s now t :
  Inv s ->
  (is_scheduled s = true <-> exists e, In e (events s)) /\
  (forall e, In e (events s) -> next_scheduled_time s <= fst e) /\
  (is_scheduled s = true -> exists tg, In (next_scheduled_time s, tg) (events s)) /\
  (is_scheduled s = false -> next_scheduled_time s = MIN_DT) /\
  (is_scheduled_now now s = true <-> (exists tg, In (now, tg) (events s)) /\ forall e, In e (events s) -> now <= fst e) /\
  (t <> 0 -> (has_tag t s = true <-> exists w, In (w, t) (events s))) /\
  (t <> 0 -> forall w, In (w, t) (events s) -> tag_time t MIN_DT s = w) /\
  (t <> 0 -> (tag_is_scheduled_now now t s = true <-> In (now, t) (events s))).
Proof.
  intros HI.
  assert (T : t <> 0 -> forall w, tag_find t (tags s) = Some w <-> In (w, t) (events s))
    by (intros; apply inv_tag; auto).
  split; [|split; [intros e; apply first_time_min, HI|split; [|split; [|split;
    [apply is_scheduled_now_iff, HI|split; [|split]]]]]];
    unfold is_scheduled, next_scheduled_time, tag_is_scheduled_now, has_tag, tag_time.
  - destruct (events s); simpl; split; try discriminate; eauto. intros [? []].
  - destruct (events s) as [|[w tg] r]; [discriminate|]. exists tg. left; auto.
  - destruct (events s); [reflexivity|discriminate].
  - intros Hne. specialize (T Hne). destruct (tag_find t (tags s)) as [z|]; split; auto; try discriminate.
    + intros _. exists z. apply T; auto.
    + intros [w Hw]. apply T in Hw. discriminate.
  - intros Hne w Hw. apply T in Hw; auto. rewrite Hw; auto.
  - intros Hne. rewrite <- T by auto. destruct (tag_find t (tags s)); simpl; split; try discriminate.
    + intros H. f_equal. lia.
    + intros [= ->]. lia.
Qed.
