(* InternShare.v — sharing is complete: with sharing on, two executed node statements that intern and have
   equal keys get the same instance, whatever was executed in between.  The table finds every interning
   instance under its key ([tab_complete], about the state alone); [WInv] gives a statement's instance its key. *)
Require Import Base Rank RankLemmas RankFacts Intern InternFacts.
From Coq Require Import Arith Permutation Lia.
Local Open Scope nat_scope.

(* [k] is the key that statement [l], a node statement that interns, has in state [w] *)
Definition shared_key (prog : list stmt) (w : wst) (l : nat) (k : key) : Prop :=
  exists d ins rins, nth_error prog l = Some (StNode d ins) /\ interns d = true /\
    resolve_inputs (w_env w) (w_phs w) ins = Some rins /\ k = make_key d (eff_inputs d rins).

Definition tab_complete (w : wst) : Prop :=
  forall i it, nth_error (w_insts w) i = Some it -> interns (i_def it) = true ->
  tab_find (make_key (i_def it) (i_ins it)) (w_tab w) = Some i.

Lemma tab_complete_step w l s w' : tab_complete w -> wire_stmt true w l s = Ok w' -> tab_complete w'.
Proof.
  intros T Hw. destruct (stmt_node_dec s) as [(d & ins & ->)|Hn].
  - destruct (wire_node_ok _ _ _ _ _ _ Hw) as (rins & i & _ & _ & _ & _ & _ & [(_ & _ & Ei & Et)|(Hnf & -> & Ei & Et)]);
      unfold tab_complete; rewrite Ei, Et; [exact T|].
    intros j it Hj Hint. apply nth_error_snoc_inv in Hj. destruct Hj as [Hj|[-> ->]].
    + (* an older instance: its key is in the table, the new key was not *)
      specialize (T j it Hj Hint). destruct (interns d) eqn:Ei'; [|exact T]. cbn [tab_find].
      destruct (key_eqb _ _) eqn:E; [|exact T]. apply key_eqb_eq in E. rewrite <- E, Hnf in T by reflexivity. discriminate.
    + cbn [i_def i_ins] in *. rewrite Hint. cbn [tab_find]. rewrite (proj2 (key_eqb_eq _ _) eq_refl). reflexivity.
  - destruct (wire_other _ _ _ _ _ Hw Hn) as (Ei & Et & _). unfold tab_complete. rewrite Ei, Et. exact T.
Qed.

Lemma tab_complete_run prog order w : wire_prog true prog order = Ok w -> tab_complete w.
Proof.
  apply (wire_prog_ind true prog (fun _ w => tab_complete w)).
  - intros [|i] it; discriminate.
  - intros; eapply tab_complete_step; eauto.
Qed.

(* the instance a statement was given has the statement's key, so it is the table's entry for that key *)
Lemma shared_key_found prog done w l k :
  WInv prog done w -> tab_complete w -> In l done -> shared_key prog w l k ->
  exists i, alookup l (w_env w) = Some i /\ tab_find k (w_tab w) = Some i.
Proof.
  intros I T Hl (d & ins & rins & Hn & Hint & R & ->).
  destruct (wi_node_done _ _ _ I l d ins Hl Hn) as (i & Hi). exists i. split; [exact Hi|].
  destruct (wi_env _ _ _ I l i Hi) as (d' & ins' & r' & it & A & B & C & D1 & D2 & D3 & D4 & N & _).
  rewrite Hn in A. injection A as <- <-. rewrite R in C. injection C as <-.
  rewrite <- (T i it B) by congruence. unfold make_key. congruence.
Qed.

Lemma equal_keys_share prog order w l1 l2 k :
  NoDup order -> wire_prog true prog order = Ok w -> In l1 order -> In l2 order ->
  shared_key prog w l1 k -> shared_key prog w l2 k ->
  exists i, alookup l1 (w_env w) = Some i /\ alookup l2 (w_env w) = Some i.
Proof.
  intros Hnd Hw H1 H2 K1 K2. rewrite in_rev in H1, H2.
  pose proof (wire_prog_inv _ _ _ _ Hnd Hw) as I. pose proof (tab_complete_run _ _ _ Hw) as T.
  destruct (shared_key_found _ _ _ _ _ I T H1 K1) as (i1 & A1 & B1).
  destruct (shared_key_found _ _ _ _ _ I T H2 K2) as (i2 & A2 & B2).
  rewrite B1 in B2. injection B2 as <-. eauto.
Qed.
