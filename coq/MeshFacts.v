(* MeshFacts.v — lemmas about the mirror of the mesh_ settle loop (Mesh.v).

   [ext m m']: "m' is a later state of the same settle pass".  It holds across every function that runs inside a
   pass ([process_entry] and everything below it), by one lemma each, of the shape [ext m0 m -> ext m0 (f m)]:
   with the earlier state [m0] left general, transitivity is built in, and [auto] composes the lemmas along a
   function body without having to guess an intermediate state, which [ext_trans] would ask for. *)
Require Import Base Mesh.
From Coq Require Import ZifyBool.

Definition ext (m m' : mesh) : Prop :=
  m_pmin m' <= m_pmin m /\ m_fix m' = m_fix m /\ m_now m' = m_now m /\
  (forall s, get_entry m s <> None -> get_entry m' s <> None).

Lemma ext_refl m : ext m m.
Proof. unfold ext; repeat split; auto; lia. Qed.

Lemma ext_trans a b c : ext a b -> ext b c -> ext a c.
Proof.
  unfold ext; intros (H1 & H2 & H3 & H4) (G1 & G2 & G3 & G4).
  repeat split; [lia | congruence | congruence | auto].
Qed.

Lemma ext_fields m0 m m' :
  m_pmin m' = m_pmin m -> m_fix m' = m_fix m -> m_now m' = m_now m -> m_entries m' = m_entries m ->
  ext m0 m -> ext m0 m'.
Proof. unfold ext, get_entry. intros -> -> -> ->. auto. Qed.

Lemma ext_cand m0 v m : ext m0 m -> ext m0 (set_m_cand v m). Proof. apply ext_fields; reflexivity. Qed.
Lemma ext_cap m0 v m : ext m0 m -> ext m0 (set_m_cap v m). Proof. apply ext_fields; reflexivity. Qed.
Lemma ext_free m0 v m : ext m0 m -> ext m0 (set_m_free v m). Proof. apply ext_fields; reflexivity. Qed.
Lemma ext_oob m0 v m : ext m0 m -> ext m0 (set_m_oob v m). Proof. apply ext_fields; reflexivity. Qed.
Lemma ext_outel m0 v m : ext m0 m -> ext m0 (set_m_outel v m). Proof. apply ext_fields; reflexivity. Qed.
Lemma ext_maxrank m0 v m : ext m0 m -> ext m0 (set_m_maxrank v m). Proof. apply ext_fields; reflexivity. Qed.

Lemma ext_emit m0 l m : ext m0 m -> ext m0 (emit l m).
Proof. apply ext_fields; reflexivity. Qed.

Lemma ext_raise m0 c m : ext m0 m -> ext m0 (raise c m).
Proof. unfold raise; destruct (failed m); [auto | apply ext_fields; reflexivity]. Qed.

Lemma ext_if m0 (b : bool) m1 m2 : ext m0 m1 -> ext m0 m2 -> ext m0 (if b then m1 else m2).
Proof. destruct b; auto. Qed.

Lemma ext_fst_if {B} m0 (b : bool) (p q : mesh * B) :
  ext m0 (fst p) -> ext m0 (fst q) -> ext m0 (fst (if b then p else q)).
Proof. destruct b; auto. Qed.

Lemma ext_pair {B} m0 m (b : B) : ext m0 m -> ext m0 (fst (m, b)).
Proof. auto. Qed.

Lemma get_entry_lt m s : get_entry m s <> None -> (s < length (m_entries m))%nat.
Proof.
  intros H. destruct (Nat.lt_ge_cases s (length (m_entries m))); auto. elim H. apply nth_overflow; auto.
Qed.

Lemma get_put_same m s e : get_entry m s <> None -> get_entry (put_entry s e m) s = Some e.
Proof. intros H. apply (nth_update_same s (fun _ => Some e)), get_entry_lt, H. Qed.

Lemma get_put_other m s s' e : s <> s' -> get_entry (put_entry s e m) s' = get_entry m s'.
Proof. apply nth_update_other. Qed.

Lemma get_upd_entry m s f : get_entry m s <> None ->
  exists e, get_entry m s = Some e /\ get_entry (upd_entry s f m) s = Some (f e).
Proof.
  intros H. unfold upd_entry. destruct (get_entry m s) as [e|] eqn:E; [|congruence].
  exists e; split; auto. apply get_put_same. congruence.
Qed.

Lemma ext_put m0 s e m : ext m0 m -> ext m0 (put_entry s e m).
Proof.
  intros (H1 & H2 & H3 & H4). repeat split; auto. intros s' Hs.
  destruct (Nat.eq_dec s s') as [<-|Hne].
  - rewrite get_put_same; [discriminate | auto].
  - rewrite get_put_other; auto.
Qed.

#[export] Hint Resolve ext_refl ext_cand ext_cap ext_free ext_oob ext_outel ext_maxrank ext_emit ext_raise
  ext_if ext_fst_if ext_pair ext_put : ext.

Lemma ext_upd_entry m0 s f m : ext m0 m -> ext m0 (upd_entry s f m).
Proof. unfold upd_entry; intros H; destruct (get_entry m s); auto with ext. Qed.

Lemma ext_upd_child m0 s f m : ext m0 m -> ext m0 (upd_child s f m).
Proof. apply ext_upd_entry. Qed.

Lemma ext_upd_sub m0 s w f m : ext m0 m -> ext m0 (upd_sub s w f m).
Proof. apply ext_upd_child. Qed.

Lemma note_rank_some s m e :
  get_entry m s = Some e -> note_rank s m = set_m_pmin (Z.min (m_pmin m) (e_rank e)) m.
Proof. unfold note_rank; intros ->; reflexivity. Qed.

Lemma ext_note m0 s m : ext m0 m -> ext m0 (note_rank s m).
Proof.
  unfold note_rank; intros H; destruct (get_entry m s); auto.
  destruct H as (H1 & H2). split; [cbn; lia | exact H2].
Qed.

#[export] Hint Resolve ext_upd_entry ext_upd_child ext_upd_sub ext_note : ext.

Lemma ext_add_cand m0 s m : ext m0 m -> ext m0 (add_cand s m).
Proof. unfold add_cand; auto with ext. Qed.
#[export] Hint Resolve ext_add_cand : ext.

Lemma ext_schedule m0 s n t m : ext m0 m -> ext m0 (schedule s n t m).
Proof. unfold schedule; intros H; destruct (get_entry m s); cbv zeta; auto 7 with ext. Qed.
#[export] Hint Resolve ext_schedule : ext.

Lemma ext_add_slot m0 os m : ext m0 m -> ext m0 (add_slot os m).
Proof. unfold add_slot; intros H; destruct os as [s|]; auto. destruct (get_entry m s); auto with ext. Qed.

Lemma ext_tick_reader m0 k t m s : ext m0 m -> ext m0 (tick_reader k t m s).
Proof. unfold tick_reader; intros H; destruct (get_entry m s); cbv zeta; auto 11 with ext. Qed.

Lemma ext_element_tick m0 k t m : ext m0 m -> ext m0 (element_tick k t m).
Proof.
  unfold element_tick. generalize (seq 0 (m_cap m)); intros l; revert m.
  induction l; cbn [fold_left]; auto using ext_tick_reader.
Qed.
#[export] Hint Resolve ext_add_slot ext_element_tick : ext.

(* KeySlotStore growth: the new slots come after the old ones *)
Lemma ext_grow m0 l c m : ext m0 m -> ext m0 (set_m_entries (m_entries m ++ l) (set_m_cap c m)).
Proof.
  intros (H1 & H2 & H3 & H4). repeat split; auto. intros s Hs.
  unfold get_entry; cbn. rewrite app_nth1; [apply H4, Hs | apply get_entry_lt, H4, Hs].
Qed.

Lemma ext_acquire m0 m : ext m0 m -> ext m0 (fst (acquire m)).
Proof.
  unfold acquire; intros H.
  destruct (m_free m); [cbv zeta; destruct (seq _ _)|]; cbn [fst]; auto using ext_grow with ext.
Qed.

Lemma ext_create m0 k r t m : ext m0 m -> ext m0 (create_instance k r t m).
Proof.
  unfold create_instance; intros H. destruct (find_slot m k); auto.
  assert (Ha : ext m0 (fst (acquire (if pending_key k m then set_m_oob true m else m))))
    by auto using ext_acquire with ext.
  destruct (acquire _) as [m1 slot]. cbv beta iota zeta. auto 12 with ext.
Qed.

Lemma ext_dep_insert m0 d k m : ext m0 m -> ext m0 (dep_insert d k m).
Proof. unfold dep_insert; destruct (dep_find m d); apply ext_fields; reflexivity. Qed.

Lemma ext_remove_dependency m0 k d m : ext m0 m -> ext m0 (remove_dependency k d m).
Proof.
  unfold remove_dependency; destruct (dep_find m d); auto.
  destruct (dense_erase k (dep_set m d)); apply ext_fields; reflexivity.
Qed.

(* [re_rank] only raises errors and lifts ranks: what those two steps keep, it keeps, to any depth *)
Lemma re_rank_keeps (P : mesh -> Prop) :
  (forall c m, P m -> P (raise c m)) ->
  (forall s e v m, P m -> P (set_m_maxrank v (put_entry s e m))) ->
  forall fuel k d stack m, P m -> P (re_rank fuel k d stack m).
Proof.
  intros Hr Hp. induction fuel as [|f IH]; intros k d stack m H; cbn [re_rank]; auto.
  destruct (find_slot m k) as [ks|]; auto. destruct (find_entry m d) as [de|]; auto.
  destruct (get_entry m ks) as [ke|]; auto. destruct (e_rank de <? e_rank ke); auto.
  cbv zeta. set (m1 := set_m_maxrank _ _). assert (H1 : P m1) by (apply Hp, H).
  generalize (dep_set m1 k). clearbody m1. intros ds; revert m1 H1.
  induction ds as [|x rest IHd]; intros m1 H1; auto.
  destruct (failed m1); auto. destruct (zmem x (k :: stack)); auto.
Qed.

Lemma ext_re_rank m0 fuel k d stack m : ext m0 m -> ext m0 (re_rank fuel k d stack m).
Proof. apply re_rank_keeps; auto with ext. Qed.

#[export] Hint Resolve ext_create ext_dep_insert ext_remove_dependency ext_re_rank : ext.

Lemma ext_add_dependency m0 k d t m : ext m0 m -> ext m0 (fst (add_dependency k d t m)).
Proof.
  unfold add_dependency; intros H. cbv zeta.
  destruct (find_entry _ k); [destruct (find_entry _ d)|]; auto 8 with ext.
Qed.

Lemma ext_sub_remove_dep m0 s w m : ext m0 m -> ext m0 (sub_remove_dep s w m).
Proof. unfold sub_remove_dep; auto with ext. Qed.

Lemma ext_sub_clear m0 s w t m : ext m0 m -> ext m0 (sub_clear_links s w t m).
Proof. unfold sub_clear_links; intros H; cbv zeta; destruct (sb_ob _); auto with ext. Qed.
#[export] Hint Resolve ext_sub_remove_dep ext_sub_clear : ext.

Lemma ext_sub_eval m0 s w t m : ext m0 m -> ext m0 (fst (sub_eval s w t m)).
Proof.
  unfold sub_eval; intros H. cbv zeta.
  destruct (if nth w _ false then _ else None) as [j|]; [|auto 6 with ext].
  set (m1 := if _ && (_ =? j) then _ else _).
  assert (H2 : ext m0 (fst (add_dependency (key_of m s) j t m1)))
    by (apply ext_add_dependency; unfold m1; auto 6 with ext).
  destruct (add_dependency _ j t m1) as [m2 ok]. cbv beta iota. auto 8 with ext.
Qed.

Lemma ext_probe m0 s t m : ext m0 m -> ext m0 (probe_eval s t m).
Proof.
  unfold probe_eval; intros H; cbv zeta. destruct (if nth 0 _ false then _ else None); auto with ext.
Qed.

Lemma ext_comb m0 s t m : ext m0 m -> ext m0 (comb_eval s t m).
Proof.
  unfold comb_eval; intros H; cbv zeta. destruct (read_dep m (c_sub1 _)), (read_dep m (c_sub2 _)).
  apply ext_element_tick. revert H. apply ext_fields; reflexivity.
Qed.
#[export] Hint Resolve ext_sub_eval ext_probe ext_comb : ext.

Lemma ext_node_eval m0 s n t m : ext m0 m -> ext m0 (fst (node_eval s n t m)).
Proof. unfold node_eval; auto 8 with ext. Qed.

Lemma ext_finish m0 s m : ext m0 m -> ext m0 (finish_child s m).
Proof. unfold finish_child; auto with ext. Qed.
#[export] Hint Resolve ext_finish : ext.

Lemma ext_node_loop m0 : forall fuel s t m, ext m0 m -> ext m0 (fst (node_loop fuel s t m)).
Proof.
  induction fuel as [|f IH]; intros s t m H; cbn [node_loop]; [auto with ext|]. cbv zeta.
  assert (H1 := ext_node_eval m0 s (c_cursor (child_of m s)) t m H).
  destruct (node_eval s _ t m) as [m1 ok]. cbv beta iota. auto 8 with ext.
Qed.

Lemma ext_child_eval m0 s t m : ext m0 m -> ext m0 (fst (child_eval s t m)).
Proof. unfold child_eval; intros H; cbv zeta. apply ext_node_loop. auto 6 with ext. Qed.

Lemma ext_bind_one m0 s w n t m : ext m0 m -> ext m0 (bind_one s w n t m).
Proof. unfold bind_one; auto with ext. Qed.

Lemma ext_bind_inputs m0 s t m : ext m0 m -> ext m0 (bind_inputs s t m).
Proof. unfold bind_inputs; auto using ext_bind_one. Qed.

Lemma ext_process_entry m0 s t m : ext m0 m -> ext m0 (fst (process_entry s t m)).
Proof.
  unfold process_entry; intros H. destruct (get_entry m s); [|auto with ext]. cbv zeta.
  assert (H1 := ext_bind_inputs m0 s t m H). destruct (get_entry (bind_inputs s t m) s); [|auto 7 with ext].
  assert (H3 := ext_child_eval m0 s t _ (ext_upd_entry m0 s (set_e_paused false) _ H1)).
  destruct (child_eval s t _) as [m3 ok]. cbv beta iota. auto 12 with ext.
Qed.

Lemma evaluated_outcome s t m m' :
  process_entry s t m = (m', Evaluated) -> failed m' = false ->
  exists e', get_entry m' s = Some e' /\
    (e_settled e' = t \/ e_paused e' = true /\ (m_fix m = true -> m_pmin m' <= e_rank e')).
Proof.
  unfold process_entry. destruct (get_entry m s) as [e|] eqn:He; [|discriminate].
  destruct (negb (e_live e)); [discriminate|]. destruct (e_settled e =? t); [discriminate|].
  destruct (m_fix m && _); [discriminate|]. cbv zeta.
  assert (X1 := ext_bind_inputs m s t m (ext_refl m)).
  destruct (get_entry (bind_inputs s t m) s) as [e1|]; [|discriminate].
  destruct (negb _ && negb _); [discriminate|].
  assert (X3 := ext_child_eval m s t _ (ext_upd_entry m s (set_e_paused false) _ X1)).
  destruct (child_eval s t _) as [m3 ok]; cbn [fst] in X3.
  assert (H3 : get_entry m3 s <> None) by (apply X3; congruence).
  destruct (failed m3) eqn:Hf3; [intros [= <-]; congruence|].
  destruct ok; intros [= <-] _.
  - destruct (get_upd_entry m3 s (set_e_settled t) H3) as (e3 & _ & ->). eauto.
  - destruct (get_upd_entry m3 s (set_e_paused true) H3) as (e3 & _ & Hg).
    destruct (ext_upd_entry m s (set_e_paused true) m3 X3) as (_ & Hfx & _).
    exists (set_e_paused true e3). destruct (m_fix (upd_entry s _ m3)).
    + rewrite (note_rank_some _ _ _ Hg). split; [exact Hg|]. right; split; [reflexivity|]. intros _; cbn; lia.
    + split; [exact Hg|]. right; split; [reflexivity|]. congruence.
Qed.

(* The mechanism of the repair.  Once the pending minimum of a pass is at most [r] (a child of rank [r] was
   scheduled for the current cycle through the observer branch of push_observed_child_schedule, or paused),
   the guard defers, untouched, every live unsettled entry ranked strictly above [r] in every later state of
   that pass: it is evaluated in a later pass, after that child. *)
Lemma deferred_above m r m' s t e :
  m_fix m = true -> m_pmin m <= r -> ext m m' ->
  get_entry m' s = Some e -> e_live e = true -> e_settled e <> t -> r < e_rank e ->
  process_entry s t m' = (m', Deferred).
Proof.
  intros Hf Hn (X1 & X2 & _) He Hl Hs Hr. unfold process_entry. rewrite He, Hl, X2, Hf.
  replace (e_settled e =? t) with false by lia. replace (m_pmin m' <? e_rank e) with true by lia. reflexivity.
Qed.

Lemma add_cand_notes m x e :
  m_fix m = true -> get_entry m x = Some e -> m_pmin (add_cand x m) <= e_rank e /\ m_fix (add_cand x m) = true.
Proof.
  intros Hf He. unfold add_cand. rewrite Hf, (note_rank_some x _ e) by exact He. split; [cbn; lia | exact Hf].
Qed.

(* scheduling an idle child for the current cycle notes its rank *)
Lemma schedule_notes m x node t ex :
  m_fix m = true -> get_entry m x = Some ex -> c_started (e_child ex) = true -> c_evalg (e_child ex) = false ->
  t <= m_now m -> m_pmin (schedule x node t m) <= e_rank ex /\ m_fix (schedule x node t m) = true.
Proof.
  intros Hf He Hs Hv Ht. unfold schedule. rewrite He, Hs, Hv. cbn [negb]; cbv zeta.
  replace (t <=? m_now m) with true by lia.
  eapply (add_cand_notes _ x (set_e_child _ ex)); [exact Hf | apply get_put_same; congruence].
Qed.

(* "a depends on b" as registered in `dependents` *)
Definition depends (m : mesh) (a b : Z) : Prop := In a (dep_set m b).
(* the re_rank stack, most recent first: every element depends on the one pushed before it *)
Fixpoint chain (m : mesh) (l : list Z) : Prop :=
  match l with
  | a :: ((b :: _) as r) => depends m a b /\ chain m r
  | _ => True
  end.

Lemma deps_put s e m : m_deps (put_entry s e m) = m_deps m. Proof. reflexivity. Qed.
Lemma deps_raise c m : m_deps (raise c m) = m_deps m.
Proof. unfold raise; destruct (failed m); reflexivity. Qed.

Lemma deps_re_rank fuel k d stack m : m_deps (re_rank fuel k d stack m) = m_deps m.
Proof.
  apply (re_rank_keeps (fun m' => m_deps m' = m_deps m)); auto. intros c m'; rewrite deps_raise; auto.
Qed.

Lemma depends_deps m m' a b : m_deps m' = m_deps m -> depends m' a b -> depends m a b.
Proof. unfold depends, dep_set, dep_find. intros ->. auto. Qed.

Inductive reaches (m : mesh) : Z -> Z -> Prop :=
| reach1 a b : depends m a b -> reaches m a b
| reachS a b c : depends m a b -> reaches m b c -> reaches m a c.

Lemma reaches_trans m a b c : reaches m a b -> reaches m b c -> reaches m a c.
Proof. induction 1; intros; eauto using reaches. Qed.

Lemma chain_reaches m : forall l a x, chain m (a :: l) -> In x l -> reaches m a x.
Proof.
  induction l as [|b r IH]; intros a x Hc Hi; [destruct Hi|].
  destruct Hc as [Hab Hr]. destruct Hi as [->|Hi]; [constructor; auto|].
  eapply reachS; eauto.
Qed.

(* re_rank leaves the edges alone, so the cycle is looked for in a fixed state [m0] with the same edges; "if the
   cycle error is up, there is a cycle" is kept by the call and by the walk inside it. *)
Lemma re_rank_cycle m0 (C := exists x, reaches m0 x x) : forall fuel k d stack m,
  m_deps m = m_deps m0 -> chain m0 (k :: stack) -> (m_err m = E_CYCLE -> C) ->
  m_err (re_rank fuel k d stack m) = E_CYCLE -> C.
Proof.
  induction fuel as [|f IH]; intros k d stack m Hd Hc Hm; cbn [re_rank].
  - unfold raise. destruct (failed m); [exact Hm | discriminate].
  - destruct (find_slot m k) as [ks|]; auto. destruct (find_entry m d) as [de|]; auto.
    destruct (get_entry m ks) as [ke|]; auto. destruct (e_rank de <? e_rank ke); auto.
    cbv zeta. set (m1 := set_m_maxrank _ _).
    change (m_deps m1 = m_deps m0) in Hd. change (m_err m1 = E_CYCLE -> C) in Hm.
    assert (Hsub : forall x, In x (dep_set m1 k) -> depends m0 x k) by (intro; apply depends_deps, Hd).
    revert Hsub. generalize (dep_set m1 k). clearbody m1. intros ds; revert m1 Hd Hm.
    induction ds as [|x rest IHd]; intros m1 Hd Hm Hsub; auto.
    destruct (failed m1); auto.
    assert (Hx : depends m0 x k) by (apply Hsub; left; reflexivity).
    destruct (zmem x (k :: stack)) eqn:Ex.
    + intros _. apply (existsb_eqb_In _ Z.eqb_eq) in Ex. destruct Ex as [<-|Ex].
      * exists k. constructor. exact Hx.
      * exists x. eapply reachS; [exact Hx|]. eapply chain_reaches; eauto.
    + apply IHd; [rewrite deps_re_rank; exact Hd | | intros y Hy; apply Hsub; right; exact Hy].
      apply IH; [exact Hd | split; [exact Hx | exact Hc] | exact Hm].
Qed.

(* a registered edge "a depends on b" is VIOLATED when both instances exist and a is not ranked above b *)
Definition violated (m : mesh) (a b : Z) : Prop :=
  depends m a b /\ exists ea eb, find_entry m a = Some ea /\ find_entry m b = Some eb /\ e_rank ea <= e_rank eb.

(* the conclusion repeats the hypothesis to have the shape of [re_rank_restores], whose exits that change nothing
   it closes *)
Lemma violated_other m k d :
  (forall ek ed, find_entry m k = Some ek -> find_entry m d = Some ed -> e_rank ed < e_rank ek) ->
  forall a b, violated m a b -> violated m a b /\ ~ (a = k /\ b = d).
Proof.
  intros H a b Hv. split; [exact Hv|]. intros [-> ->]. destruct Hv as (_ & ea & eb & Ha & Hb & Hr).
  specialize (H ea eb Ha Hb). lia.
Qed.

Lemma find_from_set_nth a : forall l i ks ke e',
  nth ks l None = Some ke -> e_live e' = e_live ke -> e_key e' = e_key ke ->
  find_from a i (set_nth ks (Some e') l) = find_from a i l.
Proof.
  induction l as [|oe r IH]; intros i ks ke e' Hn Hl Hk; [destruct ks; discriminate|].
  destruct ks as [|ks]; unfold set_nth; cbn [update find_from].
  - cbn in Hn. subst oe. unfold live_key. rewrite Hl, Hk. reflexivity.
  - destruct (live_key a oe); [reflexivity|]. apply (IH (S i) ks ke e'); auto.
Qed.

Lemma find_from_spec a : forall l i s, find_from a i l = Some s ->
  (i <= s)%nat /\ live_key a (nth (s - i) l None) = true.
Proof.
  induction l as [|oe r IH]; intros i s H; [discriminate|]. cbn [find_from] in H.
  destruct (live_key a oe) eqn:E.
  - injection H as <-. rewrite Nat.sub_diag. auto.
  - destruct (IH (S i) s H) as (Hle & Hn). split; [lia|].
    replace (s - i)%nat with (S (s - S i)) by lia. exact Hn.
Qed.

Lemma find_slot_spec m a s : find_slot m a = Some s -> live_key a (get_entry m s) = true.
Proof. intros H. apply find_from_spec in H as (_ & H). rewrite Nat.sub_0_r in H. exact H. Qed.

Lemma find_entry_raise m k ks ke r a :
  find_slot m k = Some ks -> get_entry m ks = Some ke ->
  find_entry (put_entry ks (set_e_rank r ke) m) a = if a =? k then Some (set_e_rank r ke) else find_entry m a.
Proof.
  intros Ek Hg. unfold find_entry.
  replace (find_slot (put_entry ks (set_e_rank r ke) m) a) with (find_slot m a)
    by (symmetry; apply (find_from_set_nth a _ 0%nat ks ke); auto).
  destruct (a =? k) eqn:E.
  - replace a with k by lia. rewrite Ek. apply get_put_same. congruence.
  - destruct (find_slot m a) as [s|] eqn:Es; [|reflexivity]. apply get_put_other. intros <-.
    apply find_slot_spec in Es, Ek. rewrite Hg in Es, Ek. cbn in Es, Ek. lia.
Qed.

Lemma re_rank_restores : forall fuel k d stack m,
  failed (re_rank fuel k d stack m) = false ->
  forall a b, violated (re_rank fuel k d stack m) a b -> violated m a b /\ ~ (a = k /\ b = d).
Proof.
  induction fuel as [|f IH]; intros k d stack m; cbn [re_rank].
  - unfold raise. destruct (failed m) eqn:Hf; [intros Hres; congruence | discriminate].
  - assert (Hfk : find_entry m k = match find_slot m k with Some s => get_entry m s | None => None end)
      by reflexivity.
    destruct (find_slot m k) as [ks|] eqn:Ek; [|intros _; apply violated_other; congruence].
    destruct (find_entry m d) as [de|] eqn:Ed; [|intros _; apply violated_other; congruence].
    destruct (get_entry m ks) as [ke|] eqn:Hg; [|intros _; apply violated_other; congruence].
    destruct (e_rank de <? e_rank ke) eqn:Er.
    { intros _. apply violated_other. intros ek ed. rewrite Hfk, Ed. intros [= <-] [= <-]. lia. }
    cbv zeta. set (r := e_rank de + 1). set (m1 := set_m_maxrank _ _).
    assert (Hfe : forall a, find_entry m1 a = if a =? k then Some (set_e_rank r ke) else find_entry m a)
      by (intros a; apply (find_entry_raise m k ks ke r a Ek Hg)).
    (* the walk: what is violated so far was violated in [m], or leads into [k] from a dependent still to visit *)
    assert (Hstart : failed m1 = false -> forall a b, violated m1 a b ->
              (violated m a b /\ ~ (a = k /\ b = d)) \/ (b = k /\ In a (dep_set m1 k))).
    { intros _ a b (Hdep & ea & eb & Ha & Hb & Hr).
      destruct (Z.eq_dec b k) as [->|Hbk]; [right; split; [reflexivity|exact Hdep]|].
      left. rewrite Hfe in Ha, Hb. replace (b =? k) with false in Hb by lia.
      assert (Hdep0 : depends m a b) by exact Hdep.
      destruct (a =? k) eqn:Eak.
      - replace a with k in * by lia. injection Ha as <-. cbn in Hr. split.
        + split; [exact Hdep0|]. exists ke, eb. repeat split; auto. lia.
        + intros [_ ->]. rewrite Ed in Hb. injection Hb as <-. lia.
      - split; [|intros [-> _]; lia]. split; [exact Hdep0|]. exists ea, eb. auto. }
    revert Hstart. generalize (dep_set m1 k). clearbody m1. clear Hfe. intros ds; revert m1.
    induction ds as [|x rest IHd]; intros m1 Hinv Hres a b Hv.
    + destruct (Hinv Hres a b Hv) as [H|[_ []]]. exact H.
    + destruct (failed m1) eqn:Hf1; [congruence|].
      destruct (zmem x (k :: stack)).
      { unfold raise in Hres. rewrite Hf1 in Hres. discriminate. }
      apply (IHd (re_rank f x k (k :: stack) m1)); [|exact Hres|exact Hv].
      intros Hf2 a' b' Hv'. destruct (IH x k (k :: stack) m1 Hf2 a' b' Hv') as (Hv1 & Hne).
      destruct (Hinv eq_refl a' b' Hv1) as [H|[-> [->|Hin]]]; [left; exact H| |right; split; [reflexivity|exact Hin]].
      exfalso. apply Hne. split; reflexivity.
Qed.
