(* PushQInv.v — the invariant of the push-queue protocol (coq/PushQ.v) and its preservation by the
   producers' steps (the evaluation thread's steps and the induction over label lists: PushQInv2.v).
   [Inv] has a counting part ([Counts]: producers at certain program counters against flags, capacity and
   the evaluation thread's program counter) and a part about the logs ([Times], [Calls], the equation
   between the logs and the queue); each has its own preservation lemmas, so that no arithmetic is done
   next to a list. *)
Require Import Base PushQ.

Local Open Scope nat_scope.

Fixpoint cnt (f : ppc -> bool) (l : list prod) : nat :=
  match l with
  | [] => 0
  | pr :: r => (if f (pc pr) then 1 else 0) + cnt f r
  end.

Definition b2n (b : bool) : nat := if b then 1 else 0.

Lemma cnt_update f p g l d :
  p < length l ->
  cnt f (update p g l) + b2n (f (pc (nth p l d))) = cnt f l + b2n (f (pc (g (nth p l d)))).
Proof.
  revert p; induction l as [|x r IH]; intros [|p] H; simpl in *; try lia.
  - unfold b2n. destruct (f (pc x)), (f (pc (g x))); lia.
  - specialize (IH p ltac:(lia)). lia.
Qed.

Lemma cnt_pos_ex f l d : cnt f l > 0 -> exists p, p < length l /\ f (pc (nth p l d)) = true.
Proof.
  induction l as [|x r IH]; simpl; intros H; try lia.
  destruct (f (pc x)) eqn:E.
  - exists 0. split; [lia|exact E].
  - destruct IH as [p [Hp Hf]]; [lia|]. exists (S p). split; [lia|exact Hf].
Qed.

Lemma cnt_ex_pos f l d p : p < length l -> f (pc (nth p l d)) = true -> cnt f l > 0.
Proof.
  revert p; induction l as [|x r IH]; intros [|p] H E; simpl in *; try lia.
  - rewrite E. lia.
  - specialize (IH p ltac:(lia) E). lia.
Qed.

Lemma cnt_le f g l : (forall x, f x = true -> g x = true) -> cnt f l <= cnt g l.
Proof.
  intros H; induction l as [|x r IH]; simpl; [lia|].
  destruct (f (pc x)) eqn:E; [rewrite (H _ E)|destruct (g (pc x))]; lia.
Qed.

Lemma cnt_repeat_idle f n : f PIdle = false -> cnt f (repeat idle_prod n) = 0.
Proof. intros H; induction n; simpl; [reflexivity|]. rewrite H. exact IHn. Qed.

Definition is_woken (x : ppc) : bool := match x with PWoken => true | _ => false end.
Definition is_mark (x : ppc) : bool := match x with PMark => true | _ => false end.
Definition is_notify (x : ppc) : bool := match x with PNotify => true | _ => false end.
Definition inside (x : ppc) : bool := match x with PIdle | PEnter => false | _ => true end.
Definition pre_adm (x : ppc) : bool :=
  match x with PEnter | PStopChk | PAdmit | PWaiting | PWoken => true | _ => false end.
(* [PushQBridge.admitted]; that file needs the invariant, so the invariant has the function under a name of its own *)
Definition accepted_path (x : ppc) : bool := match x with PMark | PNotify | PLeave 1%Z => true | _ => false end.

Lemma length_map_wake l : length (map wake l) = length l.
Proof. apply map_length. Qed.

Definition flatd (d : list (Z * list entry)) : list entry := concat (map snd d).

Lemma flatd_snoc d t b : flatd (d ++ [(t, b)]) = flatd d ++ b.
Proof. unfold flatd. rewrite map_app, concat_app. simpl. rewrite app_nil_r. reflexivity. Qed.

(* per-producer sorted *)
Inductive PPS : list entry -> Prop :=
| PPS_nil : PPS []
| PPS_snoc l e : PPS l -> (forall e', In e' l -> e_pid e' = e_pid e -> e_seq e' < e_seq e) -> PPS (l ++ [e]).

Lemma PPS_prefix l r : PPS (l ++ r) -> PPS l.
Proof.
  induction r as [|e r IH] using rev_ind; intros H.
  - rewrite app_nil_r in H. exact H.
  - rewrite app_assoc in H. inversion H as [E|l' e' Hl Hlt E].
    + destruct (l ++ r); discriminate.
    + apply app_inj_tail in E. destruct E as [E1 E2]. subst. apply IH. exact Hl.
Qed.

Lemma PPS_NoDup l : PPS l -> NoDup l.
Proof.
  induction 1 as [|l e Hl IH Hlt].
  - constructor.
  - apply NoDup_rev in IH. rewrite <- (rev_involutive (l ++ [e])). apply NoDup_rev.
    rewrite rev_app_distr. simpl. constructor; [|exact IH].
    intros Hin. apply in_rev in Hin. specialize (Hlt e Hin eq_refl). lia.
Qed.

Lemma PPS_nth l : PPS l -> forall i j e1 e2,
  nth_error l i = Some e1 -> nth_error l j = Some e2 -> i < j -> e_pid e1 = e_pid e2 -> e_seq e1 < e_seq e2.
Proof.
  induction 1 as [|l e Hl IH Hlt]; intros i j e1 e2 H1 H2 Hij Hp.
  - destruct i; discriminate.
  - assert (Hj : j < length (l ++ [e])) by (apply nth_error_Some; congruence).
    rewrite app_length in Hj. simpl in Hj.
    destruct (Nat.eq_dec j (length l)) as [Ej|Ej].
    + subst j. rewrite nth_error_app2 in H2 by lia. rewrite Nat.sub_diag in H2. simpl in H2. inversion H2; subst e2.
      rewrite nth_error_app1 in H1 by lia. apply Hlt; [eapply nth_error_In; eauto|exact Hp].
    + rewrite nth_error_app1 in H1 by lia. rewrite nth_error_app1 in H2 by lia. eapply IH; eauto.
Qed.

Fixpoint increasingZ (l : list Z) : Prop :=
  match l with
  | a :: r => match r with b :: _ => (a < b)%Z | [] => True end /\ increasingZ r
  | [] => True
  end.

Lemma increasingZ_snoc l y : increasingZ l -> (forall x, In x l -> (x < y)%Z) -> increasingZ (l ++ [y]).
Proof.
  induction l as [|a r IH]; simpl; intros H Hy; [auto|].
  destruct H as [H1 H2]. split.
  - destruct r as [|b r']; simpl; [apply Hy; left; reflexivity|exact H1].
  - apply IH; [exact H2|intros x Hx; apply Hy; right; exact Hx].
Qed.

Definition cons_accepting (c : cpc) : bool := match c with CStopped | CStopB | CStopC => false | _ => true end.
Definition cons_rearming (c : cpc) : bool := match c with CReset true | CPopped true | CRearm true => true | _ => false end.
Definition is_reset (c : cpc) : bool := match c with CReset _ => true | _ => false end.
Definition is_popped (c : cpc) : bool := match c with CPopped _ => true | _ => false end.
Definition is_queue_pol (p : policy) : bool := match p with Queue => true | _ => false end.

Record Counts (s : state) : Prop := mkCounts {
  c_cfg : pol s = Confl -> cap s = 0;
  c_acc : accepting s = cons_accepting (cons s);
  c_cap : cap s <> 0 -> length (vals s) <= cap s;
  (* no lost wake-up of the evaluation thread *)
  c_wake : vals s <> [] -> stop_req s = false ->
           flag s = true \/ cnt is_mark (prods s) > 0 \/ cons_rearming (cons s) = true;
  (* no lost notification on the executor condition *)
  c_note : cons s = CBlocked -> flag s || stop_req s = true ->
           cnt is_notify (prods s) > 0 \/ stop_notifies s > 0;
  (* the sender control block *)
  c_act : active s = cnt inside (prods s);
  c_det : attached s = false -> active s = 0;
  c_stp : cons s = CStopped -> attached s = false;
  (* no lost notification on capacity_available: past the policy's stop a sender waits only until the stop's
     notify_all (CStopB); while the queue accepts, every free slot is covered by a woken sender or by the notify_one
     that the pop still owes (CPopped), and under Burst the owed notify_all wakes everybody *)
  c_cvs : cnt is_waiting (prods s) > 0 -> accepting s = false -> cons s = CStopB;
  c_cva : cnt is_waiting (prods s) > 0 -> accepting s = true ->
          cap s <> 0 /\ ((pol s = Burst /\ is_popped (cons s) = true) \/
                         cap s <= length (vals s) + cnt is_woken (prods s) + b2n (is_popped (cons s)))
}.
Arguments c_cfg {s}. Arguments c_acc {s}. Arguments c_cap {s}. Arguments c_wake {s}. Arguments c_note {s}.
Arguments c_act {s}. Arguments c_det {s}. Arguments c_stp {s}. Arguments c_cvs {s}. Arguments c_cva {s}.

Lemma full_true s : full s = true -> pol s <> Confl /\ cap s <> 0 /\ cap s <= length (vals s).
Proof.
  unfold full. destruct (pol s); try discriminate; intros H; apply andb_prop in H; destruct H as [H1 H2];
    (split; [discriminate|]); apply Nat.leb_le in H2; split; try exact H2;
    intros E; rewrite E in H1; discriminate.
Qed.
Lemma full_false s : full s = false -> pol s = Confl \/ cap s = 0 \/ length (vals s) < cap s.
Proof.
  unfold full. destruct (pol s); auto; intros H; apply andb_false_iff in H; destruct H as [H|H]; right;
    try (left; destruct (cap s); [reflexivity|discriminate]); right; apply Nat.leb_gt; exact H.
Qed.

(* The side conditions are what the protocol asks of a producer's step; each serves one clause of [Counts]. *)
Lemma counts_move s p g x y a f :
  Counts s -> p < length (prods s) -> pc (get_prod p s) = x -> pc (g (get_prod p s)) = y ->
  a = active s + b2n (inside y) - b2n (inside x) ->
  (inside x = false -> inside y = true -> attached s = true) ->
  (flag s = true -> f = true) ->
  (is_mark x = true -> is_mark y = false -> f = true \/ stop_req s = true) ->
  (f = true -> flag s = true \/ is_notify x = false /\ is_notify y = true) ->
  (is_notify x = true -> is_notify y = false -> cons s <> CBlocked) ->
  (is_waiting x = false -> is_waiting y = true -> accepting s = true /\ full s = true) ->
  (is_woken x = true -> is_woken y = false -> accepting s = false \/ full s = true) ->
  Counts (upd_prod p g (set_active a (set_flag f s))).
Proof.
  intros C Hp Ex Ey Ha Hdet Hfl Hmark Hset Hnote Hwait Hwoken. unfold get_prod in Ex, Ey.
  pose proof (fun h => cnt_update h p g (prods s) idle_prod Hp) as U. rewrite Ex, Ey in U.
  assert (Hin : inside x = true -> cnt inside (prods s) > 0) by (rewrite <- Ex; apply cnt_ex_pos, Hp).
  destruct C as [Cfg Acc Cap Wake Note Act Det Stp Cvs Cva].
  split; cbn [upd_prod set_prods set_active set_flag pol cap vals accepting flag stop_req stop_notifies attached active cons prods].
  - exact Cfg.
  - exact Acc.
  - exact Cap.
  - intros Hv Hs. specialize (Wake Hv Hs). specialize (U is_mark). clear - U Wake Hfl Hmark Hs.
    destruct (is_mark x), (is_mark y); cbn [b2n] in U; lia.
  - intros Hc Hb. specialize (Note Hc). specialize (U is_notify). assert (Hn := fun A B => Hnote A B Hc).
    clear - U Note Hfl Hset Hn Hb.
    destruct (is_notify x), (is_notify y); cbn [b2n] in U; lia.
  - specialize (U inside). clear - U Act Ha Hin. destruct (inside x), (inside y); cbn [b2n] in *; lia.
  - intros Hd. specialize (Det Hd). specialize (U inside). rewrite Hd in Hdet. clear - U Det Ha Hdet Hin Act.
    destruct (inside x), (inside y); cbn [b2n] in *; lia.
  - exact Stp.
  - intros Hw Hacc. apply Cvs; [|exact Hacc]. specialize (U is_waiting). clear - U Hwait Hw Hacc.
    destruct (is_waiting x), (is_waiting y); cbn [b2n] in U; lia.
  - intros Hw Hacc. pose proof (U is_waiting) as Uw. specialize (U is_woken).
    assert (Hf : full s = true -> cap s <> 0 /\ cap s <= length (vals s)) by (intros F; apply full_true in F; tauto).
    assert (H : cnt is_waiting (prods s) > 0 \/ full s = true)
      by (clear - Uw Hw Hwait; destruct (is_waiting x), (is_waiting y); cbn [b2n] in Uw; lia).
    destruct H as [H|H]; [|clear - H Hf; lia].
    destruct (Cva H Hacc) as [C1 [C2|C2]]; (split; [exact C1|]); [left; exact C2|right].
    clear - U C2 Hwoken Hf Hacc. destruct (is_woken x), (is_woken y); cbn [b2n] in U; lia.
Qed.

(* [PushQ.push], unfolded *)
Lemma counts_push s p x y e acc' :
  Counts s -> p < length (prods s) -> pc (get_prod p s) = x -> x = PAdmit \/ x = PWoken ->
  accepting s = true -> full s = false -> y = (if is_nil (vals s) then PMark else PLeave 1) ->
  Counts (goto p y (set_accepted acc' (set_vals (vals s ++ [e]) s))).
Proof.
  intros [Cfg Acc Cap Wake Note Act Det Stp Cvs Cva] Hp Ex Hx Hacc Hf Ey. apply full_false in Hf.
  set (l' := update p (set_pc y) (prods s)).
  assert (Q : cnt is_mark l' = cnt is_mark (prods s) + b2n (is_nil (vals s)) /\ cnt is_notify l' = cnt is_notify (prods s) /\
              cnt inside l' = cnt inside (prods s) /\ cnt is_waiting l' = cnt is_waiting (prods s) /\
              cnt is_woken (prods s) <= cnt is_woken l' + 1).
  { pose proof (fun h => cnt_update h p (set_pc y) (prods s) idle_prod Hp) as U. fold l' in U.
    unfold get_prod in Ex. cbn [pc set_pc] in U. rewrite Ex, Ey in U.
    pose proof (U is_mark). pose proof (U is_notify). pose proof (U inside). pose proof (U is_waiting). specialize (U is_woken).
    clear - H H0 H1 H2 U Hx. destruct Hx as [-> | ->], (vals s); cbn in *; lia. }
  destruct Q as (Qm & Qn & Qi & Qw & Qk).
  split; cbn [goto upd_prod set_prods set_accepted set_vals pol cap vals accepting flag stop_req stop_notifies attached active cons prods];
    fold l'; rewrite ?app_length, ?Qn, ?Qi, ?Qw; cbn [length]; try assumption.
  - intros Hc. specialize (Cap Hc). clear - Hf Cfg Cap Hc. destruct Hf as [Hf|Hf]; [apply Cfg in Hf|]; lia.
  - intros _ Hs. destruct (vals s); cbn [is_nil b2n] in Qm; [right; left; clear - Qm; lia|].
    destruct (Wake ltac:(discriminate) Hs) as [W|[W|W]]; auto. right; left; clear - Qm W; lia.
  - intros Hw _. destruct (Cva Hw Hacc) as [C1 [C2|C2]]; (split; [exact C1|]); [left; exact C2|right; clear - C2 Qk; lia].
Qed.

(* [fresh]: the pop of the cycle at [t] is still to come, so every delivery is strictly before [t] *)
Record Times (pl : policy) (fresh : bool) (t : Z) (d : list (Z * list entry)) : Prop := mkTimes {
  t_inc : increasingZ (map fst d);
  t_each : forall tb, In tb d ->
    (fst tb <= t)%Z /\ (fresh = true -> (fst tb < t)%Z) /\ snd tb <> [] /\ (pl = Queue -> length (snd tb) = 1)
}.

Lemma times_later pl f f' t t' d :
  Times pl f t d -> (t <= t')%Z -> (f' = true -> f = true \/ (t < t')%Z) -> Times pl f' t' d.
Proof.
  intros [T1 T2] Ht Hf. split; [exact T1|]. intros tb Htb. destruct (T2 tb Htb) as (A & B & C & D).
  repeat split; auto; lia.
Qed.

Lemma times_stale pl f t d : Times pl f t d -> Times pl false t d.
Proof. intros T. apply (times_later _ _ _ _ _ _ T); [lia|discriminate]. Qed.

Lemma times_snoc pl t d b :
  Times pl true t d -> b <> [] -> (pl = Queue -> length b = 1) -> Times pl false t (d ++ [(t, b)]).
Proof.
  intros [T1 T2] Hb Hq. split.
  - rewrite map_app. apply increasingZ_snoc; [exact T1|].
    intros x Hx. apply in_map_iff in Hx. destruct Hx as [tb [<- Htb]]. apply (T2 tb Htb). reflexivity.
  - intros tb Htb. apply in_app_or in Htb. destruct Htb as [Htb|[<-|[]]].
    + destruct (T2 tb Htb) as (A & _ & C & D). repeat split; auto; discriminate.
    + simpl. repeat split; auto; try lia; discriminate.
Qed.

(* a producer's accepted entries are numbered below [bound]: the call in progress counts once it is past admission *)
Definition bound (pr : prod) : nat := if pre_adm (pc pr) then pred (nsent pr) else nsent pr.
Definition call_ok (p : nat) (pr : prod) : Prop :=
  pc pr <> PIdle -> e_pid (cur pr) = p /\ nsent pr = S (e_seq (cur pr)).

Record Calls (l : list prod) (acc : list entry) : Prop := mkCalls {
  k_cur : forall p, p < length l -> call_ok p (nth p l idle_prod);
  (* no range is asked of [e_pid e]: [bound idle_prod = 0], so the clause itself puts it inside [l] *)
  k_seq : forall e, In e acc -> e_seq e < bound (nth (e_pid e) l idle_prod);
  k_pps : PPS acc;
  k_log : forall p, p < length l -> accepted_path (pc (nth p l idle_prod)) = true -> In (cur (nth p l idle_prod)) acc
}.
Arguments k_cur {l acc}. Arguments k_seq {l acc}. Arguments k_pps {l acc}. Arguments k_log {l acc}.

Definition later (p : nat) (a b : prod) : Prop :=
  (call_ok p a -> call_ok p b) /\ bound a <= bound b /\
  (accepted_path (pc b) = true -> accepted_path (pc a) = true /\ cur b = cur a).

Lemma later_refl p a : later p a a.
Proof. split; [auto|split; [lia|auto]]. Qed.

Lemma later_same_call p a b :
  cur b = cur a -> nsent b = nsent a -> (pc a = PIdle -> pc b = PIdle) ->
  (pre_adm (pc b) = true -> pre_adm (pc a) = true) ->
  (accepted_path (pc b) = true -> accepted_path (pc a) = true) -> later p a b.
Proof.
  intros Ec En Hi Hb Ha. split; [|split; [|auto]].
  - unfold call_ok. rewrite Ec, En. auto.
  - unfold bound. rewrite En. destruct (pre_adm (pc b)); [rewrite Hb by reflexivity; lia|destruct (pre_adm (pc a)); lia].
Qed.

Lemma calls_later l l' acc :
  Calls l acc -> length l' = length l -> (forall p, later p (nth p l idle_prod) (nth p l' idle_prod)) -> Calls l' acc.
Proof.
  intros [K1 K2 K3 K4] Hl H. split; [| |exact K3|].
  - intros p Hp. apply H, K1. lia.
  - intros e He. pose proof (K2 e He). pose proof (proj1 (proj2 (H (e_pid e)))). lia.
  - intros p Hp Ha. destruct (proj2 (proj2 (H p)) Ha) as [Ha' ->]. apply K4; [lia|exact Ha'].
Qed.

Lemma calls_update l acc p g :
  Calls l acc -> later p (nth p l idle_prod) (g (nth p l idle_prod)) -> Calls (update p g l) acc.
Proof.
  intros K H. apply (calls_later l); [exact K|apply update_length|]. intros q. rewrite nth_update.
  destruct (Nat.eqb_spec q p) as [->|]; [destruct (p <? length l); [exact H|]|]; apply later_refl.
Qed.

Lemma calls_push l acc p y :
  Calls l acc -> p < length l -> pre_adm (pc (nth p l idle_prod)) = true -> pre_adm y = false -> Calls (update p (set_pc y) l) (acc ++ [cur (nth p l idle_prod)]).
Proof.
  intros [K1 K2 K3 K4] Hp Hx Hy. set (a := nth p l idle_prod) in *.
  destruct (K1 p Hp) as [Hpid Hns]; [fold a; intros E; rewrite E in Hx; discriminate|]. fold a in Hpid, Hns.
  assert (N : forall q, nth q (update p (set_pc y) l) idle_prod = if q =? p then set_pc y a else nth q l idle_prod).
  { intros q. rewrite nth_update, (proj2 (Nat.ltb_lt _ _) Hp), andb_true_r. destruct (Nat.eqb_spec q p) as [->|]; reflexivity. }
  (* its bound goes up by one, to just above its own entry *)
  assert (B : bound a = e_seq (cur a) /\ bound (set_pc y a) = S (e_seq (cur a)))
    by (unfold bound; cbn [pc set_pc nsent]; rewrite Hx, Hy, Hns; auto).
  destruct B as [Ba Bb]. split.
  - intros q Hq. rewrite update_length in Hq. rewrite N. destruct (Nat.eqb_spec q p) as [->|]; [intros _; auto|apply K1, Hq].
  - intros e He. rewrite N. apply in_app_or in He. destruct He as [He|[<-|[]]].
    + specialize (K2 e He). destruct (Nat.eqb_spec (e_pid e) p) as [E|]; [|exact K2]. rewrite E in K2. fold a in K2. lia.
    + rewrite Hpid, Nat.eqb_refl. lia.
  - apply PPS_snoc; [exact K3|]. intros e' He' Hp'. specialize (K2 e' He'). rewrite Hp', Hpid in K2. fold a in K2. lia.
  - intros q Hq Ha. rewrite update_length in Hq. rewrite N in *. apply in_or_app.
    destruct (Nat.eqb_spec q p); [right; left; reflexivity|left; exact (K4 q Hq Ha)].
Qed.

Record Inv (s : state) : Prop := mkInv {
  i_counts : Counts s;
  (* [rest]: what the policy's stop dropped from the queue stays in the acceptance log *)
  i_log : if accepting s then accepted s = flatd (delivered s) ++ vals s
          else vals s = [] /\ exists rest, accepted s = flatd (delivered s) ++ rest;
  i_time : Times (pol s) (is_reset (cons s)) (now s) (delivered s);
  i_calls : Calls (prods s) (accepted s)
}.
Arguments i_counts {s}. Arguments i_log {s}. Arguments i_time {s}. Arguments i_calls {s}.

Lemma inv_init pl c n : Inv (init pl c n).
Proof.
  split; [split|..]; cbn; rewrite ?cnt_repeat_idle by reflexivity; try (intros; lia || discriminate); auto.
  - destruct pl; auto; discriminate.
  - split; [reflexivity|exists []; reflexivity].
  - split; [exact I|intros tb []].
  - split; [|intros e []|constructor|]; intros p _; rewrite nth_repeat; [intros []; reflexivity|discriminate].
Qed.

Lemma inv_move s p g x y a f :
  Inv s -> p < length (prods s) -> pc (get_prod p s) = x -> pc (g (get_prod p s)) = y ->
  cur (g (get_prod p s)) = cur (get_prod p s) -> nsent (g (get_prod p s)) = nsent (get_prod p s) ->
  (x = PIdle -> y = PIdle) -> (pre_adm y = true -> pre_adm x = true) -> (accepted_path y = true -> accepted_path x = true) ->
  a = active s + b2n (inside y) - b2n (inside x) ->
  (inside x = false -> inside y = true -> attached s = true) ->
  (flag s = true -> f = true) ->
  (is_mark x = true -> is_mark y = false -> f = true \/ stop_req s = true) ->
  (f = true -> flag s = true \/ is_notify x = false /\ is_notify y = true) ->
  (is_notify x = true -> is_notify y = false -> cons s <> CBlocked) ->
  (is_waiting x = false -> is_waiting y = true -> accepting s = true /\ full s = true) ->
  (is_woken x = true -> is_woken y = false -> accepting s = false \/ full s = true) ->
  Inv (upd_prod p g (set_active a (set_flag f s))).
Proof.
  intros [C L T K] Hp Ex Ey Hc Hn Hi Hb Hr. intros. split; [eapply counts_move; eassumption|exact L|exact T|].
  apply calls_update; [exact K|]. apply later_same_call; unfold get_prod in *; cbn [prods set_active set_flag]; rewrite ?Ex, ?Ey; assumption.
Qed.

(* closes the side conditions of [inv_move] once x and y are known program counters *)
Ltac side := try reflexivity; cbn; try (intros; congruence); auto; try lia.

Lemma notify_exec_spec s :
  (cons s <> CBlocked /\ notify_exec s = s) \/ (cons s = CBlocked /\ notify_exec s = set_cons CIdle s).
Proof. unfold notify_exec. destruct (cons s); try (left; split; [discriminate|reflexivity]). right; split; reflexivity. Qed.

Lemma inv_cwake s : Inv s -> cons s = CBlocked -> Inv (set_cons CIdle s).
Proof.
  intros [[Cfg Acc Cap Wake Note Act Det Stp Cvs Cva] L T K] Ec. rewrite Ec in *.
  split; [split; cbn in *; intuition congruence|exact L|exact T|exact K].
Qed.

Lemma inv_push s p x y :
  Inv s -> p < length (prods s) -> pc (get_prod p s) = x -> x = PAdmit \/ x = PWoken ->
  accepting s = true -> full s = false -> y = (if is_nil (vals s) then PMark else PLeave 1) ->
  Inv (goto p y (set_accepted (accepted s ++ [cur (get_prod p s)]) (set_vals (vals s ++ [cur (get_prod p s)]) s))).
Proof.
  intros [C L T K] Hp Ex Hx Hacc Hf Ey.
  split; cbn [goto upd_prod set_prods set_accepted set_vals pol cap vals accepting flag stop_req stop_notifies attached active cons prods now accepted delivered].
  - eapply counts_push; eassumption.
  - rewrite Hacc in *. rewrite L, app_assoc. reflexivity.
  - exact T.
  - apply calls_push; [exact K|exact Hp|..]; fold (get_prod p s); rewrite ?Ex, ?Ey;
      [destruct Hx as [-> | ->]; reflexivity|destruct (is_nil (vals s)); reflexivity].
Qed.

Lemma inv_admit s p x : Inv s -> p < length (prods s) -> pc (get_prod p s) = x -> x = PAdmit \/ x = PWoken ->
  Inv (admission p (get_prod p s) s).
Proof.
  intros I Hp E Hx. unfold admission, push.
  destruct (accepting s) eqn:Ha; cbn [negb]; [destruct (full s) eqn:Hf; [destruct (knd (get_prod p s))|]|].
  4: eapply inv_push; eauto.
  all: destruct Hx as [-> | ->].
  all: eapply (inv_move s p _ _ _ (active s) (flag s) I Hp E); side.
Qed.

Lemma inv_prod_step s p s' : Inv s -> p < length (prods s) -> prod_step p s = Some s' -> Inv s'.
Proof.
  intros I Hp H. unfold prod_step in H. destruct (pc (get_prod p s)) eqn:E; try discriminate.
  - (* PEnter *)
    destruct (negb (Nat.eqb (handle (get_prod p s)) (epoch s)) || closing s || negb (attached s)) eqn:Hb; inversion H; subst.
    + eapply (inv_move s p _ _ _ (active s) (flag s) I Hp E); side.
    + apply orb_false_iff in Hb. destruct Hb as [_ Hb]. apply negb_false_iff in Hb.
      eapply (inv_move s p _ _ _ (S (active s)) (flag s) I Hp E); side.
  - (* PStopChk *)
    destruct (stop_req s); inversion H; subst; eapply (inv_move s p _ _ _ (active s) (flag s) I Hp E); side.
  - inversion H; subst. eapply inv_admit; eauto.
  - inversion H; subst. eapply inv_admit; eauto.
  - (* PMark *)
    destruct (stop_req s) eqn:Hs; inversion H; subst.
    + eapply (inv_move s p _ _ _ (active s) (flag s) I Hp E); side.
    + eapply (inv_move s p _ _ _ (active s) true I Hp E); side.
  - (* PNotify *)
    inversion H; subst. destruct (notify_exec_spec s) as [[Ec ->]|[Ec ->]].
    + eapply (inv_move s p _ _ _ (active s) (flag s) I Hp E); side.
    + eapply (inv_move _ p _ _ _ (active s) (flag s) (inv_cwake s I Ec) Hp E); side.
  - (* PLeave *)
    inversion H; subst. eapply (inv_move s p _ _ _ (pred (active s)) (flag s) I Hp E); side.
Qed.

Lemma inv_begin s p v k : Inv s -> p < length (prods s) -> pc (get_prod p s) = PIdle ->
  Inv (upd_prod p (fun q => mkProd PEnter (mkEntry p (nsent q) v) k (S (nsent q)) (handle q) (lastr q)) s).
Proof.
  intros [C L T K] Hp E.
  split; [eapply (counts_move s p _ _ _ (active s) (flag s) C Hp E); side|exact L|exact T|].
  apply calls_update; [exact K|]. fold (get_prod p s). split; [intros _ _; split; reflexivity|].
  unfold bound. cbn [pc nsent pre_adm]. rewrite E. cbn. lia.
Qed.
