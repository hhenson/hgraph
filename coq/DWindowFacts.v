(* DWindowFacts.v — the ring of the duration window always holds, in push order, exactly the pushes that have not
   expired, whatever the history of head advances, wrap-arounds and growths. *)
Require Import Base Window DWindow WindowFacts.
From Coq Require Import Arith Sorted.
Local Open Scope nat_scope.

(* the logical view of one physical buffer: [ph] is [DWindow.dphys] with the fields of the window as arguments, and
   [dw_values], [dw_times] are the [lview]s of the two buffers *)
Definition ph (head cap i : nat) : nat := match cap with O => O | _ => (head + i) mod cap end.
Definition lview (l : list Z) (head size cap : nat) : list Z := map (fun i => nth (ph head cap i) l 0%Z) (seq 0 size).

Lemma dw_values_lview w : dw_values w = lview (dw_buf w) (dw_head w) (dw_size w) (dw_cap w).
Proof. reflexivity. Qed.
Lemma dw_times_lview w : dw_times w = lview (dw_tm w) (dw_head w) (dw_size w) (dw_cap w).
Proof. reflexivity. Qed.

Lemma lview_ext l l' h s c h' c' :
  (forall i, i < s -> nth (ph h c i) l 0%Z = nth (ph h' c' i) l' 0%Z) -> lview l h s c = lview l' h' s c'.
Proof. intros H. unfold lview. apply map_seq_ext. exact H. Qed.

(* for a capacity above 0 a view is a [ring], with its lemmas *)
Lemma lview_cons l h s c : 0 < s -> h < c -> lview l h s c = nth h l 0%Z :: lview l (ph h c 1) (s - 1) c.
Proof. intros S H. destruct s, c; try lia. cbn [Nat.sub]. rewrite Nat.sub_0_r. apply ring_cons, H. Qed.

Lemma lview_snoc l h s c v : length l = c -> s < c -> h < c ->
  lview (set_nth (ph h c s) v l) h (S s) c = lview l h s c ++ [v].
Proof. intros L S H. destruct c; [lia|]. apply ring_snoc; assumption. Qed.

Lemma lview_relocate x y s c : s = length x -> s < c -> lview (x ++ y) 0 s c = x.
Proof. intros -> L. destruct c; [lia|]. apply ring_relocate. lia. Qed.

Record DWInv (w : dwin) : Prop := mkDWInv {
  dwi_tm : length (dw_tm w) = dw_cap w;
  dwi_size : dw_size w <= dw_cap w;
  dwi_head : dw_cap w = 0 /\ dw_head w = 0 \/ dw_head w < dw_cap w
}.

Lemma dw_lengths w : length (dw_values w) = dw_size w /\ length (dw_times w) = dw_size w.
Proof. unfold dw_values, dw_times. rewrite !map_length, !seq_length. auto. Qed.

Lemma dwinv_reset w r m e et l : DWInv w -> DWInv (mkDW r m (dw_buf w) (dw_tm w) 0 0 e et l).
Proof.
  intros [T _ _]. constructor; unfold dw_cap in *; cbn [dw_buf dw_tm dw_head dw_size]; [exact T|lia|].
  destruct (length (dw_buf w)); [left; auto|right; lia].
Qed.

(* the fields that the ring operations leave alone *)
Definition dw_meta (w : dwin) := (dw_range w, dw_minr w, dw_ev w, dw_evt w, dw_lmt w).

(* one step of prune_before *)
Definition dw_adv (w : dwin) : dwin :=
  mkDW (dw_range w) (dw_minr w) (dw_buf w) (dw_tm w) (dphys w 1) (dw_size w - 1)
       (dw_ev w) (dw_evt w) (dw_lmt w).

Lemma dw_adv_spec w : DWInv w -> 0 < dw_size w ->
  DWInv (dw_adv w) /\ dw_values w = nth (dw_head w) (dw_buf w) 0%Z :: dw_values (dw_adv w) /\
  dw_times w = nth (dw_head w) (dw_tm w) 0%Z :: dw_times (dw_adv w).
Proof.
  intros [T HS [[H _]|H]] P; unfold dw_cap in *; [lia|]. repeat split.
  - exact T.
  - cbn. lia.
  - right. unfold dw_adv, dphys, dw_cap. cbn [dw_head dw_buf]. destruct (length (dw_buf w)); [lia|]. apply Nat.mod_upper_bound. lia.
  - exact (lview_cons (dw_buf w) _ _ _ P H).
  - exact (lview_cons (dw_tm w) _ _ _ P H).
Qed.

Lemma count_expired_le c l : count_expired c l <= length l.
Proof. induction l as [|x r IH]; simpl; [lia|]. destruct (x <? c)%Z; simpl; lia. Qed.

Lemma dw_times_nil w : dw_size w = 0 -> dw_times w = [].
Proof. intros H. unfold dw_times. rewrite H. reflexivity. Qed.

Lemma dw_prune_spec n cutoff : forall w, DWInv w -> dw_size w <= n ->
  let k := count_expired cutoff (dw_times w) in
  let w' := dw_prune n cutoff w in
  DWInv w' /\ dw_values w' = skipn k (dw_values w) /\ dw_times w' = skipn k (dw_times w) /\ dw_meta w' = dw_meta w.
Proof.
  induction n as [|n IH]; intros w I L; cbn zeta; cbn [dw_prune].
  - rewrite dw_times_nil by lia. auto.
  - fold (dphys w 1). fold (dw_adv w).
    destruct (Nat.ltb_spec 0 (dw_size w)) as [P|P]; cbn [andb]; [|rewrite dw_times_nil by lia; auto].
    destruct (dw_adv_spec w I P) as (I1 & V1 & T1).
    replace (count_expired cutoff (dw_times w)) with (count_expired cutoff (nth (dw_head w) (dw_tm w) 0%Z :: dw_times (dw_adv w)))
      by (rewrite <- T1; reflexivity).
    cbn [count_expired]. destruct (_ <? cutoff)%Z; [|auto]. rewrite V1, T1. cbn [skipn]. exact (IH (dw_adv w) I1 ltac:(cbn; lia)).
Qed.

Lemma dw_prune_before_spec cutoff w : DWInv w ->
  let k := count_expired cutoff (dw_times w) in
  let w' := dw_prune_before cutoff w in
  DWInv w' /\ dw_values w' = skipn k (dw_values w) /\ dw_times w' = skipn k (dw_times w) /\ dw_meta w' = dw_meta w.
Proof.
  intros I. cbn zeta. unfold dw_prune_before.
  destruct (dw_prune_spec (dw_size w) cutoff w I (le_n _)) as (I1 & V1 & T1 & M1). cbn zeta in *.
  destruct (Nat.eqb_spec (dw_size (dw_prune (dw_size w) cutoff w)) 0) as [Z0|NZ]; [|auto].
  rewrite <- V1, <- T1, <- M1. split; [apply dwinv_reset, I1|].
  unfold dw_values, dw_times. rewrite Z0. auto.
Qed.

Lemma dw_ensure_spec req w : DWInv w ->
  let w' := dw_ensure_capacity req w in
  DWInv w' /\ req <= dw_cap w' /\ dw_size w' = dw_size w /\
  dw_values w' = dw_values w /\ dw_times w' = dw_times w /\ dw_meta w' = dw_meta w.
Proof.
  intros I. cbn zeta. unfold dw_ensure_capacity.
  destruct (Nat.leb_spec req (dw_cap w)) as [L|L]; [auto 7|].
  set (c := if dw_cap w =? 0 then Nat.max req 4 else Nat.max req (dw_cap w * 2)).
  assert (CB : dw_cap w < c /\ req <= c) by (unfold c; destruct (Nat.eqb_spec (dw_cap w) 0); lia).
  unfold dw_reserve_exact. destruct (Nat.leb_spec c (dw_cap w)) as [LE|GT]; [lia|].
  destruct (dw_lengths w) as [LV LT], I as [T HS _].
  repeat split; try apply lview_relocate; unfold dw_cap in *; cbn [dw_buf dw_tm dw_head dw_size];
    rewrite ?app_length, ?repeat_length; lia.
Qed.

(* the last step of a push *)
Definition dw_append (v t : Z) (w : dwin) : dwin :=
  mkDW (dw_range w) (dw_minr w) (set_nth (dphys w (dw_size w)) v (dw_buf w)) (set_nth (dphys w (dw_size w)) t (dw_tm w))
       (dw_head w) (S (dw_size w)) (dw_ev w) (dw_evt w) (dw_lmt w).

Lemma dw_append_spec v t w : DWInv w -> dw_size w < dw_cap w ->
  let w' := dw_append v t w in
  DWInv w' /\ dw_values w' = dw_values w ++ [v] /\ dw_times w' = dw_times w ++ [t] /\ dw_meta w' = dw_meta w.
Proof.
  intros [T HS H] L. assert (HC : dw_head w < dw_cap w) by lia.
  repeat split; rewrite ?dw_values_lview, ?dw_times_lview; unfold dw_cap in *; cbn [dw_append dw_buf dw_tm dw_head dw_size];
    rewrite ?set_nth_length; try lia; apply lview_snoc; auto.
Qed.

Lemma dw_push_spec v t w : DWInv w ->
  let k := count_expired (t - dw_range w)%Z (dw_times w) in
  let w' := dw_push v t w in
  DWInv w' /\ dw_values w' = skipn k (dw_values w) ++ [v] /\ dw_times w' = skipn k (dw_times w) ++ [t] /\
  dw_meta w' = match k with
               | O => dw_meta w
               | S d => (dw_range w, dw_minr w, Some (nth d (dw_values w) 0%Z), t, dw_lmt w)
               end.
Proof.
  intros I. cbn zeta. unfold dw_push.
  set (cutoff := (t - dw_range w)%Z). set (k := count_expired cutoff (dw_times w)).
  set (w1 := match k with O => w | S d => _ end).
  assert (W1 : DWInv w1 /\ dw_values w1 = dw_values w /\ dw_times w1 = dw_times w).
  { unfold w1. destruct k; [auto|]. destruct I. repeat split; assumption. }
  destruct W1 as (I1 & V1 & T1).
  destruct (dw_prune_before_spec cutoff w1 I1) as (I2 & V2 & T2 & M2). cbn zeta in V2, T2.
  rewrite T1 in V2, T2. rewrite V1 in V2. fold k in V2, T2.
  set (w2 := dw_prune_before cutoff w1) in *.
  destruct (dw_ensure_spec (dw_size w2 + 1) w2 I2) as (I3 & C3 & S3 & V3 & T3 & M3). cbn zeta in *.
  set (w3 := dw_ensure_capacity (dw_size w2 + 1) w2) in *.
  destruct (dw_append_spec v t w3 I3 ltac:(lia)) as (I4 & V4 & T4 & M4).
  rewrite <- V2, <- V3, <- T2, <- T3. repeat (split; [assumption|]).
  transitivity (dw_meta w1); [exact (eq_trans M4 (eq_trans M3 M2))|]. unfold w1. destruct k; reflexivity.
Qed.

Lemma map_fst_combine {A B} (a : list A) (b : list B) : length a = length b -> map fst (combine a b) = a.
Proof. revert b. induction a as [|x r IH]; intros [|y q] H; simpl in *; try lia; auto. f_equal. apply IH. lia. Qed.

Lemma combine_skipn {A B} k (a : list A) (b : list B) : combine (skipn k a) (skipn k b) = skipn k (combine a b).
Proof.
  revert a b. induction k as [|k IH]; intros a b; [reflexivity|].
  destruct a as [|x r], b as [|y q]; simpl; auto. destruct (skipn k r); reflexivity.
Qed.

Lemma combine_snoc {A B} (a : list A) (b : list B) x y : length a = length b ->
  combine (a ++ [x]) (b ++ [y]) = combine a b ++ [(x, y)].
Proof. revert b. induction a as [|p r IH]; intros [|q s] H; simpl in *; try lia; auto. f_equal. apply IH. lia. Qed.

Definition spec_dpush (R t v : Z) (c : list (Z * Z)) : list (Z * Z) :=
  skipn (count_expired (t - R) (map fst c)) c ++ [(t, v)].

Lemma dw_content_times w : map fst (dw_content w) = dw_times w.
Proof. unfold dw_content. apply map_fst_combine. destruct (dw_lengths w). lia. Qed.

Lemma dw_push_content v t w : DWInv w ->
  DWInv (dw_push v t w) /\ dw_content (dw_push v t w) = spec_dpush (dw_range w) t v (dw_content w) /\
  dw_range (dw_push v t w) = dw_range w /\ dw_minr (dw_push v t w) = dw_minr w /\ dw_lmt (dw_push v t w) = dw_lmt w.
Proof.
  intros I. destruct (dw_push_spec v t w I) as (I' & V & T & M). cbn zeta in *.
  split; [exact I'|]. split.
  - unfold spec_dpush. rewrite dw_content_times. unfold dw_content at 1.
    rewrite V, T, combine_snoc, combine_skipn; [reflexivity|]. rewrite !skipn_length. destruct (dw_lengths w). lia.
  - revert M. generalize (dw_push v t w) as w'. intros w' M. destruct (count_expired _ _); injection M; auto.
Qed.

(* with increasing push times the contents are sorted, and dropping the expired prefix is filtering *)
Definition sorted_below (tl : Z) (c : list (Z * Z)) : Prop :=
  StronglySorted (fun p q => (fst p < fst q)%Z) c /\ Forall (fun p => (fst p <= tl)%Z) c.

Lemma sorted_below_weaken tl t c : sorted_below tl c -> (tl <= t)%Z -> sorted_below t c.
Proof. intros [S F] H. split; [exact S|]. eapply Forall_impl; [|exact F]. cbn. lia. Qed.

Lemma sorted_below_skipn tl k c : sorted_below tl c -> sorted_below tl (skipn k c).
Proof.
  intros [S F]. revert c S F. induction k as [|k IH]; intros [|p c] S F; try (split; assumption).
  apply IH; [inversion S|inversion F]; assumption.
Qed.

Lemma sorted_below_snoc tl t v c : sorted_below tl c -> (tl < t)%Z -> sorted_below t (c ++ [(t, v)]).
Proof.
  intros [S F] H. split.
  - induction S as [|p c S IH P]; cbn [app]; inversion F; repeat constructor; auto.
    apply Forall_app. split; [exact P|]. repeat constructor. cbn [fst]. lia.
  - apply Forall_app. split; [|repeat constructor; cbn [fst]; lia]. eapply Forall_impl; [|exact F]. cbn. lia.
Qed.

Lemma skip_expired_filter cutoff (c : list (Z * Z)) :
  StronglySorted (fun p q => (fst p < fst q)%Z) c ->
  skipn (count_expired cutoff (map fst c)) c = filter (fun p => (cutoff <=? fst p)%Z) c.
Proof.
  induction c as [|p r IH]; intros S; [reflexivity|].
  inversion S as [|x y S1 F1]; subst. cbn [map count_expired filter]. rewrite Z.leb_antisym.
  destruct (Z.ltb_spec (fst p) cutoff) as [L|G]; cbn [negb skipn]; [exact (IH S1)|].
  (* the first pair has not expired; the rest is later still, so nothing of it is skipped either *)
  f_equal. rewrite <- (IH S1). destruct F1 as [|q r L F1]; [reflexivity|]. cbn [map count_expired].
  destruct (Z.ltb_spec (fst q) cutoff); [lia|reflexivity].
Qed.

Definition spec_dwop (R t : Z) (o : wop) (st : bool * bool * list (Z * Z)) : bool * bool * list (Z * Z) :=
  let '(ticked, cl, c) := st in
  match o with
  | WPush v => if ticked && negb cl then st else (true, false, filter (fun p => (t - R <=? fst p)%Z) c ++ [(t, v)])
  | WClear => if ticked then st else (true, true, [])
  | WNop => st
  end.
Definition spec_dwcycle (R t : Z) (ops : list wop) (c : list (Z * Z)) : list (Z * Z) :=
  snd (fold_left (fun st o => spec_dwop R t o st) ops (false, false, c)).
Fixpoint spec_dwhist (R : Z) (h : list (Z * list wop)) (c : list (Z * Z)) : list (Z * Z) :=
  match h with
  | [] => c
  | (t, ops) :: r => spec_dwhist R r (spec_dwcycle R t ops c)
  end.

(* the window of range [R] and minimum range [m] holds the pairs [c], was not modified after [tl], and [c] is sorted
   and not later than [ts] *)
Definition drep R m tl ts (w : dwin) (c : list (Z * Z)) : Prop :=
  DWInv w /\ dw_range w = R /\ dw_minr w = m /\ dw_content w = c /\ (dw_lmt w <= tl)%Z /\ sorted_below ts c.

Lemma drep_weaken R m tl ts tl' ts' w c : drep R m tl ts w c -> (tl <= tl')%Z -> (ts <= ts')%Z -> drep R m tl' ts' w c.
Proof.
  intros (I & RR & M & C & L & S) H1 H2. repeat (split; [assumption|]).
  split; [lia|exact (sorted_below_weaken ts ts' c S H2)].
Qed.

Lemma dw_push_rep R m tl ts v t w c : drep R m tl ts w c -> (ts < t)%Z ->
  drep R m tl t (dw_push v t w) (filter (fun p => (t - R <=? fst p)%Z) c ++ [(t, v)]).
Proof.
  intros (I & RR & M & C & L & S) H. destruct (dw_push_content v t w I) as (I1 & C1 & R1 & M1 & L1).
  rewrite <- (skip_expired_filter _ c (proj1 S)). fold (spec_dpush R t v c).
  split; [exact I1|]. repeat (split; [congruence|]).
  apply sorted_below_snoc with ts; [apply sorted_below_skipn, S|exact H].
Qed.

Lemma dw_clear_rep R m tl ts ts' t w c : drep R m tl ts w c -> drep R m tl ts' (dw_clear t w) [].
Proof.
  intros (I & RR & M & C & L & S). split; [apply dwinv_reset, I|]. repeat split; auto; constructor.
Qed.

(* within the cycle at time [t] > [tl]: the contents are not later than [t]; as long as a push can still be accepted
   (nothing ticked yet, or a clear came last) they are not later than [tl], so that the push keeps them sorted *)
Definition dsim R m tl t (st : bool * dwin) (sp : bool * bool * list (Z * Z)) : Prop :=
  let '(cl, w) := st in let '(ticked, scl, c) := sp in
  drep R m t (if ticked && negb scl then t else tl) w c /\ ticked = (dw_lmt w =? t)%Z /\ (ticked = true -> scl = cl).

Lemma dsim_tick R m tl t cl w c :
  drep R m t (if negb cl then t else tl) w c -> dsim R m tl t (cl, dw_mark t w) (true, cl, c).
Proof.
  intros ([T HS H] & RR & M & C & L & S). unfold dw_mark.
  destruct (Z.leb_spec t (dw_lmt w)); repeat split; auto; try apply S; cbn [dw_lmt]; lia.
Qed.

Lemma dwin_op_sim R m tl t : t <> MIN_DT -> (tl < t)%Z -> forall st sp o,
  dsim R m tl t st sp -> dsim R m tl t (snd (dwin_op t o st)) (spec_dwop R t o sp).
Proof.
  intros NZ TL [cl w] [[ticked scl] c] o K. pose proof K as (I & T & C).
  assert (E : dw_modified t w = ticked).
  { unfold dw_modified. destruct (Z.eqb_spec t MIN_DT); [contradiction|]. symmetry. exact T. }
  destruct o as [v| |]; cbn [dwin_op spec_dwop]; rewrite ?E.
  - replace (ticked && negb cl) with (ticked && negb scl) by (destruct ticked; [rewrite C|]; reflexivity).
    destruct (ticked && negb scl); cbn [snd]; [exact K|].
    apply dsim_tick, dw_push_rep with tl; assumption.
  - destruct ticked; cbn [snd]; [exact K|].
    apply dsim_tick, (dw_clear_rep R m t tl _ t w c), I.
  - exact K.
Qed.

Lemma dwin_cycle_inv R m tl t ops w c : drep R m tl tl w c -> (tl < t)%Z -> t <> MIN_DT ->
  drep R m t t (dwin_cycle t ops w) (spec_dwcycle R t ops c).
Proof.
  intros I TL NZ. unfold dwin_cycle, spec_dwcycle.
  pose proof (fold_left_sim (dsim R m tl t) _ _ (dwin_op_sim R m tl t NZ TL) ops (false, w) (false, false, c)) as G.
  destruct (fold_left _ ops (false, w)) as [cl' w'], (fold_left _ ops (false, false, c)) as [[tk sc] c'].
  destruct G as (G & _).
  - split; [apply (drep_weaken R m tl tl); cbn; auto; lia|]. destruct I as (_ & _ & _ & _ & L & _). split; [lia|reflexivity].
  - apply (drep_weaken _ _ _ _ _ _ _ _ G); destruct (tk && negb sc); lia.
Qed.

Lemma dwin_run_inv R m h : forall w c tl,
  drep R m tl tl w c -> (MIN_DT <= tl)%Z -> wincreasing tl h ->
  exists tl', drep R m tl' tl' (fold_left (fun w c => dwin_cycle (fst c) (snd c) w) h w) (spec_dwhist R h c).
Proof.
  induction h as [|[t ops] r IH]; intros w c tl I P W; cbn [fold_left spec_dwhist fst snd]; [exists tl; exact I|].
  destruct W as [W1 W2]. apply (IH _ _ t); [apply (dwin_cycle_inv R m tl) | | ]; auto; unfold MIN_DT in *; lia.
Qed.
