(* ResolveSubstFacts.v — substituting the bindings into a pattern gives the argument type, up to exactly the
   slack the matcher allows: [srel] for scalars (the substitution of tuple[T, ...] is the variadic tuple, while
   the argument may be a fixed tuple whose fields are all T), [drel] for time-series schemas once dereferenced,
   REF wrappers being transparent in the input direction since the consumer adapts ([accepts_in]). *)
Require Import Base Resolve ResolveMatchFacts.

Fixpoint srel (a b : sty) {struct a} : bool :=
  match a, b with
  | SAtom x, SAtom y => x =? y
  | STuple l, STuple l' => forall2b (fun x y => srel x y) l l'
  | SList e, SList e' => srel e e'
  | SList e, STuple l => match hom_elem l with Some x => srel e x | None => false end
  | SSet e, SSet e' => srel e e'
  | SMap k v, SMap k' v' => srel k k' && srel v v'
  | SBundle i ps, SBundle j ps' => sty_eqb (SBundle i ps) (SBundle j ps')
  | _, _ => false
  end.

Fixpoint drel (a b : tty) {struct a} : bool :=
  match a, b with
  | TSignal, _ => true
  | TTs x, TTs y => srel x y || bundle_is_a y x        (* a TS[Base] position takes a TS[Derived] *)
  | TTss x, TTss y => srel x y
  | TTsl x n, TTsl y n' => ((n =? 0) || (n =? n')) && drel x y
  | TTsd k v, TTsd k' v' => srel k k' && drel v v'
  | TTsw x p m, TTsw y p' m' => srel x y && (p =? p') && (m =? m')
  | TTsb _ fs, TTsb _ fs' => forall2b (fun ft gt => (fst ft =? fst gt) && drel (snd ft) (snd gt)) fs fs'
  | TRef x, TRef y => drel x y
  | _, _ => false
  end.

Definition accepts_in (t' t : tty) : bool := drel (deref t') (deref t).

Lemma srel_refl s : srel s s = true.
Proof.
  induction s as [a | l IH | e IH | e IH | k v IHk IHv | id ps IH] using sty_ind'; cbn [srel];
    rewrite ?Z.eqb_refl, ?IHk, ?IHv; auto using sty_eqb_refl; apply forall2b_refl, IH.
Qed.

Lemma equiv_drel a : forall b, tty_equiv a b = true -> drel a b = true.
Proof.
  induction a as [s | s | e n IH | k v IH | s p m | nm fs IH | t IH | ] using tty_ind';
    intros [s' | s' | e' n' | k' v' | s' p' m' | nm' fs' | t' | ]; cbn [tty_equiv drel]; try discriminate; auto.
  - intros ->%sty_eqb_eq. rewrite srel_refl. auto.
  - intros ->%sty_eqb_eq. apply srel_refl.
  - intros [H1 H2]%andb_prop. rewrite (IH _ H2), H1, orb_true_r. auto.
  - intros [->%sty_eqb_eq H2]%andb_prop. rewrite srel_refl, (IH _ H2). auto.
  - intros [[->%sty_eqb_eq H2]%andb_prop H3]%andb_prop. rewrite srel_refl, H2, H3. auto.
  - apply forall2b_impl. eapply Forall_impl, IH.
    intros ft Hq gt [Hf Hy]%andb_prop. rewrite Hf, (Hq _ Hy). auto.
Qed.

Lemma equiv_deref a : forall b, tty_equiv a b = true -> tty_equiv (deref a) (deref b) = true.
Proof.
  induction a as [s | s | e n IH | k v IH | s p m | nm fs IH | t IH | ] using tty_ind';
    intros [s' | s' | e' n' | k' v' | s' p' m' | nm' fs' | t' | ]; cbn [tty_equiv deref]; try discriminate; auto.
  - intros [H1 H2]%andb_prop. rewrite H1, (IH _ H2). auto.
  - intros [H1 H2]%andb_prop. rewrite H1, (IH _ H2). auto.
  - rewrite forall2b_map. apply forall2b_impl. eapply Forall_impl, IH.
    intros ft Hq gt [Hf Hy]%andb_prop. cbn [fst snd]. rewrite Hf, (Hq _ Hy). auto.
Qed.

Lemma deref_strip t : deref (strip_refs t) = deref t.
Proof. induction t; cbn [strip_refs deref]; auto. Qed.

Lemma strip_idem t : strip_refs (strip_refs t) = strip_refs t.
Proof. induction t; cbn [strip_refs]; auto. Qed.

Lemma deref_mk_ref t : deref (mk_ref t) = deref t.
Proof. destruct t; cbn [mk_ref deref]; auto. Qed.

Lemma drel_of_accepts a b : tty_equiv a b || ts_bundle_is_a b a = true -> drel a b = true.
Proof.
  intros [H|H]%orb_prop; [apply equiv_drel, H|].
  destruct b, a; try discriminate. cbn [ts_bundle_is_a drel] in *. rewrite H. apply orb_true_r.
Qed.

Lemma mapM_forall2b {P S T} (f : P -> option S) (g : P -> T -> bool) (r : S -> T -> bool) ps :
  Forall (fun p => forall t s', g p t = true -> f p = Some s' -> r s' t = true) ps ->
  forall l l', forall2b g ps l = true -> mapM f ps = Some l' -> forall2b r l' l = true.
Proof.
  induction 1 as [|p ps' Hp _ IH]; intros [|t l] l'; cbn [forall2b mapM]; try discriminate.
  - intros _ [= <-]. auto.
  - intros [G1 G2]%andb_prop. destruct (f p) as [s1|]; [|discriminate].
    destruct (mapM f ps') as [l1|]; intros [= <-]. cbn [forall2b]. rewrite (Hp _ _ G1 eq_refl), (IH _ _ G2 eq_refl). auto.
Qed.

Lemma s_subst_rel m p : forall s s', sinst m p s = true -> sresolve p m = Some s' -> srel s' s = true.
Proof.
  induction p as [v cn | c | | c IH | c IH | ps IH | c IH | k v IHk IHv] using spat_ind'; intros s s'; cbn [sinst sresolve];
    try discriminate.
  - destruct (afind v (r_sc m)) as [b|]; [|discriminate]. intros [->%sty_eqb_eq _]%andb_prop [= <-]. apply srel_refl.
  - intros ->%sty_eqb_eq [= <-]. apply srel_refl.
  - destruct (sresolve c m) as [e'|]; [|discriminate].
    destruct s; try discriminate; intros H [= <-]; cbn [srel]; revert H;
      [destruct (hom_elem l); [|discriminate]|]; intros H; apply (IH _ _ H eq_refl).
  - destruct (mapM (fun q => sresolve q m) ps) as [l'|] eqn:E; [|discriminate]. intros H [= <-].
    destruct s; try discriminate. exact (mapM_forall2b (fun q => sresolve q m) (sinst m) srel ps IH _ _ H E).
  - destruct (sresolve c m) as [e'|]; [|discriminate]. intros H [= <-].
    destruct s; try discriminate. exact (IH _ _ H eq_refl).
  - destruct (sresolve k m) as [a'|]; [|discriminate]. destruct (sresolve v m) as [b'|]; [|discriminate]. intros H [= <-].
    destruct s; try discriminate. apply andb_prop in H as [G1 G2]. cbn [srel]. rewrite (IHk _ _ G1 eq_refl), (IHv _ _ G2 eq_refl). auto.
Qed.

Lemma sz_subst_rel m sz n n' : szinst m sz n = true -> szresolve sz m = Some n' -> (n' =? 0) || (n' =? n) = true.
Proof.
  destruct sz as [k|v cn]; cbn [szinst szresolve]; [intros H [= <-]; exact H|].
  destruct (afind v (r_sz m)) as [b|]; [|discriminate]. intros [H _]%andb_prop [= <-]. rewrite H. apply orb_true_r.
Qed.

Lemma fields_subst_rel (m : rmap) (g : tpat -> tty -> bool) (nm nm' : Z) fps :
  Forall (fun fq => forall t t', g (snd fq) t = true -> tresolve (snd fq) m = Some t' -> drel (deref t') (deref t) = true) fps ->
  forall tfs fs', fnames_eqb fps tfs = true -> fields_inst g fps tfs = true ->
    mapM (fun fq => option_map (pair (fst fq)) (tresolve (snd fq) m)) fps = Some fs' ->
    drel (deref (TTsb nm fs')) (deref (TTsb nm' tfs)) = true.
Proof.
  unfold fnames_eqb, fields_inst. cbn [deref drel].
  induction 1 as [|fq fps' Hq _ IH]; intros [|gx tfs] fs'; cbn [forall2b mapM map length combine forallb]; try discriminate.
  - intros _ _ [= <-]. auto.
  - intros [HL [HF HN]%andb_prop]%andb_prop [G1 G2]%andb_prop.
    destruct (tresolve (snd fq) m) as [t1|]; [|discriminate].
    destruct (mapM _ fps') as [l1|]; intros [= <-]. cbn [map forall2b fst snd] in *.
    rewrite HF, (Hq _ _ G1 eq_refl). apply IH; auto. rewrite HN, andb_true_r. exact HL.
Qed.

Lemma t_subst_rel m p : forall t t', tinst m p t = true -> tresolve p m = Some t' -> drel (deref t') (deref t) = true.
Proof.
  induction p as [v cn | c | sp | sp | sz e IH | k v IH | a per mn sp | nd nm fps IH | v | q IH | ] using tpat_ind';
    intros t0 t'; cbn [tinst tresolve is_pref]; rewrite <- ?(deref_strip t0).
  - destruct (afind v (r_ts m)) as [b|]; [|discriminate]. intros [->%tty_eqb_eq _]%andb_prop [= <-].
    apply equiv_drel, tty_equiv_refl.
  - intros H [= <-]. apply equiv_drel, equiv_deref, H.
  - destruct (sresolve sp m) as [s'|] eqn:E; [|discriminate]. destruct (strip_refs t0); try discriminate. intros H [= <-].
    cbn [deref drel]. rewrite (s_subst_rel _ _ _ _ H E). auto.
  - destruct (sresolve sp m) as [s'|] eqn:E; [|discriminate]. destruct (strip_refs t0); try discriminate. intros H [= <-].
    apply (s_subst_rel _ _ _ _ H E).
  - destruct (tresolve e m) as [e'|]; [|discriminate]. destruct (szresolve sz m) as [n'|] eqn:E; [|discriminate].
    destruct (strip_refs t0); try discriminate. intros [G1 G2]%andb_prop [= <-].
    cbn [deref drel]. rewrite (sz_subst_rel _ _ _ _ G1 E), (IH _ _ G2 eq_refl). auto.
  - destruct (sresolve k m) as [k'|] eqn:E; [|discriminate]. destruct (tresolve v m) as [v'|]; [|discriminate].
    destruct (strip_refs t0); try discriminate. intros [G1 G2]%andb_prop [= <-].
    cbn [deref drel]. rewrite (s_subst_rel _ _ _ _ G1 E), (IH _ _ G2 eq_refl). auto.
  - destruct (sresolve sp m) as [s'|] eqn:E; [|discriminate]. destruct a; [discriminate|].
    destruct (strip_refs t0); try discriminate. intros [G1 G2]%andb_prop [= <-].
    cbn [deref drel]. rewrite (s_subst_rel _ _ _ _ G1 E). exact G2.
  - destruct (mapM _ fps) as [fs'|] eqn:E; [|discriminate]. destruct (strip_refs t0); try discriminate.
    intros [[_ GN]%andb_prop G]%andb_prop [= <-]. exact (fields_subst_rel m (tinst m) _ _ fps IH _ _ GN G E).
  - destruct (strip_refs t0) eqn:ES; try discriminate. intros H E. rewrite E in H. apply equiv_drel, equiv_deref, H.
  - destruct (tresolve q m) as [q'|]; [|discriminate]. destruct t0; try discriminate. intros H [= <-].
    rewrite deref_mk_ref, deref_strip. exact (IH _ _ H eq_refl).
  - intros _ [= <-]. reflexivity.
Qed.

Lemma i_subst_rel m p : forall t t', iinst m p t = true -> tresolve p m = Some t' -> accepts_in t' t = true.
Proof.
  unfold accepts_in.
  induction p as [v cn | c | sp | sp | sz e IH | k v IH | a per mn sp | nd nm fps IH | v | q IH | ] using tpat_ind';
    intros t0 t'; cbn [iinst]; rewrite <- ?(deref_strip t0).
  - apply t_subst_rel.
  - intros H [= <-]. destruct c; try apply drel_of_accepts, H. reflexivity.
  - cbn [tresolve]. destruct (sresolve sp m) as [s'|] eqn:E; [|discriminate]. destruct (strip_refs t0); try discriminate.
    intros [H|H]%orb_prop [= <-]; cbn [deref drel]; [rewrite (s_subst_rel _ _ _ _ H E); auto|].
    destruct sp; try discriminate. cbn [bound_bundle_accepts sresolve] in *. rewrite E in H. rewrite H. apply orb_true_r.
  - apply t_subst_rel.
  - cbn [tresolve]. destruct (tresolve e m) as [e'|]; [|discriminate]. destruct (szresolve sz m) as [n'|] eqn:E; [|discriminate].
    destruct (strip_refs t0); try discriminate. intros [G1 G2]%andb_prop [= <-].
    cbn [deref drel]. rewrite (sz_subst_rel _ _ _ _ G1 E), (IH _ _ G2 eq_refl). auto.
  - cbn [tresolve]. destruct (sresolve k m) as [k'|] eqn:E; [|discriminate]. destruct (tresolve v m) as [v'|]; [|discriminate].
    destruct (strip_refs t0); try discriminate. intros [G1 G2]%andb_prop [= <-].
    cbn [deref drel]. rewrite (s_subst_rel _ _ _ _ G1 E), (IH _ _ G2 eq_refl). auto.
  - apply t_subst_rel.
  - cbn [tresolve]. destruct (mapM _ fps) as [fs'|] eqn:E; [|discriminate]. destruct (strip_refs t0); try discriminate.
    intros [[_ GN]%andb_prop G]%andb_prop [= <-]. exact (fields_subst_rel m (iinst m) _ _ fps IH _ _ GN G E).
  - rewrite deref_strip. apply (t_subst_rel m (PTsbVar v)).
  - cbn [tresolve]. destruct (tresolve q m) as [q'|]; [|discriminate]. intros H [= <-].
    rewrite deref_mk_ref, deref_strip. destruct t0; exact (IH _ _ H eq_refl).
  - intros _ [= <-]. reflexivity.
Qed.

(* a top-level variable against a requested REF is bound to the request up to dereferencing and bundle names;
   everything else is the generic direction *)
Lemma o_subst_rel m p t t' : oinst m p t = true -> tresolve p m = Some t' -> accepts_in t' t = true.
Proof.
  destruct p; try apply t_subst_rel. cbn [oinst tresolve]. destruct (is_ref t); [|apply t_subst_rel].
  destruct (afind v (r_ts m)) as [b|]; [|discriminate]. intros H [= <-]. apply equiv_drel, H.
Qed.
