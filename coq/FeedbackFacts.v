(* FeedbackFacts.v — the feedback pair (Feedback.v) on the flat engine.
   Feedback.v states the scan, the cycle and the run loop again over its extended state, so the scan invariants of
   EngineFacts do not apply.  What is used of it: the relation [acts] with its library (the two callbacks are built
   from the engine's primitives: [eval_source_acts] a write, [eval_sink_acts] a request for the paired source; what they
   do is [eval_source_spec], [eval_sink_spec]); [scan_step_idle], through this file's bridge [fscan_step_idle]; and,
   the start phase being the engine's own [start_graph], its lemmas on [start_node], [start_nodes] and [seed_cache].
   For a source / sink pair, [eff] is the effect of one scan step and [PI] the invariant of a cycle, both records of
   clauses guarded by where the scan stands relative to the source, the producer and the sink; [FB] holds between two
   cycles ([fcycle_pair], [run_shift]), [SQ] through the start phase ([fstart_FB]); [feedback_shift_l] is the whole run.
   [QI] with [fscan_QI] is the cycle in which only unread sources are due. *)
Require Import Base Sched SchedFacts Engine EngineFacts Feedback.

(* the producer's write / the source's tick in the current cycle, as a reader sees them *)
Definition tick_now (i : nat) (g : gst) : option Z :=
  if n_lmt (node_at i g) =? g_now g then n_val (node_at i g) else None.

(* the states at the end of every cycle of a run: the loop of [Feedback.frun] written again, keeping the state after
   each cycle.  That the two loops take the same cycles is read off the two definitions; no lemma states it. *)
Fixpoint fstates (cfgs : list ncfg) (kinds : list fkind) (beh : behaviour) (end_ : Z) (fuel : nat) (x : xst) : list xst :=
  match fuel with
  | O => []
  | S f =>
      let g := f_g x in
      if negb (g_err g =? 0) then [] else
      if (g_nst g =? MAX_DT) || (end_ <=? g_nst g) then [] else
      let x' := fcycle cfgs kinds beh (g_nst g) x in x' :: fstates cfgs kinds beh end_ f x'
  end.

Definition ticks_of (i : nat) (l : list xst) : list (Z * Z) :=
  flat_map (fun x => match tick_now i (f_g x) with Some v => [(g_now (f_g x), v)] | None => [] end) l.

Definition shift (tv : Z * Z) : Z * Z := (fst tv + MIN_TD, snd tv).
Definition deliverable (end_ : Z) (tv : Z * Z) : bool := fst tv + MIN_TD <? end_.

Section Callbacks.
Variable cfgs : list ncfg.
Notation cfg := (EngineFacts.cfg cfgs).
Notation notified := (EngineFacts.notified cfgs).
Notation acts := (EngineFacts.acts cfgs).

(* node j has, in state g, a subscribed (run-time active) input bound to the output of node src:
   activate_input_slots sets the flags to the declared i_active at start, user code may change them
   with make_passive / make_active *)
Definition ract (g : gst) (src j : nat) : bool :=
  existsb (fun sa => (i_src (fst sa) =? src)%nat && snd sa) (combine (c_ins (cfg j)) (n_act (node_at j g))).

Lemma inc_evals_keeps x : n_val (inc_evals x) = n_val x /\ n_lmt (inc_evals x) = n_lmt x /\ n_started (inc_evals x) = n_started x.
Proof. repeat split. Qed.

Lemma set_started_keeps x : n_val (set_started x) = n_val x /\ n_lmt (set_started x) = n_lmt x.
Proof. repeat split. Qed.

Lemma ract_source g j s : cfg s = source_cfg -> ract g j s = false.
Proof. intros H. unfold ract. rewrite H. reflexivity. Qed.

Lemma notified_source g j s : cfg s = source_cfg -> notified g j s = false.
Proof. intros H. unfold EngineFacts.notified, listens. now rewrite H. Qed.

(* the sink's subscriptions are what activate_input_slots made them: ts active, ts_self passive *)
Lemma ract_sink g j k p s :
  cfg k = sink_cfg p s -> n_act (node_at k g) = [true; false] -> ract g j k = (p =? j)%nat.
Proof. intros H Ha. unfold ract. rewrite H, Ha. simpl. now rewrite andb_true_r, andb_false_r, !orb_false_r. Qed.

Lemma ready_sink p s g :
  ready (sink_cfg p s) g = match n_val (node_at p g) with Some _ => true | None => false end.
Proof. unfold ready, slot_valid, read_input; simpl. destruct (n_val (node_at p g)); reflexivity. Qed.

Lemma eval_source_acts (U : nat -> (nst -> nst) -> Prop) (T W : nat -> Prop) j g x :
  W j -> acts U T W g (f_g x) -> acts U T W g (f_g (eval_source cfgs j x)).
Proof.
  intros HW A. unfold eval_source. simpl f_g. apply acts_emit; [reflexivity|].
  destruct (negb _); auto. destruct (state_at j x) as [v|]; auto. now apply (acts_write _ _ _ _ _ j (Some v)).
Qed.

Lemma eval_source_spec j x :
  let g := f_g x in let x' := eval_source cfgs j x in let g' := f_g x' in
  f_st x' = f_st x /\ g_now g' = g_now g /\ g_nst g' = g_nst g /\
  (forall m, notified g j m = false -> slot_at m g' = slot_at m g) /\
  g_nodes g' = match (if n_started (node_at j g) then state_at j x else None) with
               | Some v => update j (set_out v (g_now g)) (g_nodes g)
               | None => g_nodes g
               end.
Proof.
  cbn zeta. unfold eval_source. simpl f_g. simpl f_st.
  destruct (n_started (node_at j (f_g x))); simpl negb; cbv iota; [|now repeat split].
  destruct (state_at j x) as [v|]; [|now repeat split].
  change (notify_from _ _ _ _) with (write cfgs j (Some v) (f_g x)).
  destruct (write_frame cfgs j (Some v) (f_g x)) as (sl & _ & E).
  split; [reflexivity|]. split; [now rewrite E|]. split; [now rewrite E|]. split; [|now rewrite E].
  intros m Hm. change (slot_at m (write cfgs j (Some v) (f_g x)) = slot_at m (f_g x)). now rewrite write_slot, Hm.
Qed.

(* the node gate is started && ready; L is the observer's line *)
Lemma eval_sink_eq j x :
  let g := f_g x in let c := cfg j in
  exists L, eval_sink cfgs j x =
    if n_started (node_at j g) && ready c g
    then mkF (emit L (schedule_node (sink_src c) (g_now g + MIN_TD) g))
             (set_nth (sink_src c) (n_val (node_at (sink_prod c) g)) (f_st x))
    else mkF (emit L g) (f_st x).
Proof.
  cbn zeta. unfold eval_sink. fold (cfg j).
  destruct (n_started (node_at j (f_g x))); simpl; [destruct (ready (cfg j) (f_g x))|]; eexists; reflexivity.
Qed.

Lemma eval_sink_acts (U : nat -> (nst -> nst) -> Prop) (T W : nat -> Prop) j g x :
  T (sink_src (cfg j)) -> acts U T W g (f_g x) -> acts U T W g (f_g (eval_sink cfgs j x)).
Proof.
  intros HT A. unfold eval_sink. fold (cfg j). simpl f_g. apply acts_emit; [reflexivity|].
  destruct (negb _); auto. destruct (ready _ _); auto. now apply acts_sched.
Qed.

(* the started sink (the unstarted one is in [eval_sink_eq]); the branch [None] is the gate closed by readiness.
   That the other SLOTS stay is [eval_sink_acts] with [acts_slot] *)
Lemma eval_sink_spec j x p s :
  cfg j = sink_cfg p s -> n_started (node_at j (f_g x)) = true ->
  let g := f_g x in let x' := eval_sink cfgs j x in let g' := f_g x' in
  length (f_st x') = length (f_st x) /\
  (forall m, m <> s -> state_at m x' = state_at m x) /\
  ((s < length (f_st x))%nat -> (s < length (g_slots g))%nat ->
   match n_val (node_at p g) with
   | Some v => state_at s x' = Some v /\
               (slot_at s g <= g_now g -> slot_at s g' = g_now g + 1 /\ g_nst g' <= g_now g + 1)
   | None => state_at s x' = state_at s x /\ slot_at s g' = slot_at s g
   end).
Proof.
  intros Hc St. cbn zeta. destruct (eval_sink_eq j x) as [L ->]. cbn zeta. rewrite Hc, ready_sink, St.
  change (sink_src (sink_cfg p s)) with s. change (sink_prod (sink_cfg p s)) with p.
  destruct (n_val (node_at p (f_g x))) as [v|]; [|now repeat split].
  simpl f_g. simpl f_st. set (g := f_g x).
  (* MIN_TD is 1; here and in [eff] and [PI] the step is written 1 so that lia sees it *)
  unfold MIN_TD. split; [apply update_length|]. split; [intros m Hm; apply nth_update_other; auto|].
  intros Hl Hs. split; [now apply nth_update_same|]. intros Hle.
  destruct (schedule_node_slot_self s (g_now g + 1) g Hs) as [[Y1 Y2]|[_ Y]]; [lia|split; [exact Y1|apply Y2; lia]|lia].
Qed.

End Callbacks.

Section Pair.
Variable cfgs : list ncfg.
Variable kinds : list fkind.
Variable beh : behaviour.
Notation n := (length cfgs).
Notation cfg := (EngineFacts.cfg cfgs).
Notation kind := (kind_at kinds).

(* What the wiring layer guarantees about a graph with feedback (graph_wiring.cpp, control.h):
   every edge points forward in node order - in particular a source is ranked before its
   readers and before its sink, and a sink after its producer (the ts_self edge is rank-free,
   the source is a PullSource without inputs); the two node kinds have the schemas that
   make_feedback_*_node give them; a source is bound at most once. *)
Record fb_wf : Prop := {
  wf_len : length kinds = n;
  wf_rank : well_ranked cfgs;
  wf_source : forall i init, kind i = FSource init -> cfg i = source_cfg;
  wf_sink : forall i, kind i = FSink -> exists p s init, cfg i = sink_cfg p s /\ kind s = FSource init;
  wf_pair : forall k k', kind k = FSink -> kind k' = FSink -> sink_src (cfg k) = sink_src (cfg k') -> k = k' }.

Lemma kind_lt i : kind i <> FNative -> (i < length kinds)%nat.
Proof.
  intros H. destruct (Nat.lt_ge_cases i (length kinds)); auto.
  exfalso. apply H. unfold kind_at. apply nth_overflow; auto.
Qed.

Hypothesis WF : fb_wf.
Variables (k p s : nat) (init : option Z).
Hypothesis HK : kind k = FSink.
Hypothesis HC : cfg k = sink_cfg p s.
Hypothesis HS : kind s = FSource init.

Lemma k_lt : (k < n)%nat.
Proof. rewrite <- (wf_len WF). apply kind_lt. rewrite HK. discriminate. Qed.
Lemma s_lt_k : (s < k)%nat.
Proof. apply (wf_rank WF k (mkIn s false false None false) k_lt). fold (cfg k). rewrite HC. simpl. auto. Qed.
Lemma p_lt_k : (p < k)%nat.
Proof. apply (wf_rank WF k (mkIn p true true None false) k_lt). fold (cfg k). rewrite HC. simpl. auto. Qed.
Lemma s_cfg : cfg s = source_cfg.
Proof. apply (wf_source WF s init HS). Qed.

Set Implicit Arguments.

(* what holds of the state all through the scan of the cycle at time t *)
Record base (t : Z) (x : xst) : Prop := {
  b_now : g_now (f_g x) = t;
  b_ls : length (g_slots (f_g x)) = n;
  b_ln : length (g_nodes (f_g x)) = n;
  b_lst : length (f_st x) = n;
  b_started : forall i, (i < n)%nat -> n_started (node_at i (f_g x)) = true;
  b_nst : t < g_nst (f_g x);
  b_actk : n_act (node_at k (f_g x)) = [true; false] }.

Record eff (t : Z) (j : nat) (x x' : xst) : Prop := {
  e_base : base t x';
  e_nst : g_nst (f_g x') <= g_nst (f_g x);
  e_nodes : forall m, m <> j -> node_at m (f_g x') = node_at m (f_g x);
  e_state : j <> k -> state_at s x' = state_at s x;
  e_slot_s : j <> k -> slot_at s (f_g x') = slot_at s (f_g x);
  e_slot_k : j <> p -> slot_at k (f_g x') = slot_at k (f_g x);
  e_src : j = s -> n_lmt (node_at s (f_g x)) < t ->
     n_lmt (node_at s (f_g x')) <= t /\
     tick_now s (f_g x') = if slot_at s (f_g x) =? t then state_at s x else None;
  e_prod : j = p ->
     (n_lmt (node_at p (f_g x')) = n_lmt (node_at p (f_g x)) /\ slot_at k (f_g x') = slot_at k (f_g x)) \/
     (n_lmt (node_at p (f_g x')) = t /\ slot_at k (f_g x') = t);
  e_sink : j = k ->
     match (if slot_at k (f_g x) =? t then n_val (node_at p (f_g x)) else None) with
     | Some v => state_at s x' = Some v /\
                 (slot_at s (f_g x) <= t -> slot_at s (f_g x') = t + 1 /\ g_nst (f_g x') <= t + 1)
     | None => state_at s x' = state_at s x /\ slot_at s (f_g x') = slot_at s (f_g x)
     end }.

(* when the scan stands before node j; [pend] is the value captured in the previous cycle (or the initial value
   before the first one): to be ticked up to the source, ticked after it.  [pi_prod] is what ties the sink to the
   producer: the sink is subscribed to the producer alone ([b_actk], through [ract_sink]), so it is due in this cycle
   exactly when the producer has notified in it. *)
Record PI (pend : option Z) (t : Z) (j : nat) (x : xst) : Prop := {
  pi_base : base t x;
  pi_src_before : (j <= s)%nat -> n_lmt (node_at s (f_g x)) < t /\
       (if slot_at s (f_g x) =? t then state_at s x else None) = pend;
  pi_src_after : (s < j)%nat -> n_lmt (node_at s (f_g x)) <= t /\ tick_now s (f_g x) = pend;
  pi_slot_s : (j <= k)%nat -> slot_at s (f_g x) <= t;
  pi_prod : n_lmt (node_at p (f_g x)) <= t /\ ((j <= p)%nat -> n_lmt (node_at p (f_g x)) < t) /\
       slot_at k (f_g x) <= t /\ ((j <= k)%nat -> (slot_at k (f_g x) = t <-> n_lmt (node_at p (f_g x)) = t));
  pi_after : (k < j)%nat ->
       match tick_now p (f_g x) with
       | Some v => state_at s x = Some v /\ slot_at s (f_g x) = t + 1 /\ g_nst (f_g x) <= t + 1
       | None => slot_at s (f_g x) <= t
       end }.

Unset Implicit Arguments.

Definition self (j i : nat) (f : nst -> nst) : Prop := i = j /\ own f /\ keeps n_started f.

Lemma acts_base (U : nat -> (nst -> nst) -> Prop) (T W : nat -> Prop) t x g' l :
  base t x -> acts cfgs U T W (f_g x) g' ->
  (forall j f, U j f -> keeps n_started f /\ (j = k -> keeps n_act f)) -> length l = n ->
  base t (mkF g' l).
Proof.
  intros [B1 B2 B3 B4 B5 B6 B7] A HU L. destruct (acts_len _ _ _ A) as [L1 L2]. pose proof (acts_now _ _ _ A) as Nw.
  constructor; simpl; try congruence.
  - intros i Hi. rewrite <- (B5 i Hi). apply (acts_obs cfgs n_started i) with (3 := A); [intros j f K|intros]; right; [apply (HU j f K)|easy].
  - rewrite <- B1. apply (acts_nst_le _ _ _ A). lia.
  - rewrite <- B7. apply (acts_obs cfgs n_act k) with (3 := A); [intros j f K|intros; now right].
    destruct (Nat.eq_dec j k); [right; now apply (HU j f K)|now left].
Qed.

(* the scan step at j was made of steps of node j alone: j is not a sink *)
Lemma acts_eff t j x x' :
  (j < n)%nat -> base t x -> j <> k -> acts cfgs (self j) (eq j) (eq j) (f_g x) (f_g x') -> f_st x' = f_st x ->
  (j = s -> slot_at s (f_g x') = slot_at s (f_g x) /\
            (n_lmt (node_at s (f_g x)) < t -> n_lmt (node_at s (f_g x')) <= t /\
             tick_now s (f_g x') = if slot_at s (f_g x) =? t then state_at s x else None)) ->
  eff t j x x'.
Proof.
  intros Hj B Hk A St Hs. pose proof k_lt as KL.
  assert (O := acts_out cfgs (self j) j _ _ ltac:(now rewrite (b_ln B)) ltac:(intros i f K; split; apply K) A).
  assert (Nk : forall m, notified cfgs (f_g x) m k = (p =? m)%nat).
  { (* [ract g src j] is core's [subscribed src] at the inputs and flags of node j, body for body: [change] crosses *)
    intros m. unfold notified, listens. change (subscribed m _ _) with (ract cfgs (f_g x) m k).
    rewrite (ract_sink _ _ _ _ _ _ HC (b_actk B)), (b_started B), (b_ls B) by auto.
    replace (k <? n)%nat with true by lia. now rewrite !andb_true_r. }
  constructor; try contradiction.
  - destruct x' as [g' l]. apply (acts_base _ _ _ t x) with (2 := A); auto; [|simpl in *; rewrite St; apply B].
    intros i f (-> & _ & K). split; [exact K|contradiction].
  - apply (acts_nst_le _ _ _ A).
  - intros m. apply (acts_other cfgs _ _ _ j) with (3 := A); [now intros i f [-> _]|auto].
  - intros _. unfold state_at. now rewrite St.
  - intros _. destruct (Nat.eq_dec j s) as [->|H]; [now apply Hs|].
    destruct O as [(_ & S)|(_ & S)]; now rewrite S, ?(notified_source _ _ _ _ s_cfg) by auto.
  - intros Hp. destruct O as [(_ & S)|(_ & S)]; rewrite S, ?Nk by auto; auto.
    now replace (p =? j)%nat with false by lia.
  - intros ->. now apply Hs.
  - intros ->. rewrite <- (b_now B).
    destruct O as [(Q & S)|(L & S)]; [left|right]; rewrite S, ?Nk, ?Nat.eqb_refl by auto; auto.
Qed.

Lemma fscan_step_idle j x :
  slot_at j (f_g x) <> g_now (f_g x) ->
  fscan_step cfgs kinds beh j x = mkF (scan_step cfgs beh j (f_g x)) (f_st x).
Proof.
  intros H. destruct x as [g st]. unfold fscan_step, scan_step, fold_slot. simpl in *.
  replace (slot_at j g =? g_now g) with false by lia. now destruct (_ <? _).
Qed.

Lemma step_eff t j x :
  (j < n)%nat -> base t x -> eff t j x (fscan_step cfgs kinds beh j x).
Proof.
  intros Hj B. pose proof B as [B1 B2 B3 B4 B5 B6 B7].
  destruct (slot_at j (f_g x) =? g_now (f_g x)) eqn:E.
  - unfold fscan_step. cbn zeta. rewrite E. fold (counted j (f_g x)). set (g0 := counted j (f_g x)).
    pose proof (counted_nodes j (f_g x)) as G0. fold g0 in G0.
    assert (S0 : self j j inc_evals) by now repeat split.
    unfold eval_any. simpl f_g. simpl f_st.
    destruct (kind j) eqn:Kj.
    + apply acts_eff; auto; [congruence| |congruence]. apply eval_node_acts; auto; [now intros f ? ? _|apply counted_acts, acts_refl; exact S0].
    + (* a source: steps of node j alone, so [acts_eff]; left to say is its own tick, when it is the pair's source *)
      destruct (eval_source_spec cfgs j (mkF g0 (f_st x))) as (S1 & S2 & _ & S3 & S4).
      set (x' := eval_source cfgs j _) in *. cbn [f_g f_st] in S2, S3, S4.
      apply acts_eff; auto; [congruence|apply eval_source_acts, counted_acts, acts_refl; auto|].
      intros ->. split; [apply S3, notified_source, s_cfg|].
      destruct (G0 s) as (V & L & St & _). rewrite St, (B5 s Hj) in S4.
      change (state_at s _) with (state_at s x) in S4.
      rewrite <- B1, E. unfold tick_now, node_at in *. rewrite S2, S4.
      destruct (state_at s x); [rewrite nth_update_same by (unfold g0, counted; simpl; rewrite update_length; lia); simpl|rewrite L, V].
      * intros _. rewrite Z.eqb_refl. split; [lia|reflexivity].
      * intros H. change (g_now g0) with (g_now (f_g x)). replace (_ =? _) with false by lia. split; auto. lia.
    + (* a sink, of whatever pair (pp, ss): it asks for ss, so it is not a step of j alone.  ss is a source, so it is
         not k ([Nk]); and it is s only when j is k, a source being bound at most once ([Ns], the one use of [wf_pair]) *)
      destruct (wf_sink WF j Kj) as (pp & ss & ii & Cj & Kss).
      destruct (eval_sink_spec cfgs j (mkF g0 (f_st x)) pp ss Cj) as (A4 & A8 & A9); [rewrite <- (B5 j Hj); apply G0|].
      assert (A : acts cfgs (fun i f => i = j /\ f = inc_evals) (eq ss) (fun _ => False) (f_g x) (f_g (eval_sink cfgs j (mkF g0 (f_st x))))).
      { apply eval_sink_acts; [now rewrite Cj|now apply counted_acts, acts_refl]. }
      set (x' := eval_sink cfgs j _) in *. cbn [f_g f_st] in *.
      assert (A7 : forall m, m <> ss -> slot_at m (f_g x') = slot_at m (f_g x)).
      { intros m Hm. apply (acts_slot _ m) with (3 := A); [intros i <-|]; auto. }
      assert (Nk : k <> ss) by (intros <-; congruence).
      assert (Ns : j <> k -> s <> ss).
      { intros Hne <-. apply Hne, (wf_pair WF j k Kj HK). now rewrite Cj, HC. }
      constructor.
      * destruct x' as [g' l]. apply (acts_base _ _ _ t x) with (2 := A); auto; [|simpl in *; congruence].
        now intros i f (_ & ->).
      * apply (acts_nst_le _ _ _ A).
      * intros m. apply (acts_other cfgs _ _ _ j) with (3 := A); [now intros i f [-> _]|easy].
      * intros H. now rewrite A8 by auto.
      * intros H. now rewrite A7 by auto.
      * intros _. now rewrite A7 by auto.
      * intros ->. congruence.
      * intros ->. left. split; [|now rewrite A7 by auto].
        apply (acts_obs cfgs n_lmt p) with (3 := A); [intros i f (_ & ->); right; auto with acts|intros i []].
      * intros ->. clear A A7. assert (pp = p /\ ss = s) as [-> ->] by (rewrite HC in Cj; now inversion Cj).
        pose proof s_lt_k. rewrite (proj1 (G0 p)) in A9. replace (_ =? t) with true by lia. rewrite <- B1. apply A9; simpl; lia.
  - (* not due: only the cached next time moves, to w; the rest of x' is x by computation *)
    rewrite fscan_step_idle, scan_step_idle by lia.
    set (w := if _ <? _ then _ else _). assert (W : t < w <= g_nst (f_g x)) by (unfold w; destruct (_ <? _) eqn:?; lia).
    clearbody w. constructor; simpl; auto; try lia.
    + constructor; simpl; auto; lia.
    + intros -> H. unfold tick_now, node_at in *. simpl. replace (_ =? g_now _) with false by lia. replace (_ =? t) with false by lia. split; auto. lia.
    + intros ->. now replace (_ =? t) with false by lia.
Qed.

Lemma PI_step pend t j x :
  (j < n)%nat -> PI pend t j x -> PI pend t (S j) (fscan_step cfgs kinds beh j x).
Proof.
  (* P and E stay folded: as separate hypotheses their fields would be translated by every lia *)
  intros Hj P. pose proof (step_eff t j x Hj (pi_base P)) as E.
  pose proof s_lt_k as SK. pose proof p_lt_k as PK.
  set (x' := fscan_step cfgs kinds beh j x) in *.
  assert (Nt : g_now (f_g x) = t) by apply P.
  assert (Nt' : g_now (f_g x') = t) by apply E.
  assert (TN : forall m, m <> j -> tick_now m (f_g x') = tick_now m (f_g x)).
  { intros m Hm. unfold tick_now. now rewrite Nt', Nt, (e_nodes E). }
  constructor.
  - apply E.
  - intros H. rewrite (e_nodes E), (e_state E), (e_slot_s E) by lia. apply P. lia.
  - intros H. destruct (Nat.eq_dec s j) as [<-|Hs].
    + destruct (pi_src_before P (le_n s)) as [L <-]. now apply (e_src E).
    + rewrite TN, (e_nodes E) by auto. apply P. lia.
  - intros H. rewrite (e_slot_s E) by lia. apply P. lia.
  - pose proof (pi_prod P) as Q. destruct (Nat.eq_dec p j) as [<-|H].
    + destruct (e_prod E eq_refl) as [[X Y]|[X Y]]; rewrite X, Y; lia.
    + rewrite (e_slot_k E), (e_nodes E) by auto. lia.
  - intros H. rewrite TN by lia. destruct (Nat.eq_dec j k) as [->|Hk].
    + pose proof (pi_slot_s P (le_n k)) as L. pose proof (e_sink E eq_refl) as S. pose proof (pi_prod P) as Q.
      unfold tick_now. rewrite Nt. replace (_ =? t) with (slot_at k (f_g x) =? t) by lia.
      destruct (if _ =? t then _ else _); destruct S as [S1 S2]; [|now rewrite S2]. split; auto.
    + rewrite (e_state E), (e_slot_s E) by auto. pose proof (pi_after P) as P8. pose proof (e_nst E) as E1.
      destruct (tick_now p (f_g x)); [|apply P8; lia]. destruct P8 as (A & B & C); [lia|]. repeat split; auto. lia.
Qed.

Lemma fscan_err_sticky m : forall j x, g_err (f_g x) <> 0 -> fscan cfgs kinds beh j m x = x.
Proof. destruct m; simpl; auto. intros j x H. replace (negb (g_err (f_g x) =? 0)) with true by lia. auto. Qed.

Lemma fscan_PI pend t m : forall j x,
  (j + m = n)%nat -> PI pend t j x -> g_err (f_g (fscan cfgs kinds beh j m x)) = 0 ->
  PI pend t n (fscan cfgs kinds beh j m x).
Proof.
  induction m as [|m IH]; intros j x Hjm H Herr; simpl in *.
  - replace n with j by lia. exact H.
  - destruct (negb (g_err (f_g x) =? 0)) eqn:E0; [lia|].
    apply IH; auto; [lia|]. apply PI_step; auto. lia.
Qed.

(* the invariant between two cycles; the next cycle is at [g_nst] *)
Record FB (pend : option Z) (x : xst) : Prop := {
  fb_ls : length (g_slots (f_g x)) = n;
  fb_ln : length (g_nodes (f_g x)) = n;
  fb_lst : length (f_st x) = n;
  fb_started : forall i, (i < n)%nat -> n_started (node_at i (f_g x)) = true;
  fb_lmt_s : n_lmt (node_at s (f_g x)) < g_nst (f_g x);
  fb_lmt_p : n_lmt (node_at p (f_g x)) < g_nst (f_g x);
  fb_slot_k : slot_at k (f_g x) < g_nst (f_g x);
  fb_actk : n_act (node_at k (f_g x)) = [true; false];
  fb_pend : match pend with
            | Some v => state_at s x = Some v /\ slot_at s (f_g x) = g_nst (f_g x)
            | None => slot_at s (f_g x) < g_nst (f_g x)
            end }.

Lemma fcycle_pair pend x :
  FB pend x -> g_nst (f_g x) < MAX_DT ->
  let t := g_nst (f_g x) in
  let x' := fcycle cfgs kinds beh t x in
  g_err (f_g x') = 0 ->
  g_now (f_g x') = t /\ tick_now s (f_g x') = pend /\ FB (tick_now p (f_g x')) x' /\
  t < g_nst (f_g x') /\ (tick_now p (f_g x') <> None -> g_nst (f_g x') = t + MIN_TD).
Proof.
  intros [L1 L2 L3 St A1 A2 A3 AK A4] Hlt t. unfold fcycle. cbn zeta. simpl f_g. simpl f_st.
  set (x0 := {| f_g := begin_cycle t (f_g x); f_st := f_st x |}).
  intros Herr.
  pose proof s_lt_k as SK. pose proof p_lt_k as PK. pose proof k_lt as KL.
  assert (N0 : forall m, node_at m (f_g x0) = node_at m (f_g x)) by reflexivity.
  assert (S0 : forall m, slot_at m (f_g x0) = slot_at m (f_g x)) by reflexivity.
  assert (H0 : PI pend t 0 x0).
  { constructor; rewrite ?N0, ?S0; try lia.
    - now constructor.
    - intros _. split; [exact A1|]. change (state_at s x0) with (state_at s x).
      destruct pend; [destruct A4 as [-> ->]; now rewrite Z.eqb_refl|now replace (_ =? t) with false by lia].
    - destruct pend; lia. }
  pose proof (fscan_PI pend t n 0%nat x0 ltac:(lia) H0 Herr) as [[B1 B2 B3 B4 B5 B6 B7] _ P3 _ P7 P8].
  set (x1 := fscan cfgs kinds beh 0 n x0) in *.
  destruct (P3 ltac:(lia)) as [Ls R], P7 as (Lp & _ & Lk & _). specialize (P8 KL).
  assert (F1 : FB (tick_now p (f_g x1)) x1 /\ (tick_now p (f_g x1) <> None -> g_nst (f_g x1) = t + MIN_TD)).
  { unfold MIN_TD. destruct (tick_now p (f_g x1)); (split; [constructor|]); auto; try lia; try easy.
    split; [apply P8|lia]. }
  destruct F1 as [F1 W]. split; auto. split; auto. split; [destruct F1; constructor; assumption|]. split; auto.
Qed.

Lemma frun_err_zero end_ fuel : forall x, g_err (f_g (frun cfgs kinds beh end_ fuel x)) = 0 -> g_err (f_g x) = 0.
Proof.
  induction fuel as [|f IH]; intros x; simpl; [easy|].
  destruct (negb (g_err (f_g x) =? 0)) eqn:E; [auto|lia].
Qed.

Definition pend_prefix (end_ : Z) (pend : option Z) (x : xst) : list (Z * Z) :=
  match pend with
  | Some v => if g_nst (f_g x) <? end_ then [(g_nst (f_g x), v)] else []
  | None => []
  end.

Lemma run_shift end_ fuel : forall pend x,
  FB pend x -> end_ <= MAX_DT ->
  g_err (f_g (frun cfgs kinds beh end_ fuel x)) = 0 ->
  ticks_of s (fstates cfgs kinds beh end_ fuel x) =
  pend_prefix end_ pend x ++ map shift (filter (deliverable end_) (ticks_of p (fstates cfgs kinds beh end_ fuel x))).
Proof.
  induction fuel as [|f IH]; intros pend x HF He Herr.
  - simpl in Herr. lia.
  - simpl in *. destruct (negb (g_err (f_g x) =? 0)) eqn:E0; [lia|].
    destruct ((g_nst (f_g x) =? MAX_DT) || (end_ <=? g_nst (f_g x))) eqn:Es.
    + simpl. unfold pend_prefix. destruct pend; auto.
      replace (g_nst (f_g x) <? end_) with false by lia. reflexivity.
    + set (x' := fcycle cfgs kinds beh (g_nst (f_g x)) x) in *.
      pose proof (frun_err_zero _ _ _ Herr) as Herr'.
      destruct (fcycle_pair pend x HF ltac:(lia) Herr') as (N & R & F' & Gt & W).
      fold x' in N, R, F', Gt, W.
      specialize (IH (tick_now p (f_g x')) x' F' He Herr).
      unfold ticks_of in *. cbn [flat_map]. rewrite IH, R, N. clear IH.
      unfold pend_prefix. replace (g_nst (f_g x) <? end_) with true by lia.
      destruct (tick_now p (f_g x')) as [w|] eqn:Ew.
      * rewrite (W ltac:(congruence)). cbn [app filter].
        change (deliverable end_ (g_nst (f_g x), w)) with (g_nst (f_g x) + MIN_TD <? end_).
        destruct (g_nst (f_g x) + MIN_TD <? end_); destruct pend; cbn [map app]; reflexivity.
      * destruct pend; cbn [map app]; reflexivity.
Qed.

Lemma fb_sos i : kind i <> FNative -> c_sos (cfg i) = false.
Proof.
  destruct (kind i) eqn:K; [easy|rewrite (wf_source WF i _ K)|destruct (wf_sink WF i K) as (? & ? & ? & -> & _)]; reflexivity.
Qed.

(* a feedback node runs no user code at start: its subscriptions stay what activate_input_slots made them *)
Lemma start_fb_node i g :
  (i < length (g_nodes g))%nat -> (i < length (g_slots g))%nat -> kind i <> FNative ->
  let g' := start_node cfgs (fb_beh kinds beh) i g in
  g_err g' = 0 ->
  n_act (node_at i g') = map i_active (c_ins (cfg i)) /\
  slot_at i g' = match init_of (kind i) with Some _ => g_now g | None => slot_at i g end.
Proof.
  intros Hi Hs Hk. cbn zeta. unfold start_node, fb_beh. fold (cfg i). rewrite (fb_sos i Hk).
  destruct (negb (g_err g =? 0)) eqn:E0; [lia|]. cbn zeta.
  set (ga := upd_node i (set_act (map i_active (c_ins (cfg i)))) g).
  assert (Hia : (i < length (g_nodes ga))%nat) by (unfold ga, upd_node; simpl; now rewrite update_length).
  assert (Na : node_at i ga = set_act (map i_active (c_ins (cfg i))) (node_at i g)) by now apply node_at_upd_same.
  destruct (kind i) as [|[v|]|]; [easy|..]; simpl do_ops; unfold do_op; change (g_err ga) with (g_err g); rewrite ?E0; cbn zeta.
  2,3: intros _; rewrite node_at_upd_same, Na by auto; now split.
  rewrite Z.add_0_r, schedule_now. cbn [g_err]. change (g_err ga) with (g_err g). rewrite E0. intros _.
  rewrite node_at_upd_same by auto. split; [exact (f_equal n_act Na)|].
  unfold slot_at; simpl. now rewrite slot_at_set_same.
Qed.

(* the start phase when the first i nodes have been started (S for start; Q as in [QI]: a quiet phase, nothing is
   written in it).  EngineFacts has [start_ok] for this phase, but under [start_ops_ok], which allows no raw request in
   a start hook, and the start hook of a source with an initial value is [ORaw 0] ([Feedback.fb_beh]): hence this one,
   which speaks of the feedback nodes only *)
Record SQ (start : Z) (i : nat) (g : gst) : Prop := {
  sq_now : g_now g = start;
  sq_ls : length (g_slots g) = n;
  sq_ln : length (g_nodes g) = n;
  sq_lmt : forall m, n_lmt (node_at m g) = MIN_DT;
  sq_done : forall m, (m < i)%nat -> n_started (node_at m g) = true /\
     (kind m <> FNative -> n_act (node_at m g) = map i_active (c_ins (cfg m)) /\
        slot_at m g = match init_of (kind m) with Some _ => start | None => MIN_DT end);
  sq_todo : forall m, (i <= m)%nat -> slot_at m g = MIN_DT }.

Lemma start_nodes_SQ start m : forall i g,
  (i + m = n)%nat -> SQ start i g ->
  g_err (start_nodes cfgs (fb_beh kinds beh) i m g) = 0 -> SQ start n (start_nodes cfgs (fb_beh kinds beh) i m g).
Proof.
  induction m as [|m IH]; intros i g Him H Herr; simpl in *.
  - replace n with i by lia. exact H.
  - assert (Herr1 : g_err (start_node cfgs (fb_beh kinds beh) i g) = 0).
    { destruct (Z.eq_dec (g_err (start_node cfgs (fb_beh kinds beh) i g)) 0); auto.
      rewrite start_nodes_err_sticky in Herr by auto. contradiction. }
    apply IH; auto; [lia|].
    destruct H as [Q1 Q2 Q3 Q4 Q5 Q6].
    (* user code runs unstarted, so it cannot write: the start of node i is made of steps of node i alone *)
    pose proof (start_node_started cfgs (fb_beh kinds beh) i g ltac:(lia)) as F5.
    assert (A : acts cfgs (fun j f => j = i /\ own f) (eq i) (fun _ => False) g (start_node cfgs (fb_beh kinds beh) i g))
      by (apply start_node_acts, acts_refl; auto).
    set (g' := start_node cfgs (fb_beh kinds beh) i g) in *.
    pose proof (acts_now _ _ _ A) as F1. destruct (acts_len _ _ _ A) as [F2 F3].
    assert (F4 : forall m0, m0 <> i -> node_at m0 g' = node_at m0 g).
    { intros m0. apply (acts_other cfgs _ _ _ i) with (3 := A); [now intros j f [-> _]|easy]. }
    assert (F6 : forall m0, n_lmt (node_at m0 g') = n_lmt (node_at m0 g)).
    { intros m0. apply (acts_obs cfgs n_lmt m0) with (3 := A); [intros j f (_ & K); now right|intros j []]. }
    assert (F7 : forall m0, m0 <> i -> slot_at m0 g' = slot_at m0 g).
    { intros m0 Hm. apply (acts_slot cfgs m0) with (3 := A); [intros j <-; congruence|easy]. }
    pose proof (start_fb_node i g ltac:(lia) ltac:(lia)) as SF. cbn zeta in SF. fold g' in SF.
    constructor; try congruence.
    + intros m0 Hm0. destruct (Nat.eq_dec m0 i) as [->|Hne]; [|rewrite F4, F7 by auto; apply Q5; lia].
      split; [auto|]. intros K. destruct (SF K Herr1) as [Sa ->]. now rewrite Q1, (Q6 i) by auto.
    + intros m0 Hm0. rewrite F7 by lia. apply Q6; lia.
Qed.

Lemma fstart_FB start :
  MIN_DT < start -> start <= MAX_DT -> g_err (f_g (fstart cfgs kinds beh start)) = 0 ->
  FB init (fstart cfgs kinds beh start) /\ g_now (f_g (fstart cfgs kinds beh start)) = start /\
  start <= g_nst (f_g (fstart cfgs kinds beh start)) /\
  (init <> None -> g_nst (f_g (fstart cfgs kinds beh start)) = start).
Proof.
  intros Hst HsM. unfold fstart. simpl f_g. unfold start_graph.
  pose proof s_lt_k as SK. pose proof k_lt as KL.
  set (g0 := mkG start (repeat MIN_DT n) MAX_DT (repeat init_n n) [] 0).
  assert (H0 : SQ start 0 g0).
  { constructor; simpl; auto using repeat_length; try easy; intros; unfold node_at, slot_at; simpl; now rewrite nth_repeat. }
  set (g1 := start_nodes cfgs (fb_beh kinds beh) 0 n g0).
  destruct (negb (g_err g1 =? 0)) eqn:E1; [intros; lia|]. intros _.
  assert (Q : SQ start n (seed_cache g1)).
  { destruct (start_nodes_SQ start n 0%nat g0 eq_refl H0); [fold g1; lia|]. now constructor. }
  destruct Q as [Q1 Q2 Q3 Q4 Q5 _].
  destruct (proj2 (Q5 k KL)) as [Ak Sk]; [now rewrite HK|]. destruct (proj2 (Q5 s ltac:(lia))) as [_ Ss]; [now rewrite HS|].
  rewrite HK in Sk. rewrite HS in Ss. cbn [init_of] in Sk, Ss.
  destruct (seed_cache_nst g1) as [G G']. cbn zeta in G, G'. rewrite Q1 in G, G'.
  assert (NI : init <> None -> g_nst (seed_cache g1) = start).
  { intros Hi. apply Z.le_antisymm; [|lia]. destruct init; [|easy]. rewrite <- Ss. apply G'; lia. }
  split; [|split; [exact Q1|split; [lia|exact NI]]].
  constructor; simpl f_g; simpl f_st; rewrite ?Q4; auto; try lia.
  - rewrite map_length. apply (wf_len WF).
  - intros i Hi. now apply Q5.
  - rewrite Ak, HC. reflexivity.
  - assert (St : state_at s {| f_g := seed_cache g1; f_st := map state0_of kinds |} = state0_of (FSource init)).
    { unfold state_at; simpl. change None with (state0_of FNative). rewrite map_nth. fold (kind s). now rewrite HS. }
    rewrite St, Ss. clear St HS. destruct init as [v|]; [|lia]. split; auto. rewrite NI; congruence.
Qed.

Theorem feedback_shift_l start end_ fuel :
  MIN_DT < start -> end_ <= MAX_DT ->
  g_err (f_g (fsim cfgs kinds beh start end_ fuel)) = 0 ->
  let sts := fstates cfgs kinds beh end_ fuel (fstart cfgs kinds beh start) in
  ticks_of s sts =
  (match init with Some v => if start <? end_ then [(start, v)] else [] | None => [] end) ++
  map shift (filter (deliverable end_) (ticks_of p sts)).
Proof.
  intros Hst He Herr. cbn zeta. unfold fsim in Herr.
  pose proof (frun_err_zero _ _ _ Herr) as E0.
  destruct (Z_le_gt_dec start MAX_DT) as [HsM|HsM].
  - destruct (fstart_FB start Hst HsM E0) as (F & N & G & NI).
    rewrite (run_shift end_ fuel init _ F He Herr). f_equal.
    unfold pend_prefix. clear F Herr E0. destruct init as [v|]; auto.
    rewrite NI by congruence. reflexivity.
  - (* start beyond the end of time: no cycle at all *)
    replace (start <? end_) with false by lia.
    replace (fstates _ _ _ _ _ _) with (@nil xst); [now destruct init|].
    destruct fuel; simpl; auto. unfold start_graph.
    set (g1 := start_nodes cfgs (fb_beh kinds beh) 0 n _).
    destruct (negb (g_err g1 =? 0)) eqn:E1; [now rewrite E1|]. destruct (negb _); auto.
    destruct (seed_cache_nst g1) as [[->|H] _]; [now rewrite Z.eqb_refl|].
    change (g_now g1 <= g_nst (seed_cache g1)) in H. unfold g1 in H at 1. rewrite start_nodes_now in H. cbn [g_now] in H.
    now replace (_ || _) with true by lia.
Qed.

End Pair.

Section Quiescence.
Variable cfgs : list ncfg.
Variable kinds : list fkind.
Variable beh : behaviour.
Notation kind := (kind_at kinds).

Definition unread_source (g : gst) (i : nat) : Prop :=
  (exists init, kind i = FSource init) /\ forall j, ract cfgs g i j = false.

(* a cycle in which only unread sources are due: relative to its first state x0 only outputs
   of sources change *)
Record QI (T : Z) (x0 x : xst) : Prop := {
  q_now : g_now (f_g x) = T;
  q_nst : g_nst (f_g x) = MAX_DT;
  q_st : f_st x = f_st x0;
  q_slots : forall m, slot_at m (f_g x) = slot_at m (f_g x0);
  q_nodes : forall m, (forall init, kind m <> FSource init) -> node_at m (f_g x) = node_at m (f_g x0);
  q_act : forall m, n_act (node_at m (f_g x)) = n_act (node_at m (f_g x0)) }.

Lemma fscan_QI T x0 m : forall j x,
  (forall i, (j <= i < j + m)%nat -> slot_at i (f_g x0) <= T) ->
  (forall i, (j <= i < j + m)%nat -> slot_at i (f_g x0) = T -> unread_source (f_g x0) i) ->
  QI T x0 x -> QI T x0 (fscan cfgs kinds beh j m x).
Proof.
  induction m as [|m IH]; intros j x Hle Hun H; simpl; auto.
  destruct (negb (g_err (f_g x) =? 0)); auto.
  apply IH; [intros; apply Hle; lia|intros i Hi; apply Hun; lia|].
  destruct H as [Q1 Q2 Q4 Q5 Q6 Q7]. unfold fscan_step. cbn zeta. rewrite Q5, Q1.
  specialize (Hle j ltac:(lia)).
  destruct (slot_at j (f_g x0) =? T) eqn:E; [|replace (T <? slot_at j (f_g x0)) with false by lia; now constructor].
  destruct (Hun j ltac:(lia) ltac:(lia)) as [[init Hk] Hact].
  unfold eval_any. simpl f_g. simpl f_st. rewrite Hk, <- Q1. fold (counted j (f_g x)).
  destruct (eval_source_spec cfgs j (mkF (counted j (f_g x)) (f_st x))) as (S1 & S2 & S3 & S5 & _).
  assert (A : acts cfgs (fun i f => i = j /\ f = inc_evals) (fun _ => False) (eq j) (f_g x)
                   (f_g (eval_source cfgs j (mkF (counted j (f_g x)) (f_st x)))))
    by now apply eval_source_acts, counted_acts, acts_refl.
  set (x2 := eval_source cfgs j _) in *. cbn [f_g f_st] in *.
  assert (Na : forall m0, n_act (node_at m0 (f_g x2)) = n_act (node_at m0 (f_g x))).
  { intros m0. apply (acts_obs cfgs n_act m0) with (3 := A); [intros i f (_ & ->)|intros]; right; auto with acts. }
  constructor.
  - now rewrite S2.
  - now rewrite S3.
  - now rewrite S1.
  - intros m0. rewrite S5; [apply Q5|]. unfold notified, listens. rewrite (proj2 (proj2 (proj2 (counted_nodes j (f_g x) m0)))), Q7.
    change (subscribed j _ _) with (ract cfgs (f_g x0) j m0). now rewrite (Hact m0).
  - intros m0 Hm0. rewrite <- Q6 by auto. apply (acts_other cfgs _ _ _ j) with (3 := A); [now intros i f [-> _]|auto|].
    intros ->. now apply (Hm0 init).
  - intros m0. now rewrite Na.
Qed.

End Quiescence.

(* a graph given in the wire format of the correspondence check, and its run *)
Definition graph_of (w : wire) : list ncfg * list fkind :=
  let ns := parse_fnodes w in (map fst ns, map snd ns).

Definition run_of (w : wire) : xst * list xst :=
  let '(cfgs, kinds) := graph_of w in
  let '(s, e) := window w in
  let fuel := (Z.to_nat (e - s) + 1)%nat in
  (fsim cfgs kinds (script_beh w) s e fuel,
   fstates cfgs kinds (script_beh w) e fuel (fstart cfgs kinds (script_beh w) s)).

(* producer 0 writes 10, 20, 30 at 1, 2, 3; the sink is node 1, the source node 2: ranked AFTER its sink *)
Definition cm_case : wire :=
  [[1;1;8]; [2;0;1;0;1;0;0]; [5;1;0;2]; [4;2;0;0];
   [3;0;-1;1;0;0]; [3;0;0;6;10;0]; [3;0;0;1;1;0]; [3;0;1;6;20;0]; [3;0;1;1;1;0]; [3;0;2;6;30;0]].
