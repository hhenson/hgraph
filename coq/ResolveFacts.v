(* ResolveFacts.v — the selection step of Resolve.v (collect / stable sort / decide): the outcome is a
   function of the multiset of surviving candidates; characterisation of each outcome.  Last, one fact about the
   sum that is the rank accumulator's total ([fold_sum_shift]). *)
Require Import Base Resolve.
From Coq Require Import Permutation.

Lemma filter_nil {A} (f : A -> bool) l : filter f l = [] <-> forall x, In x l -> f x = false.
Proof.
  induction l as [|y t IH]; cbn [filter In]; [tauto|]. destruct (f y) eqn:E.
  - split; [discriminate|]. intros H. rewrite (H y) in E; auto. discriminate.
  - rewrite IH. split; [intros H x [<-|Hx] | ]; auto.
Qed.

Lemma filter_unit {A} (f : A -> bool) l s :
  filter f l = [s] <-> exists l1 l2, l = l1 ++ s :: l2 /\ f s = true /\ forall x, In x (l1 ++ l2) -> f x = false.
Proof.
  split.
  - intros H. assert (In s l /\ f s = true) as [Hin Hs] by (apply filter_In; rewrite H; left; reflexivity).
    apply in_split in Hin as [l1 [l2 ->]]. exists l1, l2. split; [reflexivity|]. split; [exact Hs|].
    rewrite filter_app in H. cbn [filter] in H. rewrite Hs in H.
    apply app_eq_unit in H as [[H1 [= H2]]|[_ [=]]]. rewrite filter_nil in H1, H2.
    intros x [Hx|Hx]%in_app_or; auto.
  - intros [l1 [l2 [-> [Hs H]]]]. rewrite filter_app. cbn [filter]. rewrite Hs.
    rewrite (proj2 (filter_nil f l1)), (proj2 (filter_nil f l2)); auto using in_or_app.
Qed.

Lemma filter_perm {A} (f : A -> bool) l l' : Permutation l l' -> Permutation (filter f l) (filter f l').
Proof.
  induction 1; cbn [filter]; auto.
  - destruct (f x); auto.
  - destruct (f x), (f y); auto. apply perm_swap.
  - eapply perm_trans; eauto.
Qed.

Definition rank_is (r : Z) (s : surv) : bool := s_rank s =? r.

Definition is_min (r : Z) (l : list surv) : Prop :=
  (exists x, In x l /\ s_rank x = r) /\ forall x, In x l -> r <= s_rank x.

Lemma is_min_unique r r' l : is_min r l -> is_min r' l -> r = r'.
Proof.
  intros [[x [Hx Hxr]] Hle] [[y [Hy Hyr]] Hle'].
  specialize (Hle y Hy). specialize (Hle' x Hx). lia.
Qed.

Lemma is_min_perm r l l' : Permutation l l' -> is_min r l -> is_min r l'.
Proof.
  intros HP [[x [Hx Hxr]] Hle]. split.
  - exists x. rewrite <- HP. auto.
  - intros y Hy. apply Hle. rewrite HP. exact Hy.
Qed.

Lemma insert_s_perm x l : Permutation (x :: l) (insert_s x l).
Proof.
  induction l as [|y r IH]; cbn [insert_s]; auto.
  destruct (s_rank x <=? s_rank y); auto. rewrite <- IH. apply perm_swap.
Qed.

Lemma sort_s_cons x l : sort_s (x :: l) = insert_s x (sort_s l).
Proof. reflexivity. Qed.

Lemma sort_s_perm l : Permutation l (sort_s l).
Proof. induction l as [|x r IH]; [auto|]. rewrite sort_s_cons, <- insert_s_perm. auto. Qed.

Inductive sorted_s : list surv -> Prop :=
| sorted_nil : sorted_s []
| sorted_cons x l : Forall (fun y => s_rank x <= s_rank y) l -> sorted_s l -> sorted_s (x :: l).

Lemma insert_s_sorted x l : sorted_s l -> sorted_s (insert_s x l).
Proof.
  induction 1 as [|y r Hy Hs IH]; cbn [insert_s]; [repeat constructor|].
  destruct (s_rank x <=? s_rank y) eqn:E; constructor; auto using sorted_s.
  - constructor; [lia|]. eapply Forall_impl, Hy. cbn beta. lia.
  - rewrite <- insert_s_perm. constructor; [lia | exact Hy].
Qed.

Lemma sort_s_sorted l : sorted_s (sort_s l).
Proof. induction l; [constructor|]. rewrite sort_s_cons. auto using insert_s_sorted. Qed.

Lemma insert_s_stable r x l : filter (rank_is r) (insert_s x l) = filter (rank_is r) (x :: l).
Proof.
  induction l as [|y t IH]; cbn [insert_s]; auto.
  destruct (s_rank x <=? s_rank y) eqn:E; auto.
  cbn [filter] in *. rewrite IH. unfold rank_is.
  destruct (s_rank x =? r) eqn:Ex, (s_rank y =? r) eqn:Ey; auto. lia.
Qed.

Lemma sort_s_stable r l : filter (rank_is r) (sort_s l) = filter (rank_is r) l.
Proof. induction l as [|x t IH]; [auto|]. rewrite sort_s_cons, insert_s_stable. cbn [filter]. rewrite IH. auto. Qed.

(* what resolve decides for a non-empty survivor list whose least rank is r, read off the unsorted list *)
Definition decide_spec (r : Z) (l : list surv) : outcome :=
  match filter (rank_is r) l with
  | [s] => OSel s
  | t => OAmb t
  end.

Lemma decide_spec_sel r l s : decide_spec r l = OSel s <-> filter (rank_is r) l = [s].
Proof. unfold decide_spec. destruct (filter _ l) as [|a [|b t]]; split; intros [= <-]; reflexivity || discriminate. Qed.

Lemma decide_spec_amb r l t : decide_spec r l = OAmb t <-> filter (rank_is r) l = t /\ length t <> 1%nat.
Proof.
  unfold decide_spec. destruct (filter _ l) as [|a [|b t']]; split; try discriminate;
    try (intros [= <-]; split; [reflexivity | discriminate]); intros [<- H]; reflexivity || destruct H; reflexivity.
Qed.

Lemma decide_sorted x t : sorted_s (x :: t) -> decide (x :: t) = decide_spec (s_rank x) (x :: t).
Proof.
  intros Hs. inversion Hs as [|? ? Hle Hst]; subst. unfold decide_spec. cbn [decide filter]. unfold rank_is at 1.
  rewrite Z.eqb_refl. destruct t as [|y t2]; [reflexivity|]. cbn [filter]. unfold rank_is at 1.
  rewrite (Z.eqb_sym (s_rank y)). destruct (s_rank x =? s_rank y) eqn:Exy; [reflexivity|].
  replace (filter _ t2) with (@nil surv); [reflexivity|]. symmetry. apply filter_nil. intros z Hz.
  inversion Hle; subst. inversion Hst as [|? ? Hle2 _]; subst. rewrite Forall_forall in Hle2. specialize (Hle2 z Hz).
  unfold rank_is. lia.
Qed.

Lemma decide_sort_cases l :
  (l = [] /\ decide (sort_s l) = ONoMatch) \/
  (exists r, is_min r l /\ decide (sort_s l) = decide_spec r l).
Proof.
  pose proof (sort_s_sorted l) as Hs. pose proof (sort_s_perm l) as Hp. destruct (sort_s l) as [|x t] eqn:E.
  - left. apply Permutation_sym, Permutation_nil in Hp. auto.
  - right. exists (s_rank x). split.
    + apply (is_min_perm _ _ _ (Permutation_sym Hp)). inversion Hs as [|? ? Hle _]; subst. rewrite Forall_forall in Hle.
      split; [exists x; cbn; auto|]. intros y [->|Hy]; [lia | auto].
    + rewrite (decide_sorted _ _ Hs). unfold decide_spec. rewrite <- E, sort_s_stable. reflexivity.
Qed.

Lemma decide_not_err l : decide l <> OErr.
Proof. destruct l as [|a [|b t]]; cbn [decide]; try discriminate. destruct (s_rank a =? s_rank b); discriminate. Qed.

Lemma decide_sort_nomatch l : decide (sort_s l) = ONoMatch <-> l = [].
Proof.
  destruct (decide_sort_cases l) as [[-> ->]|[r [[[x [Hx _]] _] ->]]]; [tauto|]. split; [|intros ->; destruct Hx].
  unfold decide_spec. destruct (filter _ l) as [|a [|]]; discriminate.
Qed.

Lemma decide_sort_sel l s :
  decide (sort_s l) = OSel s <-> exists l1 l2, l = l1 ++ s :: l2 /\ forall x, In x (l1 ++ l2) -> s_rank s < s_rank x.
Proof.
  destruct (decide_sort_cases l) as [[-> ->]|[r [Hm ->]]].
  { split; [discriminate | intros [[|] [l2 [[=] _]]]]. }
  rewrite decide_spec_sel, filter_unit. unfold rank_is. split; intros [l1 [l2 [-> H]]]; exists l1, l2; (split; [reflexivity|]).
  - destruct H as [Hs Hall]. intros x Hx. specialize (Hall x Hx). assert (r <= s_rank x); [|lia].
    apply Hm. rewrite in_app_iff in *. cbn [In]. tauto.
  - assert (r = s_rank s) as ->.
    { apply (is_min_unique _ _ _ Hm). split; [exists s; auto using in_elt|].
      intros x [Hx|[<-|Hx]]%in_app_or; [|lia|]; apply Z.lt_le_incl, H, in_or_app; auto. }
    split; [lia|]. intros x Hx. specialize (H x Hx). lia.
Qed.

Lemma decide_sort_amb l tied :
  decide (sort_s l) = OAmb tied <-> exists r, is_min r l /\ tied = filter (rank_is r) l /\ (2 <= length tied)%nat.
Proof.
  destruct (decide_sort_cases l) as [[-> ->]|[r [Hm ->]]].
  { split; [discriminate | intros [r [[[x [[] _]] _] _]]]. }
  rewrite decide_spec_amb. split.
  - intros [<- Hlen]. exists r. split; [exact Hm|]. split; [reflexivity|].
    destruct Hm as [[x [Hx Hxr]] _]. assert (In x (filter (rank_is r) l)) as Hin by (apply filter_In; unfold rank_is; split; [auto|lia]).
    destruct (filter (rank_is r) l) as [|a [|b t]]; cbn [length] in *; [destruct Hin | destruct Hlen; reflexivity | lia].
  - intros [r' [Hm' [-> Hlen]]]. rewrite (is_min_unique _ _ _ Hm Hm'). split; [reflexivity | lia].
Qed.

Definition outcome_equiv (a b : outcome) : Prop :=
  match a, b with
  | OSel s, OSel s' => s = s'
  | ONoMatch, ONoMatch => True
  | OAmb t, OAmb t' => Permutation t t'
  | OErr, OErr => True
  | _, _ => False
  end.

Lemma decide_sort_perm l l' :
  Permutation l l' -> outcome_equiv (decide (sort_s l)) (decide (sort_s l')).
Proof.
  intros HP.
  destruct (decide_sort_cases l) as [[-> ->]|[r [Hm ->]]], (decide_sort_cases l') as [[-> ->]|[r' [Hm' ->]]].
  - exact I.
  - apply Permutation_nil in HP as ->. destruct Hm' as [[x [[] _]] _].
  - apply Permutation_sym, Permutation_nil in HP as ->. destruct Hm as [[x [[] _]] _].
  - rewrite (is_min_unique _ _ _ (is_min_perm _ _ _ HP Hm) Hm'). unfold decide_spec.
    apply (filter_perm (rank_is r')) in HP.
    destruct (filter (rank_is r') l) as [|a [|b t]], (filter (rank_is r') l') as [|a' [|b' t']]; cbn [outcome_equiv]; auto;
      try (apply Permutation_length in HP; discriminate). apply Permutation_length_1, HP.
Qed.

Definition verdict (q : query) (c : cand) : list surv :=
  match try_match c q with TMOk m k => [(c, m, k)] | _ => [] end.

Lemma collect_some cs q l : collect cs q = Some l -> l = flat_map (verdict q) cs.
Proof.
  revert l. induction cs as [|c r IH]; cbn [collect flat_map]; intros l; [intros [= <-]; reflexivity|].
  unfold verdict at 1. destruct (try_match c q); [discriminate | apply IH |].
  destruct (collect r q); intros [= <-]. rewrite <- (IH _ eq_refl). reflexivity.
Qed.

Lemma collect_none cs q : collect cs q = None <-> Exists (fun c => try_match c q = TMErr) cs.
Proof.
  induction cs as [|c r IH]; cbn [collect]; [split; [discriminate | inversion 1]|].
  rewrite Exists_cons, <- IH. destruct (try_match c q); [tauto | | destruct (collect r q)];
    (split; [auto; discriminate | intros [|]; auto; discriminate]).
Qed.

Lemma collect_nil cs q : collect cs q = Some [] <-> Forall (fun c => try_match c q = TMRej) cs.
Proof.
  induction cs as [|c r IH]; cbn [collect]; [split; auto|].
  rewrite Forall_cons_iff, <- IH. destruct (try_match c q); [ | tauto | destruct (collect r q)];
    (split; [discriminate | intros [[=] _]]).
Qed.

Lemma collect_in cs q l :
  collect cs q = Some l ->
  forall s, In s l <-> (In (s_cand s) cs /\ try_match (s_cand s) q = TMOk (s_map s) (s_rank s)).
Proof.
  intros ->%collect_some s. rewrite in_flat_map. unfold verdict. split.
  - intros [c [Hc Hs]]. destruct (try_match c q) eqn:T; try contradiction. destruct Hs as [<-|[]]. auto.
  - intros [Hc T]. exists (s_cand s). rewrite T. destruct s as [[c m] k]. cbn. auto.
Qed.

Lemma resolve_amb_in cs q tied s :
  resolve cs q = OAmb tied -> In s tied -> In (s_cand s) cs /\ try_match (s_cand s) q = TMOk (s_map s) (s_rank s).
Proof.
  unfold resolve. destruct (collect cs q) as [l|] eqn:E; [|discriminate].
  intros [r [_ [-> _]]]%decide_sort_amb [Hs _]%filter_In. exact (proj1 (collect_in _ _ _ E s) Hs).
Qed.

Lemma fold_sum_shift (l : list ((Z * Z) * Z)) a :
  fold_left (fun s kv => s + snd kv) l a = a + fold_left (fun s kv => s + snd kv) l 0.
Proof.
  revert a. induction l as [|x t IH]; intros a; cbn [fold_left]; [lia|].
  rewrite (IH (a + snd x)), (IH (0 + snd x)). lia.
Qed.
