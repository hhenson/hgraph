(* RankLemmas.v — the boolean list functions of Rank.v (memb, nodupb, pos, prefixb) against their Prop readings;
   duplicate-free lists of numbers below n.  The intern files use [memb_In] and [nodupb_NoDup]. *)
Require Import Base Rank.
From Coq Require Import Arith Permutation Lia.
Local Open Scope nat_scope.

Lemma memb_In v l : memb v l = true <-> In v l.
Proof.
  induction l as [|x r IH]; simpl.
  - split; [discriminate | tauto].
  - rewrite orb_true_iff, IH, Nat.eqb_eq. tauto.
Qed.

Lemma memb_false v l : memb v l = false <-> ~ In v l.
Proof.
  rewrite <- memb_In. destruct (memb v l); split; intro H; try congruence.
Qed.

Lemma memb_app v a b : memb v (a ++ b) = memb v a || memb v b.
Proof. induction a as [|x r IH]; simpl; auto. rewrite IH, orb_assoc. reflexivity. Qed.

Lemma nodupb_NoDup l : nodupb l = true <-> NoDup l.
Proof.
  induction l as [|x r IH]; simpl.
  - split; intros; [constructor | reflexivity].
  - rewrite andb_true_iff, negb_true_iff, memb_false, IH, NoDup_cons_iff. tauto.
Qed.

Lemma pos_lt_In v l : pos v l < length l <-> In v l.
Proof.
  induction l as [|x r IH]; simpl.
  - split; [lia | tauto].
  - destruct (x =? v) eqn:E.
    + apply Nat.eqb_eq in E. split; [auto | lia].
    + apply Nat.eqb_neq in E. rewrite <- Nat.succ_lt_mono, IH. split; [auto | intros [H|H]; [congruence | auto]].
Qed.

Lemma pos_le v l : pos v l <= length l.
Proof. induction l as [|x r IH]; simpl; auto. destruct (x =? v); lia. Qed.

Lemma pos_app_in v a b : In v a -> pos v (a ++ b) = pos v a.
Proof.
  induction a as [|x r IH]; simpl; [tauto|]. intros H.
  destruct (x =? v) eqn:E; auto. apply Nat.eqb_neq in E. f_equal. apply IH. destruct H; [congruence | auto].
Qed.

Lemma pos_app_notin v a b : ~ In v a -> pos v (a ++ b) = length a + pos v b.
Proof.
  induction a as [|x r IH]; simpl; auto. intros H.
  destruct (x =? v) eqn:E.
  - apply Nat.eqb_eq in E. tauto.
  - f_equal. apply IH. tauto.
Qed.

Lemma pos_nth v l : In v l -> nth (pos v l) l 0 = v.
Proof.
  induction l as [|x r IH]; simpl; [tauto|]. intros H.
  destruct (x =? v) eqn:E.
  - apply Nat.eqb_eq in E. auto.
  - apply Nat.eqb_neq in E. apply IH. destruct H; [congruence | auto].
Qed.

Lemma nth_update_pred m c (l : list nat) :
  nth m (update c Nat.pred l) 0 = if c =? m then Nat.pred (nth m l 0) else nth m l 0.
Proof.
  rewrite nth_update, (Nat.eqb_sym m c). destruct (Nat.eqb_spec c m) as [<-|_]; [|reflexivity].
  destruct (Nat.ltb_spec c (length l)) as [_|H]; [reflexivity|]. rewrite (nth_overflow l 0 H). reflexivity.
Qed.

Lemma NoDup_bounded_length (l : list nat) n : NoDup l -> (forall v, In v l -> v < n) -> length l <= n.
Proof.
  intros Hnd Hb. rewrite <- (seq_length n 0). apply NoDup_incl_length; auto.
  intros v Hv. apply in_seq. specialize (Hb v Hv). lia.
Qed.

Lemma full_perm (l : list nat) n : NoDup l -> (forall v, In v l -> v < n) -> length l = n -> Permutation l (seq 0 n).
Proof.
  intros Hnd Hb Hl. apply NoDup_Permutation_bis; auto.
  - rewrite seq_length. lia.
  - intros v Hv. apply in_seq. specialize (Hb v Hv). lia.
Qed.

Lemma existsb_id_map {A} (f : A -> bool) l :
  existsb (fun x => x) (map f l) = false <-> forall x, In x l -> f x = false.
Proof.
  induction l as [|x r IH]; simpl.
  - split; auto. intros _ y [].
  - rewrite orb_false_iff, IH. split.
    + intros [Hx Hr] y [<-|Hy]; auto.
    + intros H. split; [|intros y Hy]; apply H; auto.
Qed.

Lemma prefixb_map {A} (f : A -> bool) l :
  prefixb (map f l) = true <->
  exists a b, l = a ++ b /\ (forall x, In x a -> f x = true) /\ (forall x, In x b -> f x = false).
Proof.
  induction l as [|x r IH]; simpl.
  - split; auto. intros _. exists [], []. repeat split; intros y [].
  - rewrite andb_true_iff, IH. split.
    + intros [Hx (a & b & -> & Ha & Hb)]. destruct (f x) eqn:E.
      * exists (x :: a), b. repeat split; auto. intros y [<-|Hy]; auto.
      * simpl in Hx. rewrite negb_true_iff, existsb_id_map in Hx.
        exists [], (x :: a ++ b). repeat split; [intros y []|]. intros y [<-|Hy]; auto.
    + intros ([|y a] & b & E & Ha & Hb); simpl in E.
      * subst b. assert (Hr : forall y, In y r -> f y = false) by (intros y Hy; apply Hb; right; exact Hy).
        rewrite (Hb x) by (left; reflexivity). simpl. split; [rewrite negb_true_iff, existsb_id_map; exact Hr|].
        exists [], r. repeat split; [intros y [] | exact Hr].
      * injection E as <- ->. rewrite (Ha x) by (left; reflexivity). split; [reflexivity|].
        exists a, b. repeat split; auto. intros y Hy. apply Ha. right; exact Hy.
Qed.
