(* The declarative side of the property is [last_write]: a fold over the write
   history that needs no tree, no tracking record and no notification chain.
   The theorems say that what the mirror of the C++ mechanism computes
   (last_modified_time of every node of every fixed shape after every history
   of leaf writes and invalidations) is exactly that fold.

   A tree is only ever looked at through two functions of a path, [lmt_at s]
   and [skel s].  The one invariant on times, [timed], is stated for functions
   of a path; the write log has it by itself, and the tree inherits it once
   [lmt_at s] is known to be the log. *)
Require Import Base Track.
From Coq Require Import ZifyBool.

Lemma rec_mod_spec : forall t k, lmt (fst (rec_mod t k)) = Z.max t (lmt k) /\ snd (rec_mod t k) = (lmt k <? t).
Proof. intros t k. unfold rec_mod. destruct (t <=? lmt k) eqn:E; cbn [fst snd lmt]; lia. Qed.

Lemma notify_parent_spec : forall t up k,
  lmt (fst (notify_parent t up k)) = (if up then Z.max t (lmt k) else lmt k) /\
  snd (notify_parent t up k) = up && (lmt k <? t).
Proof. intros t [|] k; [apply rec_mod_spec|split; reflexivity]. Qed.

Fixpoint prefixb (a b : path) : bool :=
  match a, b with
  | [], _ => true
  | x :: a', y :: b' => (x =? y) && prefixb a' b'
  | _ :: _, [] => false
  end.
Definition sprefixb (a b : path) : bool := prefixb a b && negb (prefixb b a).

Lemma prefixb_nil_r : forall a, prefixb a [] = true -> a = [].
Proof. destruct a; [reflexivity|discriminate]. Qed.

Lemma prefixb_app : forall a b, prefixb a (a ++ b) = true.
Proof. induction a as [|x a IH]; intros b; cbn; [reflexivity|]. rewrite IH. lia. Qed.

Lemma prefixb_exists : forall a b, prefixb a b = true -> exists c, b = a ++ c.
Proof.
  induction a as [|x a IH]; intros [|y b] H; cbn in H; try discriminate; [exists []; reflexivity|eexists; reflexivity|].
  apply andb_prop in H as [E H]. apply Z.eqb_eq in E as ->. destruct (IH b H) as [c ->]. exists c. reflexivity.
Qed.

Lemma prefixb_refl : forall a, prefixb a a = true.
Proof. intros a. rewrite <- (app_nil_r a) at 2. apply prefixb_app. Qed.

Lemma prefixb_trans : forall a b c, prefixb a b = true -> prefixb b c = true -> prefixb a c = true.
Proof.
  intros a b c H1 H2. apply prefixb_exists in H1 as [u ->]. apply prefixb_exists in H2 as [w ->].
  rewrite <- app_assoc. apply prefixb_app.
Qed.

Lemma prefixb_snoc_l : forall a i b, prefixb (a ++ [i]) b = true -> prefixb a b = true.
Proof. intros a i b. apply prefixb_trans, prefixb_app. Qed.

Lemma prefixb_app_self : forall p q', prefixb (p ++ q') p = true -> q' = [].
Proof.
  induction p as [|x p IH]; intros q' H; cbn in H; [exact (prefixb_nil_r q' H)|].
  apply andb_prop in H as [_ H]. exact (IH q' H).
Qed.

Lemma prefixb_antisym : forall a b, prefixb a b = true -> prefixb b a = true -> a = b.
Proof.
  intros a b H1 H2. apply prefixb_exists in H1 as [u ->]. rewrite (prefixb_app_self a u H2). symmetry. apply app_nil_r.
Qed.

Lemma prefixb_comparable : forall a b c,
  prefixb a c = true -> prefixb b c = true -> prefixb a b = true \/ prefixb b a = true.
Proof.
  intros a b c H1 H2. apply prefixb_exists in H1 as [u ->]. apply prefixb_exists in H2 as [w E].
  apply app_eq_app in E as [l [[-> _]|[-> _]]]; [right|left]; apply prefixb_app.
Qed.

Lemma sprefixb_prefixb : forall q p, sprefixb q p = true -> prefixb q p = true /\ prefixb p q = false.
Proof. unfold sprefixb. intros q p H. destruct (prefixb q p), (prefixb p q); try discriminate. split; reflexivity. Qed.

Lemma sprefixb_app_false : forall p q', sprefixb (p ++ q') p = false.
Proof. intros p q'. unfold sprefixb. rewrite (prefixb_app p q'). apply andb_false_r. Qed.

Lemma path_cases : forall q p,
  sprefixb q p = true \/ prefixb p q = true \/ (prefixb q p = false /\ prefixb p q = false).
Proof. intros q p. unfold sprefixb. destruct (prefixb p q), (prefixb q p); auto. Qed.

Lemma prefixb_strict_child : forall q p, prefixb q p = true -> q <> p -> exists i, prefixb (q ++ [i]) p = true.
Proof.
  intros q p H Hne. apply prefixb_exists in H as [[|i c] ->]; [rewrite app_nil_r in Hne; congruence|].
  exists i. change (i :: c) with ([i] ++ c). rewrite app_assoc. apply prefixb_app.
Qed.

Definition lmt_at (s : tsd) (q : path) : Z := match get q s with Some x => lmt_of x | None => MIN_DT end.

(* None = no such node, 0 leaf, 1 fixed collection, 2 dictionary *)
Definition skel (s : tsd) (q : path) : option Z :=
  match get q s with
  | Some (Leaf _ _) => Some 0
  | Some (Fix _ _ _ _) => Some 1
  | Some (Dict _ _ _) => Some 2
  | None => None
  end.

Lemma get_app : forall p q s, get (p ++ q) s = match get p s with Some x => get q x | None => None end.
Proof.
  induction p as [|i p IH]; intros q [k v|k fk b kids|k e kids]; cbn [app get]; try reflexivity.
  - destruct (zidx i) as [n|]; [|reflexivity]. destruct (nth_error kids n); [apply IH|reflexivity].
  - destruct (dict_find i kids); [apply IH|reflexivity].
Qed.

Lemma lmt_at_app : forall p q s x, get p s = Some x -> lmt_at s (p ++ q) = lmt_at x q.
Proof. intros p q s x H. unfold lmt_at. rewrite get_app, H. reflexivity. Qed.

Lemma skel_app : forall p q s x, get p s = Some x -> skel s (p ++ q) = skel x q.
Proof. intros p q s x H. unfold skel. rewrite get_app, H. reflexivity. Qed.

(* no dictionary anywhere: a fixed shape *)
Definition fx (s : tsd) : Prop := forall q, skel s q <> Some 2.

(* over any two comparable paths, not parent and child only, since that is how every proof reads it *)
Definition timed (t : Z) (L : path -> Z) : Prop :=
  forall q p, prefixb q p = true -> MIN_DT <= L p <= L q /\ L q <= t.

Lemma fx_sub : forall p s x, fx s -> get p s = Some x -> fx x.
Proof. intros p s x H Hg q. rewrite <- (skel_app p q s x Hg). apply H. Qed.

Lemma timed_sub : forall t p s x, timed t (lmt_at s) -> get p s = Some x -> timed t (lmt_at x).
Proof.
  intros t p s x H Hg q q' Hq. destruct (prefixb_exists q q' Hq) as [c ->].
  rewrite <- !(lmt_at_app p _ s x Hg), app_assoc. apply H, prefixb_app.
Qed.

Lemma zidx_inj : forall i j n, zidx i = Some n -> zidx j = Some n -> i = j.
Proof.
  unfold zidx. intros i j n. destruct (i <? 0) eqn:E1; destruct (j <? 0) eqn:E2; intros H1 H2; try discriminate.
  injection H1 as <-. injection H2 as H2. lia.
Qed.

Lemma at_path_child : forall f t i p s c, fx s -> get [i] s = Some c ->
  let r := at_path f t p c in let r' := at_path f t (i :: p) s in
  skel (r_tree r') [] = skel s [] /\
  tracking (r_tree r') = fst (notify_parent t (r_up r) (tracking s)) /\
  r_up r' = snd (notify_parent t (r_up r) (tracking s)) /\
  forall j q, get (j :: q) (r_tree r') = if j =? i then get q (r_tree r) else get (j :: q) s.
Proof.
  intros f t i p [k v|k fk b kids|k e kids] c Hfx Hc; [discriminate| |destruct (Hfx [] eq_refl)].
  cbn [get] in Hc. destruct (zidx i) as [n|] eqn:Hz; [|discriminate].
  destruct (nth_error kids n) as [c'|] eqn:Hn; [injection Hc as ->|discriminate].
  cbn [at_path tracking]. rewrite Hz, Hn. destruct (notify_parent t _ k) as [k' up']. cbn [r_tree r_up tracking fst snd].
  repeat split. intros j q. cbn [get]. unfold set_nth. destruct (Z.eqb_spec j i) as [->|Hne].
  - rewrite Hz, (nth_error_update_same _ _ _ _ Hn). reflexivity.
  - destruct (zidx j) as [m|] eqn:Hzj; [|reflexivity]. rewrite nth_error_update_other; [reflexivity|].
    intros <-. apply Hne. eapply zidx_inj; eassumption.
Qed.

(* the first clause is there for the induction only *)
Lemma at_path_spec : forall f t p s x, fx s -> timed t (lmt_at s) -> get p s = Some x ->
  let r := at_path f t p s in
  (lmt_of s < t -> r_up r = r_up (f x)) /\
  (forall q', skel (r_tree r) (p ++ q') = skel (r_tree (f x)) q' /\
              lmt_at (r_tree r) (p ++ q') = lmt_at (r_tree (f x)) q') /\
  (forall q, prefixb p q = false ->
     skel (r_tree r) q = skel s q /\
     lmt_at (r_tree r) q = if prefixb q p && r_up (f x) then t else lmt_at s q).
Proof.
  intros f t. induction p as [|i p IH]; intros s x Hfx Ht Hg.
  - injection Hg as <-. cbn. repeat split; try reflexivity; discriminate.
  - change (i :: p) with ([i] ++ p) in Hg. rewrite get_app in Hg. destruct (get [i] s) as [c|] eqn:Hc; [|discriminate].
    destruct (IH c x (fx_sub _ _ _ Hfx Hc) (timed_sub _ _ _ _ Ht Hc) Hg) as (Hup & Hbelow & Hrest).
    destruct (at_path_child f t i p s c Hfx Hc) as (Hsk & Htr & Hu' & Hget).
    destruct (notify_parent_spec t (r_up (at_path f t p c)) (tracking s)) as [Hl Hu].
    rewrite <- Htr in Hl. rewrite <- Hu' in Hu.
    pose proof (Ht [] [i] eq_refl) as Hcs. unfold lmt_at in Hcs. rewrite Hc in Hcs. cbn [get] in Hcs.
    unfold lmt_of in Hup, Hcs |- *. cbn zeta. split; [|split].
    + intros Hlt. rewrite Hu, Hup by lia. lia.
    + intros q'. cbn [app]. unfold skel, lmt_at. rewrite Hget, Z.eqb_refl. apply Hbelow.
    + intros [|j q] Hq.
      * (* the root: had the notification been lost on the way up, the root would be at t already *)
        split; [exact Hsk|]. unfold lmt_at, lmt_of. cbn [get prefixb andb]. rewrite Hl.
        destruct (r_up (at_path f t p c)), (r_up (f x)); lia.
      * cbn [prefixb] in Hq |- *. unfold skel, lmt_at. rewrite Hget. destruct (Z.eqb_spec j i) as [->|Hne].
        -- rewrite Z.eqb_refl in Hq. rewrite (get_app [i] q), Hc. apply Hrest. exact Hq.
        -- split; reflexivity.
Qed.

Lemma inv_kids_cons : forall inv t fk n k bits c r,
  inv_kids inv t fk n k bits (c :: r) =
  (let '(c', up, _) := inv c in
   let '(k1, _) := notify_parent t up k in
   let '(k2, bits2, r') := inv_kids inv t fk (S n) k1 (if up then set_bit fk n bits else bits) r in
   (k2, bits2, c' :: r')).
Proof. reflexivity. Qed.

Lemma inv_kids_kids : forall inv t fk l n k bits,
  snd (inv_kids inv t fk n k bits l) = map (fun c => fst (fst (inv c))) l.
Proof.
  intros inv t fk l. induction l as [|c l IH]; intros n k bits; [reflexivity|].
  rewrite inv_kids_cons. cbn [map]. destruct (inv c) as [[c' up] d]. destruct (notify_parent t up k) as [k1 u1].
  specialize (IH (S n) k1 (if up then set_bit fk n bits else bits)).
  destruct (inv_kids inv t fk (S n) k1 (if up then set_bit fk n bits else bits) l) as [[k2 b2] r'].
  cbn [snd fst map] in *. rewrite IH. reflexivity.
Qed.

Lemma inv_tree_fix : forall t k fk b kids,
  inv_tree t (Fix k fk b kids) =
  if lmt k =? MIN_DT then (Fix k fk b kids, false, false)
  else let '(k', bits', kids') := inv_kids (inv_tree t) t fk 0%nat k b kids in
       (Fix (mkTrk MIN_DT (ncnt k' + 1) t) fk bits' kids', true, true).
Proof. reflexivity. Qed.

Lemma inv_tree_invalid : forall t tb x, timed tb (lmt_at x) -> lmt_of x = MIN_DT ->
  inv_tree t x = (x, false, false) /\ forall q, lmt_at x q = MIN_DT.
Proof.
  intros t tb x Ht E. split.
  - destruct x; cbn [inv_tree]; rewrite E; reflexivity.
  - intros q. pose proof (Ht [] q eq_refl) as H. cbn in H. lia.
Qed.

Lemma inv_tree_valid : forall t x, fx x -> lmt_of x <> MIN_DT ->
  exists x', inv_tree t x = (x', true, true) /\ lmt_of x' = MIN_DT /\ skel x' [] = skel x [] /\
  forall i q, get (i :: q) x' = match get [i] x with Some c => get q (fst (fst (inv_tree t c))) | None => None end.
Proof.
  intros t [k v|k fk b kids|k e kids] Hfx E; [| |destruct (Hfx [] eq_refl)]; apply Z.eqb_neq in E; cbn [inv_tree]; rewrite E.
  - eexists. repeat split.
  - pose proof (inv_kids_kids (inv_tree t) t fk kids 0%nat k b) as Hk.
    destruct (inv_kids (inv_tree t) t fk 0%nat k b kids) as [[k' b'] kids']. cbn [snd] in Hk. subst kids'.
    eexists. repeat split. intros i q. cbn [get]. destruct (zidx i) as [n|]; [|reflexivity].
    rewrite nth_error_map. destruct (nth_error kids n); reflexivity.
Qed.

Lemma inv_tree_spec : forall t tb q x, fx x -> timed tb (lmt_at x) ->
  skel (fst (fst (inv_tree t x))) q = skel x q /\ lmt_at (fst (fst (inv_tree t x))) q = MIN_DT.
Proof.
  intros t tb. induction q as [|i q IH]; intros x Hfx Ht;
    (destruct (Z.eq_dec (lmt_of x) MIN_DT) as [E|E];
     [destruct (inv_tree_invalid t tb x Ht E) as [-> Hq]; split; [reflexivity|apply Hq]|]);
    destruct (inv_tree_valid t x Hfx E) as (x' & -> & Hl & Hs & Hg); cbn [fst].
  - split; [exact Hs|exact Hl].
  - unfold skel, lmt_at. rewrite Hg, (get_app [i] q). destruct (get [i] x) as [c|] eqn:Hc; [|split; reflexivity].
    apply (IH c (fx_sub _ _ _ Hfx Hc) (timed_sub _ _ _ _ Ht Hc)).
Qed.

(* An invalidation of a valid node counts as a write to what encloses it (the enclosing collections changed); of
   an invalid node it changes nothing *)
Definition spec_step (t : Z) (o : op) (L : path -> Z) (q : path) : Z :=
  match o with
  | OSet p _ => if prefixb q p then t else L q
  | OInv p => if L p =? MIN_DT then L q
              else if prefixb p q then MIN_DT
              else if prefixb q p then t
              else L q
  | _ => L q
  end.

(* rh is the history most-recent-first.  The time of the latest write to q or below it that has not since
   been wiped by an invalidation of q or of a node above it; MIN_DT if none *)
Fixpoint last_write_rev (rh : hist) (q : path) : Z :=
  match rh with
  | [] => MIN_DT
  | (t, o) :: r => spec_step t o (last_write_rev r) q
  end.

Definition last_write (h : hist) (q : path) : Z := last_write_rev (rev h) q.

(* histories the theorems range over: leaf writes and invalidations of nodes of the shape,
   at non-decreasing concrete times *)
Definition typed (s0 : tsd) (o : op) : Prop :=
  match o with
  | OSet p _ => skel s0 p = Some 0
  | OInv p => skel s0 p <> None
  | _ => False
  end.

Fixpoint times_ok (now : Z) (h : hist) : Prop :=
  match h with
  | [] => True
  | (t, _) :: r => MIN_DT < t /\ now <= t /\ times_ok t r
  end.

Lemma last_write_snoc : forall h t o q, last_write (h ++ [(t, o)]) q = spec_step t o (last_write h) q.
Proof. intros h t o q. unfold last_write. rewrite rev_app_distr. reflexivity. Qed.

Lemma run_snoc : forall h t o s, run (h ++ [(t, o)]) s = r_tree (step t o (run h s)).
Proof. intros h t o s. unfold run. rewrite fold_left_app. reflexivity. Qed.

Lemma times_ok_snoc : forall h now t o, times_ok now (h ++ [(t, o)]) ->
  times_ok now h /\ MIN_DT < t /\ now <= t /\ forall e, In e h -> fst e <= t.
Proof.
  induction h as [|[t1 o1] h IH]; intros now t o H; cbn [app times_ok] in H |- *.
  - repeat split; try apply H. intros e [].
  - destruct H as (H1 & H2 & H). apply IH in H as (H & H3 & H4 & H5).
    repeat split; try assumption; try lia. intros e [<-|He]; [exact H4|apply H5, He].
Qed.

Lemma spec_step_timed : forall t o L, MIN_DT <= t -> timed t L -> timed t (spec_step t o L).
Proof.
  intros t o L Ht H q q' Hq. pose proof (H q q' Hq). clear H.
  (* Ha: where q' is stamped so is q above it; Hc: where q is wiped so is q' below it *)
  destruct o as [p v|p|p vt|p key|p key|p v]; cbn [spec_step]; try lia; pose proof (prefixb_trans q q' p Hq) as Ha.
  - destruct (prefixb q' p), (prefixb q p); lia.
  - destruct (L p =? MIN_DT); [lia|]. pose proof (fun E => prefixb_trans p q q' E Hq) as Hc.
    destruct (prefixb p q'), (prefixb p q), (prefixb q' p), (prefixb q p); lia.
Qed.

Lemma last_write_timed : forall h t, times_ok MIN_DT h -> MIN_DT <= t -> (forall e, In e h -> fst e <= t) ->
  timed t (last_write h).
Proof.
  induction h as [|[t0 o] h IH] using rev_ind; intros t Hok Ht Hle q q' Hq; [cbn; lia|].
  apply times_ok_snoc in Hok as (Hok & Ht0 & _ & Hh).
  pose proof (spec_step_timed t0 o _ ltac:(lia) (IH t0 Hok ltac:(lia) Hh) q q' Hq) as H.
  assert (t0 <= t) by (apply (Hle (t0, o)), in_or_app; right; left; reflexivity).
  rewrite !last_write_snoc. lia.
Qed.

Definition concerns (o : op) (q : path) : bool :=
  match o with
  | OSet p _ => prefixb q p
  | OInv p => sprefixb q p
  | _ => false
  end.

Lemma spec_step_concerns : forall t o L q, spec_step t o L q <> MIN_DT ->
  (spec_step t o L q = t /\ concerns o q = true) \/
  (spec_step t o L q = L q /\ forall i, spec_step t o L (q ++ [i]) = L (q ++ [i])).
Proof.
  intros t o L q.
  assert (Hext : forall p i, prefixb q p = false -> prefixb (q ++ [i]) p = false).
  { intros p i E. destruct (prefixb (q ++ [i]) p) eqn:E2; [|reflexivity]. apply prefixb_snoc_l in E2. congruence. }
  destruct o as [p v|p|p vt|p key|p key|p v]; cbn [spec_step concerns]; auto.
  - destruct (prefixb q p) eqn:E; [auto|]. right. split; [reflexivity|]. intros i. rewrite (Hext p i E). reflexivity.
  - destruct (L p =? MIN_DT); [auto|]. destruct (prefixb p q) eqn:E1; [congruence|]. unfold sprefixb. rewrite E1.
    destruct (prefixb q p) eqn:E2; [auto|]. right. split; [reflexivity|]. intros i. rewrite (Hext p i E2).
    destruct (prefixb p (q ++ [i])) eqn:E3; [|reflexivity].
    destruct (prefixb_comparable p q (q ++ [i]) E3 (prefixb_app q [i])); congruence.
Qed.

Lemma parent_only_if_child : forall h q t,
  (forall t' v, ~ In (t', OSet q v) h) -> last_write h q = t -> t <> MIN_DT ->
  (exists i, last_write h (q ++ [i]) = t) \/ (exists p, In (t, OInv p) h /\ sprefixb q p = true).
Proof.
  induction h as [|[t0 o] h IH] using rev_ind; intros q t Hleaf H Ht; [cbn in H; congruence|].
  rewrite last_write_snoc in H.
  destruct (spec_step_concerns t0 o (last_write h) q) as [[E Hc]|[E Hsame]]; [congruence| |].
  - (* the last operation stamped q: a write below a child, or an invalidation below q *)
    assert (Hin : In (t, o) (h ++ [(t0, o)])) by (apply in_or_app; right; left; congruence).
    destruct o as [p v|p|p vt|p key|p key|p v]; try discriminate Hc; cbn [concerns] in Hc.
    + destruct (prefixb_strict_child q p Hc) as [i Hi]; [intros ->; exact (Hleaf t v Hin)|].
      left. exists i. rewrite last_write_snoc. cbn [spec_step]. rewrite Hi. congruence.
    + right. exists p. split; assumption.
  - destruct (IH q t) as [[i Hi]|(p & Hin & Hs)]; try congruence.
    + intros t' v Hin. apply (Hleaf t' v), in_or_app. left. exact Hin.
    + left. exists i. rewrite last_write_snoc, Hsame. exact Hi.
    + right. exists p. split; [apply in_or_app; left; exact Hin|exact Hs].
Qed.

Lemma op_set_leaf : forall t v k v0, lmt k <= t ->
  exists k', r_tree (op_set t v (Leaf k v0)) = Leaf k' v /\ lmt k' = t /\ r_up (op_set t v (Leaf k v0)) = (lmt k <? t).
Proof.
  intros t v k v0 Hk. cbn [op_set]. destruct (Z.eqb_spec (lmt k) t) as [E|E]; [exists k; cbn; repeat split; lia|].
  destruct (rec_mod_spec t k) as [Hl Hu]. destruct (rec_mod t k) as [k' b']. exists k'. cbn in *. repeat split; lia.
Qed.

Lemma op_inv_spec : forall t tb x, fx x -> timed tb (lmt_at x) ->
  r_up (op_inv t x) = valid x /\
  forall q, skel (r_tree (op_inv t x)) q = skel x q /\ lmt_at (r_tree (op_inv t x)) q = MIN_DT.
Proof.
  intros t tb x Hfx Ht. pose proof (fun q => inv_tree_spec t tb q x Hfx Ht) as H.
  unfold op_inv, valid. destruct (Z.eqb_spec (lmt_of x) MIN_DT) as [E|E].
  - destruct (inv_tree_invalid t tb x Ht E) as [Hx _]. rewrite Hx in *. split; [reflexivity|exact H].
  - destruct (inv_tree_valid t x Hfx E) as (x' & Hx & _). rewrite Hx in *. split; [reflexivity|exact H].
Qed.

Lemma step_spec : forall t o s, fx s -> timed t (lmt_at s) -> typed s o ->
  forall q, skel (r_tree (step t o s)) q = skel s q /\ lmt_at (r_tree (step t o s)) q = spec_step t o (lmt_at s) q.
Proof.
  intros t o s Hfx Ht Hty q.
  destruct o as [p v|p|p vt|p key|p key|p v]; cbn [typed] in Hty; try contradiction; cbn [step spec_step];
    unfold skel in Hty.
  - destruct (get p s) as [[k v0| |]|] eqn:Hg; try discriminate. clear Hty.
    destruct (at_path_spec (op_set t v) t p s _ Hfx Ht Hg) as (_ & Hbelow & Hrest).
    assert (Hp : lmt_at s p = lmt k) by (unfold lmt_at; rewrite Hg; reflexivity).
    pose proof (Ht q p) as Hqp. rewrite Hp in Hqp.
    destruct (op_set_leaf t v k v0) as (k' & Htree & Hk' & Hup);
      [rewrite <- Hp; apply (Ht p p (prefixb_refl p))|].
    rewrite Htree in Hbelow. rewrite Hup in Hrest. destruct (prefixb p q) eqn:E.
    + (* at the leaf, or where there is nothing, below it *)
      apply prefixb_exists in E as [q' ->]. destruct (Hbelow q') as [-> ->].
      rewrite (skel_app p q' s _ Hg), (lmt_at_app p q' s _ Hg). destruct q' as [|j q'].
      * rewrite app_nil_r, prefixb_refl. split; [reflexivity|exact Hk'].
      * destruct (prefixb (p ++ j :: q') p) eqn:E2; [apply prefixb_app_self in E2; discriminate|split; reflexivity].
    + (* above the leaf: if the leaf was written in this cycle before, everything above it is at t already *)
      destruct (Hrest q E) as [Hs ->]. split; [exact Hs|]. destruct (prefixb q p); [|reflexivity].
      specialize (Hqp eq_refl). cbn [andb]. destruct (lmt k <? t) eqn:E3; lia.
  - destruct (get p s) as [x|] eqn:Hg; [clear Hty|destruct (Hty eq_refl)].
    destruct (at_path_spec (op_inv t) t p s x Hfx Ht Hg) as (_ & Hbelow & Hrest).
    pose proof (timed_sub _ _ _ _ Ht Hg) as Htx.
    destruct (op_inv_spec t t x (fx_sub _ _ _ Hfx Hg) Htx) as [Hup Hx].
    assert (Hp : lmt_at s p = lmt_of x) by (unfold lmt_at; rewrite Hg; reflexivity). rewrite Hp.
    rewrite Hup in Hrest. unfold valid in Hrest. destruct (prefixb p q) eqn:E.
    + apply prefixb_exists in E as [q' ->]. destruct (Hbelow q') as [-> ->].
      rewrite (skel_app p q' s x Hg), (lmt_at_app p q' s x Hg). split; [apply Hx|]. rewrite (proj2 (Hx q')).
      destruct (Z.eqb_spec (lmt_of x) MIN_DT) as [E1|E1]; [|reflexivity].
      symmetry. apply (inv_tree_invalid t t x Htx E1).
    + destruct (Hrest q E) as [Hs ->]. split; [exact Hs|]. destruct (lmt_of x =? MIN_DT), (prefixb q p); reflexivity.
Qed.

Definition fresh (s : tsd) : Prop := forall q, lmt_at s q = MIN_DT.

Theorem run_spec : forall s0 h, fx s0 -> fresh s0 -> times_ok MIN_DT h -> Forall (fun e => typed s0 (snd e)) h ->
  forall q, skel (run h s0) q = skel s0 q /\ lmt_at (run h s0) q = last_write h q.
Proof.
  intros s0 h Hfx Hfr. induction h as [|[t o] h IH] using rev_ind; intros Hok Hty.
  - split; [reflexivity|apply Hfr].
  - apply times_ok_snoc in Hok as (Hok & Ht & _ & Hle). apply Forall_app in Hty as [Hty Hto].
    apply Forall_inv in Hto. cbn [snd] in Hto. specialize (IH Hok Hty).
    assert (Hsk : forall q, skel (run h s0) q = skel s0 q) by apply IH.
    assert (HL : forall q, lmt_at (run h s0) q = last_write h q) by apply IH.
    pose proof (last_write_timed h t Hok ltac:(lia) Hle) as Htm.
    intros q. rewrite run_snoc, last_write_snoc, <- Hsk.
    replace (spec_step t o (last_write h) q) with (spec_step t o (lmt_at (run h s0)) q)
      by (destruct o; cbn [spec_step]; rewrite ?HL; reflexivity).
    apply step_spec; [intros a; rewrite Hsk; apply Hfx| |destruct o; cbn [typed] in *; rewrite ?Hsk; exact Hto].
    intros a b Hab. rewrite !HL. apply Htm, Hab.
Qed.

Lemma init_fresh_fx : forall q sh, has_dict sh = false -> lmt_at (init sh) q = MIN_DT /\ skel (init sh) q <> Some 2.
Proof.
  induction q as [|i q IH]; intros [|fs|n e|e] Hd; try discriminate Hd; try (split; [reflexivity|discriminate]);
    unfold lmt_at, skel; cbn [init get]; (destruct (zidx i) as [m|]; [|split; [reflexivity|discriminate]]).
  - rewrite nth_error_map. destruct (nth_error fs m) as [f|] eqn:Hf; [|split; [reflexivity|discriminate]].
    apply (IH f). destruct (has_dict f) eqn:E; [|reflexivity]. rewrite <- Hd. symmetry. apply existsb_exists.
    exists f. split; [exact (nth_error_In _ _ Hf)|exact E].
  - destruct (nth_error (repeat (init e) n) m) as [c|] eqn:Hc; [|split; [reflexivity|discriminate]].
    apply nth_error_In, repeat_spec in Hc. subst c. apply (IH e Hd).
Qed.

Section Observables.
  Variable sh : shape.
  Variable h : hist.
  Hypothesis Hsh : has_dict sh = false.
  Hypothesis Htimes : times_ok MIN_DT h.
  Hypothesis Htyped : Forall (fun e => typed (init sh) (snd e)) h.

  Lemma run_init : forall q, skel (run h (init sh)) q = skel (init sh) q /\ lmt_at (run h (init sh)) q = last_write h q.
  Proof. apply run_spec; try assumption; intros q; apply (init_fresh_fx q sh Hsh). Qed.

  Lemma node_exists : forall q, skel (init sh) q <> None -> exists x, get q (run h (init sh)) = Some x.
  Proof.
    intros q Hq. rewrite <- (proj1 (run_init q)) in Hq. unfold skel in Hq.
    destruct (get q (run h (init sh))) as [x|]; [exists x; reflexivity|destruct (Hq eq_refl)].
  Qed.

  Lemma node_lmt : forall q x, get q (run h (init sh)) = Some x -> lmt_of x = last_write h q.
  Proof. intros q x Hx. rewrite <- (proj2 (run_init q)). unfold lmt_at. rewrite Hx. reflexivity. Qed.
End Observables.
