(* RankFacts.v — proofs about the mirror model of build_ranked_graph (Rank.v):
   the loop invariant of the Kahn pass, soundness, completeness (cycle <-> rejection),
   and the equivalence of the boolean acceptor with the declarative notion of a ranking. *)
Require Import Base Rank RankLemmas.
From Coq Require Import Arith Permutation Lia.
Local Open Scope nat_scope.

Lemma cnt_into_pos es c : 0 < cnt_into es c <-> exists p, In (p, c) es.
Proof.
  induction es as [|[p' c'] r IH]; simpl.
  - split; [lia | intros (p & [])].
  - destruct (Nat.eqb_spec c' c) as [->|Hne]; simpl.
    + split; [eauto | lia].
    + rewrite IH. split; intros (p & H); exists p; [auto | destruct H as [H|H]; [congruence | exact H]].
Qed.

Lemma cnt_into_zero es c : cnt_into es c = 0 -> forall p, ~ In (p, c) es.
Proof. intros H p Hin. assert (0 < cnt_into es c) by (apply cnt_into_pos; eauto). lia. Qed.

(* in-degree of [v] once the edges that leave a node of [out] are removed *)
Definition pend (es : list (nat * nat)) (out : list nat) (v : nat) : nat :=
  cnt_into (filter (fun e => negb (memb (fst e) out)) es) v.

Lemma pend_nil es v : pend es [] v = cnt_into es v.
Proof. unfold pend. f_equal. induction es as [|e r IH]; simpl in *; congruence. Qed.

Lemma pend_pos es out v : 0 < pend es out v <-> exists p, In (p, v) es /\ ~ In p out.
Proof.
  unfold pend. rewrite cnt_into_pos.
  split; intros (p & H); exists p; rewrite filter_In, negb_true_iff, memb_false in *; exact H.
Qed.

Lemma pend_zero es out v : pend es out v = 0 -> forall p, In (p, v) es -> In p out.
Proof.
  intros H p Hin. destruct (in_dec Nat.eq_dec p out) as [Hp|Hp]; [exact Hp|].
  assert (0 < pend es out v) by (apply pend_pos; eauto). lia.
Qed.

(* ranking [x] takes exactly the edges to its consumers out of the count *)
Lemma pend_snoc es out x v : ~ In x out ->
  pend es out v = pend es (out ++ [x]) v + cnt_into (filter (fun e => fst e =? x) es) v.
Proof.
  intros Hx. apply memb_false in Hx. unfold pend. induction es as [|[p c] r IH]; [reflexivity|].
  cbn [filter fst]. rewrite memb_app. cbn [memb]. rewrite orb_false_r, (Nat.eqb_sym x p).
  destruct (Nat.eqb_spec p x) as [->|Hne].
  - rewrite Hx, orb_true_r. cbn [negb cnt_into]. lia.
  - rewrite orb_false_r. destruct (negb (memb p out)); cbn [cnt_into]; lia.
Qed.

(* every node queued so far, in the order of queueing: [k_out] is the part already served *)
Definition seen (st : kst) : list nat := k_out st ++ k_qp st ++ k_q st.

(* [todo]: the edges out of the node being processed whose consumer has not been relaxed yet *)
Record Inv (g : rgraph) (todo : list (nat * nat)) (st : kst) : Prop := {
  inv_nodup : NoDup (seen st);
  inv_seen : forall v, In v (seen st) <-> v < rg_n g /\ nth v (k_deg st) 0 = 0;
  inv_deg : forall v, v < rg_n g -> nth v (k_deg st) 0 = pend (rg_edges g) (k_out st) v + cnt_into todo v;
  inv_ranked : forall p c, In (p, c) (rg_edges g) -> In c (seen st) -> pos p (seen st) < pos c (seen st);
  inv_pp : push_prefix g (seen st)
}.

Lemma seen_bounded g todo st : Inv g todo st -> length (seen st) <= rg_n g.
Proof. intros I. apply NoDup_bounded_length; [apply I | intros v Hv; apply I, Hv]. Qed.

Lemma relax_out g st c : k_out (relax g st c) = k_out st.
Proof. unfold relax. destruct (_ =? 1); [destruct (is_push g c)|]; reflexivity. Qed.

(* a consumer that is no push source goes to the back of the second queue, i.e. of [seen] *)
Lemma relax_seen g st c : is_push g c = false ->
  k_deg (relax g st c) = update c Nat.pred (k_deg st) /\
  seen (relax g st c) = seen st ++ (if nth c (k_deg st) 0 =? 1 then [c] else []).
Proof.
  intros Hp. unfold relax, seen. rewrite Hp.
  destruct (_ =? 1); simpl; rewrite ?app_nil_r, ?app_assoc; auto.
Qed.

Lemma relax_inv g p c todo st : rg_wf g -> ~ has_push_dep g -> In (p, c) (rg_edges g) ->
  Inv g ((p, c) :: todo) st -> Inv g todo (relax g st c).
Proof.
  intros [_ Hwe] Hnpd Hin [Ind Iseen Ideg Irk Ipp].
  destruct (Hwe p c Hin) as [_ Hc].
  assert (Hpc : is_push g c = false) by (destruct (is_push g c) eqn:E; [destruct Hnpd; exists p, c; auto | reflexivity]).
  destruct (relax_seen g st c Hpc) as (Hd & Hs).
  pose proof (Ideg c Hc) as Hdc. cbn [cnt_into] in Hdc. rewrite Nat.eqb_refl in Hdc.
  constructor; rewrite ?Hs, ?Hd, ?relax_out.
  3: { intros v Hv. rewrite nth_update_pred, (Ideg v Hv). cbn [cnt_into]. destruct (c =? v); lia. }
  (* the other clauses speak of [seen]: it is unchanged, or [c] is queued *)
  all: destruct (Nat.eqb_spec (nth c (k_deg st) 0) 1) as [E|E]; rewrite ?app_nil_r; auto.
  - apply (Permutation_NoDup (Permutation_cons_append _ _)). constructor; auto. rewrite Iseen; lia.
  - intros v. rewrite in_app_iff, Iseen, nth_update_pred. simpl. destruct (Nat.eqb_spec c v) as [<-|Hne]; lia.
  - (* [seen] unchanged: the degree of [c] has moved, but not to 0 *)
    intros v. rewrite Iseen, nth_update_pred. destruct (Nat.eqb_spec c v) as [<-|Hne]; lia.
  - (* positions in [seen st] do not move; [c] was not in it, and all its producers are in [k_out st] *)
    intros p' c' Hin' Hc'. apply in_app_iff in Hc'. destruct Hc' as [Hc'|[<-|[]]].
    + pose proof (Irk p' c' Hin' Hc') as Hlt. pose proof (pos_le c' (seen st)) as Hle.
      rewrite !pos_app_in; [exact Hlt | exact Hc' | apply pos_lt_In; lia].
    + assert (Hp' : In p' (seen st)).
      { apply in_app_iff. left. apply (pend_zero (rg_edges g) _ c); [lia | exact Hin']. }
      rewrite pos_app_in, pos_app_notin by (auto; rewrite Iseen; lia). apply pos_lt_In in Hp'. lia.
  - destruct Ipp as (a & b & Eab & Ha & Hb). exists a, (b ++ [c]).
    rewrite Eab, app_assoc. repeat split; auto.
    intros v Hv. apply in_app_iff in Hv. destruct Hv as [Hv|[<-|[]]]; auto.
Qed.

Lemma fold_relax_inv g : rg_wf g -> ~ has_push_dep g -> forall todo st,
  incl todo (rg_edges g) -> Inv g todo st -> Inv g [] (fold_left (relax g) (map snd todo) st).
Proof.
  intros Hwf Hnpd. induction todo as [|[p c] r IH]; intros st Hsub I; simpl; [exact I|].
  apply incl_cons_inv in Hsub. destruct Hsub as [Hin Hsub]. apply IH; [exact Hsub|]. eapply relax_inv; eauto.
Qed.

Lemma fold_relax_out g cs : forall st, k_out (fold_left (relax g) cs st) = k_out st.
Proof. intros st. apply fold_left_ind; [intros a c _ H; rewrite relax_out; exact H | reflexivity]. Qed.

(* the head of [k_qp st ++ k_q st] moves to the end of [k_out]: [seen] is the same list *)
Lemma kstep_some g st st' : kstep g st = Some st' ->
  exists v st1, st' = fold_left (relax g) (consumers g v) st1 /\
    k_deg st1 = k_deg st /\ k_out st1 = k_out st ++ [v] /\ seen st1 = seen st.
Proof.
  unfold kstep, process, seen. destruct st as [deg qp q out]; simpl.
  destruct qp as [|v qp]; [destruct q as [|v q]; [discriminate|]|];
    intros [= <-]; eexists _, _; (split; [reflexivity|]); simpl; rewrite <- app_assoc; auto.
Qed.

Lemma kstep_inv g st st' : rg_wf g -> ~ has_push_dep g -> Inv g [] st -> kstep g st = Some st' ->
  Inv g [] st' /\ length (k_out st') = S (length (k_out st)).
Proof.
  intros Hwf Hnpd [Ind Iseen Ideg Irk Ipp] Hs.
  destruct (kstep_some g st st' Hs) as (v & st1 & -> & Hd & Ho & Hse).
  split; [|rewrite fold_relax_out, Ho, app_length; simpl; lia].
  assert (Hv : ~ In v (k_out st)).
  { rewrite <- Hse in Ind. unfold seen in Ind. rewrite Ho, <- app_assoc in Ind.
    apply NoDup_remove_2 in Ind. rewrite in_app_iff in Ind. tauto. }
  (* [todo] := the edges out of [v]: [consumers g v] is [map snd] of that filter *)
  apply fold_relax_inv; auto using incl_filter.
  constructor; rewrite ?Hse, ?Hd, ?Ho; auto.
  intros c Hc. rewrite (Ideg c Hc), Nat.add_0_r. apply pend_snoc, Hv.
Qed.

Lemma push_dep_true g : rg_wf g -> (push_dep g = true <-> has_push_dep g).
Proof.
  intros [_ Hwe]. unfold push_dep, has_push_dep. rewrite existsb_exists. split.
  - intros (v & _ & Hb). apply andb_true_iff in Hb. destruct Hb as [Hp Hc].
    apply negb_true_iff, Nat.eqb_neq in Hc.
    destruct (proj1 (cnt_into_pos (rg_edges g) v)) as (p & Hin); [lia|]. exists p, v. auto.
  - intros (p & c & Hin & Hp). exists c. split.
    + apply in_seq. apply Hwe in Hin. lia.
    + rewrite Hp. apply negb_true_iff, Nat.eqb_neq.
      assert (0 < cnt_into (rg_edges g) c) by (apply cnt_into_pos; eauto). lia.
Qed.

Lemma init_inv g : Inv g [] (init_st g).
Proof.
  assert (Hd : forall v, v < rg_n g -> nth v (indeg_init g) 0 = cnt_into (rg_edges g) v).
  { intros v Hv. apply (nth_map_seq _ 0), Hv. }
  assert (Hseen : forall v, In v (seen (init_st g)) <-> v < rg_n g /\ nth v (indeg_init g) 0 = 0).
  { intros v. unfold seen. simpl.
    rewrite in_app_iff, !filter_In, in_seq, !andb_true_iff, negb_true_iff, Nat.eqb_eq.
    destruct (is_push g v); intuition (congruence || lia). }
  constructor; [ | exact Hseen | | | ]; unfold seen; simpl.
  - apply NoDup_app_intro; try apply NoDup_filter, seq_NoDup.
    intros v Hp Hq. apply filter_In in Hp, Hq. destruct (is_push g v); [destruct Hq as [_ Hq] | destruct Hp as [_ Hp]]; discriminate.
  - intros v Hv. rewrite pend_nil, Nat.add_0_r. apply Hd, Hv.
  - intros p c Hin Hc. apply Hseen in Hc. destruct Hc as [Hc Hz]. rewrite (Hd c Hc) in Hz.
    destruct (cnt_into_zero _ _ Hz p Hin).
  - eexists _, _. split; [reflexivity|].
    split; intros v Hv; apply filter_In in Hv; destruct Hv as [_ Hv]; apply andb_true_iff in Hv; destruct Hv as [Hv _];
      [exact Hv | apply negb_true_iff, Hv].
Qed.

Lemma kloop_final g : rg_wf g -> ~ has_push_dep g -> forall fuel st,
  Inv g [] st -> rg_n g <= fuel + length (k_out st) ->
  Inv g [] (kloop g fuel st) /\ seen (kloop g fuel st) = k_out (kloop g fuel st).
Proof.
  intros Hwf Hnpd. induction fuel as [|f IH]; intros st I Hf; cbn [kloop].
  - split; auto. pose proof (seen_bounded g [] st I) as Ht. unfold seen in *. rewrite !app_length in Ht.
    destruct (k_qp st); destruct (k_q st); simpl in *; rewrite ?app_nil_r; auto; lia.
  - destruct (kstep g st) as [st'|] eqn:E.
    + destruct (kstep_inv g st st' Hwf Hnpd I E) as [I' Hl]. apply IH; auto. lia.
    + split; auto. unfold kstep in E. unfold seen.
      destruct (k_qp st); [|discriminate]. destruct (k_q st); [apply app_nil_r|discriminate].
Qed.

Lemma kahn_run g : rg_wf g -> ~ has_push_dep g ->
  let st := kloop g (rg_n g) (init_st g) in Inv g [] st /\ seen st = k_out st.
Proof.
  intros Hwf Hpd. apply kloop_final; auto using init_inv. simpl. lia.
Qed.

Lemma drained_sound g st : rg_wf g -> Inv g [] st -> seen st = k_out st ->
  length (k_out st) = rg_n g -> is_ranking g (k_out st).
Proof.
  intros Hwf [Ind Iseen _ Irk Ipp] Hs El. rewrite Hs in *.
  assert (Hperm : Permutation (k_out st) (seq 0 (rg_n g))).
  { apply full_perm; auto. intros v Hv. apply Iseen, Hv. }
  split; [exact Hperm|]. split; [|exact Ipp].
  intros p c Hin. apply Irk; auto.
  apply (Permutation_in _ (Permutation_sym Hperm)), in_seq. apply Hwf in Hin. lia.
Qed.

Lemma tcr_trans R a b c : tcr R a b -> tcr R b c -> tcr R a c.
Proof. intros H. revert c. induction H; intros; eapply tcr_step; eauto. Qed.

Lemma pred_closed_cycle (l : list nat) : forall (R : nat -> nat -> Prop),
  l <> [] -> (forall v, In v l -> exists p, In p l /\ R p v) -> exists v, tcr R v v.
Proof.
  induction l as [|x l IH]; intros R Hne Hpred; [congruence|].
  destruct (Hpred x (or_introl eq_refl)) as (px & Hpx & Rpx).
  destruct (Nat.eq_dec px x) as [->|Hpxne]; [exists x; apply tcr_one; exact Rpx|].
  assert (Hpxl : In px l) by (destruct Hpx; [congruence | auto]).
  (* drop x, bridging the paths that went through it *)
  set (R' := fun p v => R p v \/ (R p x /\ R x v)).
  destruct (IH R') as (v & Hv).
  - intros ->. destruct Hpxl.
  - intros v Hv. destruct (Hpred v (or_intror Hv)) as (p & Hp & Rp).
    destruct (Nat.eq_dec p x) as [->|Hpne].
    + exists px. split; auto. right. auto.
    + exists p. split; [destruct Hp; [congruence | auto] | left; exact Rp].
  - exists v. assert (Hbase : forall a b, R' a b -> tcr R a b).
    { intros a b [H|[H1 H2]]; [apply tcr_one | eapply tcr_step; [|apply tcr_one]]; eauto. }
    assert (Hgen : forall a b, tcr R' a b -> tcr R a b).
    { intros a b Ht. induction Ht; [|eapply tcr_trans]; eauto. }
    apply Hgen, Hv.
Qed.

Lemma ranking_acyclic g o : is_ranking g o -> ~ cyclic g.
Proof.
  intros (_ & He & _) (v & Hv).
  assert (Hlt : forall a b, tc (rg_edges g) a b -> pos a o < pos b o).
  { intros a b H. induction H as [a b H|a b c H _ IH]; apply He in H; lia. }
  specialize (Hlt v v Hv). lia.
Qed.

(* when fewer than n nodes are ranked, every unranked node has an unranked producer *)
Lemma drained_cycle g st : rg_wf g -> Inv g [] st -> seen st = k_out st ->
  length (k_out st) <> rg_n g -> cyclic g.
Proof.
  intros Hwf I Hs El.
  pose proof (seen_bounded g [] st I) as Ht. rewrite Hs in Ht.
  set (l := filter (fun v => negb (memb v (k_out st))) (seq 0 (rg_n g))).
  assert (Hl : forall v, In v l <-> v < rg_n g /\ ~ In v (k_out st)).
  { intros v. unfold l. rewrite filter_In, in_seq, negb_true_iff, memb_false. intuition lia. }
  apply pred_closed_cycle with (l := l).
  - intros E. assert (Hle : length (seq 0 (rg_n g)) <= length (k_out st)).
    { apply NoDup_incl_length; [apply seq_NoDup|]. intros v Hv. apply in_seq in Hv.
      destruct (in_dec Nat.eq_dec v (k_out st)) as [Hin|Hin]; [exact Hin|].
      assert (Hv' : In v l) by (apply Hl; split; [lia | exact Hin]). rewrite E in Hv'. destruct Hv'. }
    rewrite seq_length in Hle. lia.
  - intros v Hv. apply Hl in Hv. destruct Hv as [Hvn Hvo].
    destruct (proj1 (pend_pos (rg_edges g) (k_out st) v)) as (p & Hp & Hpo).
    { rewrite <- Hs, (inv_seen _ _ _ I) in Hvo. pose proof (inv_deg _ _ _ I v Hvn). simpl in *. lia. }
    exists p. split; [|exact Hp]. apply Hl. split; [|exact Hpo]. apply Hwf in Hp. tauto.
Qed.

(* the right-hand sides exclude each other, which makes each case an equivalence below *)
Lemma kahn_cases g : rg_wf g ->
  match kahn g with
  | KOk o => is_ranking g o /\ ~ has_push_dep g
  | KCycle => cyclic g /\ ~ has_push_dep g
  | KPushDep => has_push_dep g
  end.
Proof.
  intros Hwf. pose proof (push_dep_true g Hwf) as Hp. pose proof (kahn_run g Hwf) as Hr.
  unfold kahn. destruct (push_dep g); [apply Hp; reflexivity|].
  assert (Hn : ~ has_push_dep g) by (rewrite <- Hp; discriminate).
  destruct (Hr Hn) as (I & Hs).
  destruct (Nat.eqb_spec (length (k_out (kloop g (rg_n g) (init_st g)))) (rg_n g)); (split; [|exact Hn]).
  - apply drained_sound; auto.
  - eapply drained_cycle; eauto.
Qed.

Lemma kahn_sound g o : rg_wf g -> kahn g = KOk o -> is_ranking g o.
Proof. intros Hwf H. pose proof (kahn_cases g Hwf) as C. rewrite H in C. apply C. Qed.

Lemma kahn_complete g : rg_wf g -> (kahn g = KCycle <-> cyclic g /\ ~ has_push_dep g).
Proof.
  intros Hwf. pose proof (kahn_cases g Hwf) as H. destruct (kahn g) as [o| |]; split; try discriminate; auto.
  - intros [Hc _]. destruct (ranking_acyclic g o (proj1 H) Hc).
  - intros [_ Hn]. destruct (Hn H).
Qed.

Lemma kahn_push_dep g : rg_wf g -> (kahn g = KPushDep <-> has_push_dep g).
Proof.
  intros Hwf. pose proof (kahn_cases g Hwf) as H.
  destruct (kahn g) as [o| |]; split; try discriminate; auto; intros Hp; destruct (proj2 H Hp).
Qed.

Lemma kahn_accepts g : rg_wf g -> ((exists o, kahn g = KOk o) <-> ~ cyclic g /\ ~ has_push_dep g).
Proof.
  intros Hwf. pose proof (kahn_cases g Hwf) as H.
  destruct (kahn g) as [o| |]; split; try (intros (o' & Ho); discriminate).
  - intros _. split; [apply (ranking_acyclic g o) | ]; apply H.
  - eauto.
  - intros [Hnc _]. destruct (Hnc (proj1 H)).
  - intros [_ Hnp]. destruct (Hnp H).
Qed.

Lemma valid_ranking_accepts g o : valid_ranking g o = true <-> is_ranking g o.
Proof.
  unfold valid_ranking, is_ranking, push_prefix.
  rewrite !andb_true_iff, Nat.eqb_eq, !forallb_forall, nodupb_NoDup, prefixb_map.
  split.
  - intros ((((Hl & Hb) & Hnd) & He) & Hp). split; [|split; [|exact Hp]].
    + apply full_perm; auto. intros v Hv. apply Nat.ltb_lt, Hb, Hv.
    + intros p c Hin. apply Nat.ltb_lt, (He _ Hin).
  - intros (Hperm & He & Hp). repeat split; auto.
    + rewrite (Permutation_length Hperm). apply seq_length.
    + intros v Hv. apply Nat.ltb_lt. apply (Permutation_in _ Hperm), in_seq in Hv. lia.
    + apply (Permutation_NoDup (Permutation_sym Hperm)), seq_NoDup.
    + intros [p c] Hin. apply Nat.ltb_lt, He, Hin.
Qed.

Lemma kahn_order_accepted g o : rg_wf g -> kahn g = KOk o -> valid_ranking g o = true.
Proof. intros Hwf H. apply valid_ranking_accepts. apply kahn_sound; auto. Qed.
