(* DeltaLibFacts.v — the algebra of the sorted-list sets and maps of DeltaLib.v.  The facts are proved
   for maps; a set is the key set of a map to unit, so what [get] says of put and drop, [mem] says
   of ins and del.  (That is all [drop] is for: the model's dictionaries never call it.) *)
Require Import Base DeltaLib.

Lemma sorted_cons_inv x r : sorted (x :: r) -> sorted r /\ lb x r.
Proof.
  revert x; induction r as [|y r IH]; intros x H.
  - split; [exact I|]. intros z Hz; discriminate.
  - destruct H as [Hxy Hs]. split; [exact Hs|].
    intros z Hz. cbn [mem] in Hz. destruct (z =? y) eqn:E; [lia|].
    cbn [orb] in Hz. destruct (IH y Hs) as [_ Hlb]. specialize (Hlb z Hz). lia.
Qed.

Lemma sorted_cons x r : sorted r -> lb x r -> sorted (x :: r).
Proof.
  intros Hs Hlb. destruct r as [|y r]; [split; exact I|].
  split; [|exact Hs]. apply Hlb. cbn [mem]. rewrite Z.eqb_refl. reflexivity.
Qed.

Lemma mem_lb_false x l : lb x l -> forall k, k <= x -> mem k l = false.
Proof.
  intros Hlb k Hk. destruct (mem k l) eqn:E; [|reflexivity]. specialize (Hlb k E). lia.
Qed.

Lemma mem_In k l : mem k l = true <-> In k l.
Proof.
  induction l as [|x r IH]; cbn [mem In]; [split; [discriminate|tauto]|].
  rewrite orb_true_iff, IH. split; intros [H|H]; auto; left; lia.
Qed.

Section Maps.
  Context {A : Type}.
  Implicit Types (l r : list (Z * A)) (v w : A).

  Lemma has_mem k l : has k l = mem k (keys l).
  Proof.
    unfold has. induction l as [|[x v] r IH]; cbn [get keys map fst mem]; [reflexivity|].
    destruct (k =? x); [reflexivity|exact IH].
  Qed.

  Lemma get_none_lb x l k : lb x (keys l) -> k <= x -> get k l = None.
  Proof.
    intros Hlb Hk. pose proof (mem_lb_false _ _ Hlb k Hk) as H. rewrite <- has_mem in H.
    unfold has in H. destruct (get k l); [discriminate|reflexivity].
  Qed.

  Lemma ksorted_tail x v r : ksorted ((x, v) :: r) -> ksorted r /\ lb x (keys r).
  Proof. unfold ksorted; cbn [keys map fst]. apply sorted_cons_inv. Qed.

  Lemma get_put k j v l : get j (put k v l) = if j =? k then Some v else get j l.
  Proof.
    induction l as [|[x w] r IH]; cbn [put get].
    - reflexivity.
    - destruct (k <? x) eqn:E1; cbn [get]; [reflexivity|].
      destruct (k =? x) eqn:E2; cbn [get].
      + apply Z.eqb_eq in E2; subst x. destruct (j =? k); reflexivity.
      + rewrite IH. destruct (j =? x) eqn:E3; [|reflexivity].
        apply Z.eqb_eq in E3; subst j. rewrite Z.eqb_sym, E2. reflexivity.
  Qed.

  Lemma keys_put k v l : keys (put k v l) = ins k (keys l).
  Proof.
    induction l as [|[x w] r IH]; cbn [put keys map fst ins]; [reflexivity|].
    destruct (k <? x); [reflexivity|].
    destruct (k =? x) eqn:E; cbn [keys map fst].
    - apply Z.eqb_eq in E; subst x. reflexivity.
    - f_equal. exact IH.
  Qed.

  Lemma keys_drop k l : keys (drop k l) = del k (keys l).
  Proof.
    induction l as [|[x w] r IH]; cbn [drop keys map fst del]; [reflexivity|].
    destruct (k =? x); [reflexivity|]. cbn [keys map fst]. f_equal. exact IH.
  Qed.

  Lemma get_drop k j l : ksorted l -> get j (drop k l) = if j =? k then None else get j l.
  Proof.
    induction l as [|[x w] r IH]; intros Hs; cbn [drop get].
    - destruct (j =? k); reflexivity.
    - destruct (ksorted_tail _ _ _ Hs) as [Hr Hlb].
      destruct (k =? x) eqn:Ekx.
      + apply Z.eqb_eq in Ekx; subst x.
        destruct (j =? k) eqn:Ejk; [|reflexivity].
        apply Z.eqb_eq in Ejk; subst j. apply get_none_lb with (x := k); [exact Hlb|lia].
      + cbn [get]. rewrite IH by exact Hr.
        destruct (j =? x) eqn:Ejx; [|reflexivity].
        apply Z.eqb_eq in Ejx; subst j. rewrite Z.eqb_sym, Ekx. reflexivity.
  Qed.

  Lemma ksorted_ext l1 l2 : ksorted l1 -> ksorted l2 -> (forall k, get k l1 = get k l2) -> l1 = l2.
  Proof.
    revert l2; induction l1 as [|[x v] r IH]; intros [|[y w] s] H1 H2 He.
    - reflexivity.
    - specialize (He y). cbn [get] in He. rewrite Z.eqb_refl in He. discriminate.
    - specialize (He x). cbn [get] in He. rewrite Z.eqb_refl in He. discriminate.
    - destruct (ksorted_tail _ _ _ H1) as [Hr Hlbx]. destruct (ksorted_tail _ _ _ H2) as [Hs Hlby].
      assert (x = y) as Hxy.
      { pose proof (He x) as Hx. pose proof (He y) as Hy. cbn [get] in Hx, Hy.
        rewrite Z.eqb_refl in Hx, Hy.
        destruct (x =? y) eqn:E; [lia|].
        rewrite Z.eqb_sym, E in Hy.
        destruct (Z_lt_le_dec x y) as [Hlt|Hge].
        - rewrite (get_none_lb y s x Hlby) in Hx by lia. discriminate.
        - rewrite (get_none_lb x r y Hlbx) in Hy by lia. discriminate. }
      subst y.
      pose proof (He x) as Hx. cbn [get] in Hx. rewrite Z.eqb_refl in Hx. injection Hx as Hvw. subst w.
      f_equal. apply IH; [exact Hr|exact Hs|].
      intros k. specialize (He k). cbn [get] in He.
      destruct (k =? x) eqn:E; [|exact He].
      apply Z.eqb_eq in E; subst k.
      rewrite (get_none_lb x r x Hlbx), (get_none_lb x s x Hlby) by lia. reflexivity.
  Qed.

  Lemma get_In k v l : get k l = Some v -> In (k, v) l.
  Proof.
    induction l as [|[x w] r IH]; cbn [get In]; [discriminate|].
    destruct (k =? x) eqn:E.
    - apply Z.eqb_eq in E; subst x. intros H; injection H as H; subst w. left; reflexivity.
    - intros H; right; auto.
  Qed.

  Lemma In_get k v l : ksorted l -> In (k, v) l -> get k l = Some v.
  Proof.
    induction l as [|[x w] r IH]; intros Hs Hin; [destruct Hin|].
    destruct (ksorted_tail _ _ _ Hs) as [Hr Hlb]. cbn [get]. destruct Hin as [Heq|Hin].
    - injection Heq as Hx Hw. subst x w. rewrite Z.eqb_refl. reflexivity.
    - destruct (k =? x) eqn:E; [|apply IH; assumption].
      apply Z.eqb_eq in E; subst x.
      specialize (IH Hr Hin). rewrite (get_none_lb k r k Hlb) in IH by lia. discriminate.
  Qed.

  Lemma ksorted_put k v l : ksorted l -> ksorted (put k v l).
  Proof.
    induction l as [|[x w] r IH]; intros Hs; cbn [put]; [split; exact I|].
    destruct (k <? x) eqn:E1; [split; [cbn; lia|exact Hs]|].
    destruct (k =? x) eqn:E2; [apply Z.eqb_eq in E2; subst x; exact Hs|].
    destruct (ksorted_tail _ _ _ Hs) as [Hr Hlb]. apply (sorted_cons x); [exact (IH Hr)|].
    intros y Hy. rewrite <- has_mem in Hy. unfold has in Hy. rewrite get_put in Hy.
    destruct (y =? k) eqn:E; [lia|]. apply Hlb. rewrite <- has_mem. exact Hy.
  Qed.

  Lemma ksorted_drop k l : ksorted l -> ksorted (drop k l).
  Proof.
    induction l as [|[x w] r IH]; intros Hs; cbn [drop]; [exact I|].
    destruct (ksorted_tail _ _ _ Hs) as [Hr Hlb].
    destruct (k =? x); [exact Hr|]. apply (sorted_cons x); [exact (IH Hr)|].
    intros y Hy. rewrite <- has_mem in Hy. unfold has in Hy. rewrite (get_drop _ _ _ Hr) in Hy.
    destruct (y =? k); [discriminate|]. apply Hlb. rewrite <- has_mem. exact Hy.
  Qed.
End Maps.

Definition as_map (l : list Z) : list (Z * unit) := map (fun k => (k, tt)) l.

Lemma keys_as_map l : keys (as_map l) = l.
Proof. unfold keys, as_map. rewrite map_map. apply map_id. Qed.

Lemma mem_as_map k l : mem k l = has k (as_map l).
Proof. rewrite has_mem, keys_as_map. reflexivity. Qed.

Lemma mem_ins k j l : mem j (ins k l) = (j =? k) || mem j l.
Proof.
  rewrite <- (keys_as_map l) at 1. rewrite <- (keys_put k tt), <- has_mem, mem_as_map. unfold has.
  rewrite get_put. destruct (j =? k); reflexivity.
Qed.

Lemma mem_del k j l : sorted l -> mem j (del k l) = negb (j =? k) && mem j l.
Proof.
  intros H. rewrite <- (keys_as_map l) in H. rewrite <- (keys_as_map l) at 1.
  rewrite <- keys_drop, <- has_mem, mem_as_map. unfold has.
  rewrite (get_drop _ _ _ H). destruct (j =? k); reflexivity.
Qed.

Lemma sorted_ext l1 l2 : sorted l1 -> sorted l2 -> (forall k, mem k l1 = mem k l2) -> l1 = l2.
Proof.
  intros H1 H2 He. rewrite <- (keys_as_map l1), <- (keys_as_map l2) in *. f_equal.
  apply ksorted_ext; [exact H1|exact H2|].
  intros k. specialize (He k). rewrite <- !has_mem in He. unfold has in He.
  destruct (get k (as_map l1)) as [[]|], (get k (as_map l2)) as [[]|]; congruence.
Qed.

Lemma sorted_ins k l : sorted l -> sorted (ins k l).
Proof. rewrite <- (keys_as_map l), <- (keys_put k tt). apply ksorted_put. Qed.

Lemma sorted_del k l : sorted l -> sorted (del k l).
Proof. rewrite <- (keys_as_map l), <- keys_drop. apply ksorted_drop. Qed.
