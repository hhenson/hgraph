(* InternFacts.v — proofs about the mirror model of Wiring::add_node interning (Intern.v):
   key equality is structural equality of (definition, schemas, inputs, scalars); what one
   statement does to the wired state; the invariant tying every wired statement to the instance it
   was given; the wired graph unfolds to the dataflow of the program whatever the statement order and
   whether or not sharing is on. *)
Require Import Base Rank RankLemmas RankFacts Intern.
From Coq Require Import Arith Permutation Lia.
Local Open Scope nat_scope.

Fixpoint src_ind' (P : src -> Prop)
  (Hp : forall n p k, P (SPeer n p k)) (Hd : forall h p, P (SDelay h p)) (Hn : P SNull)
  (Hs : forall cs, Forall P cs -> P (SStruct cs)) (s : src) : P s :=
  match s with
  | SPeer n p k => Hp n p k
  | SDelay h p => Hd h p
  | SNull => Hn
  | SStruct cs =>
      Hs cs ((fix go (l : list src) : Forall P l :=
                match l with
                | [] => Forall_nil P
                | x :: r => Forall_cons x (src_ind' P Hp Hd Hn Hs x) (go r)
                end) cs)
  end.

Lemma list_eqb_spec_in {A} (eqb : A -> A -> bool) (a : list A) :
  (forall x, In x a -> forall y, eqb x y = true <-> x = y) ->
  forall b, list_eqb eqb a b = true <-> a = b.
Proof.
  induction a as [|x r IH]; intros H b; destruct b as [|y s]; simpl; try (split; congruence).
  rewrite andb_true_iff, (H x (or_introl eq_refl) y), (IH (fun z Hz => H z (or_intror Hz)) s).
  split; [intros [-> ->]; reflexivity | intros E; injection E; auto].
Qed.

Lemma list_eqb_spec {A} (eqb : A -> A -> bool) :
  (forall x y, eqb x y = true <-> x = y) -> forall a b, list_eqb eqb a b = true <-> a = b.
Proof. intros H a b. apply list_eqb_spec_in. intros x _ y. apply H. Qed.

Lemma src_eqb_struct cs cs' : src_eqb (SStruct cs) (SStruct cs') = list_eqb src_eqb cs cs'.
Proof.
  revert cs'. induction cs as [|x r IH]; intros [|y s]; simpl; auto.
  f_equal. apply IH.
Qed.

Lemma src_eqb_eq a : forall b, src_eqb a b = true <-> a = b.
Proof.
  induction a as [n p k|h p| |cs IH] using src_ind'; intros b.
  - destruct b; simpl; try (split; congruence).
    rewrite !andb_true_iff, !Nat.eqb_eq, (list_eqb_spec Nat.eqb Nat.eqb_eq).
    split; [intros [[-> ->] ->]; reflexivity | intros E; injection E; auto].
  - destruct b; simpl; try (split; congruence).
    rewrite andb_true_iff, Nat.eqb_eq, (list_eqb_spec Nat.eqb Nat.eqb_eq).
    split; [intros [-> ->]; reflexivity | intros E; injection E; auto].
  - destruct b; simpl; split; congruence.
  - destruct b as [| | |cs']; try (simpl; split; congruence).
    rewrite src_eqb_struct.
    rewrite (list_eqb_spec_in src_eqb cs).
    + split; [intros ->; reflexivity | intros E; injection E; auto].
    + intros x Hx. rewrite Forall_forall in IH. apply IH, Hx.
Qed.

Lemma input_eqb_eq a b : input_eqb a b = true <-> a = b.
Proof.
  unfold input_eqb. rewrite !andb_true_iff, src_eqb_eq, (list_eqb_spec Nat.eqb Nat.eqb_eq), !Bool.eqb_true_iff.
  destruct a, b; simpl. split; [intros [[[-> ->] ->] ->]; reflexivity | intros E; injection E; auto].
Qed.

Lemma optl_eqb_eq a b : optl_eqb a b = true <-> a = b.
Proof.
  destruct a as [x|], b as [y|]; simpl; try (split; congruence).
  rewrite (list_eqb_spec Z.eqb Z.eqb_eq). split; [intros ->; reflexivity | intros E; injection E; auto].
Qed.

Lemma key_eqb_eq (a b : key) : key_eqb a b = true <-> a = b.
Proof.
  destruct a as [[[d s] i] c], b as [[[d' s'] i'] c']. unfold key_eqb.
  rewrite !andb_true_iff, Nat.eqb_eq, (list_eqb_spec Z.eqb Z.eqb_eq), (list_eqb_spec input_eqb input_eqb_eq), optl_eqb_eq.
  split; [intros [[[-> ->] ->] ->]; reflexivity | intros E; injection E; auto].
Qed.

Lemma make_key_inj d ins d' ins' :
  make_key d ins = make_key d' ins' <->
  nd_def d = nd_def d' /\ nd_sch d = nd_sch d' /\ nd_scal d = nd_scal d' /\ key_inputs ins = key_inputs ins'.
Proof.
  unfold make_key. split.
  - intros E. injection E. auto.
  - intros (-> & -> & -> & ->). reflexivity.
Qed.

Lemma norm_from_eq k ins ins' :
  norm_from k ins = norm_from k ins' <->
  length ins = length ins' /\
  forall j a b, nth_error ins j = Some a -> nth_error ins' j = Some b ->
    in_src a = in_src b /\ in_rank a = in_rank b /\ in_passive a = in_passive b /\
    (match in_tpath a with [] => [k + j] | p => p end) = (match in_tpath b with [] => [k + j] | p => p end).
Proof.
  revert k ins'. induction ins as [|a r IH]; intros k [|b s]; simpl; try (split; [congruence | intros [H _]; discriminate]).
  - split; auto. intros _. split; auto. intros [|j] x y; discriminate.
  - split.
    + intros E. injection E as E1 E2 E3 E4 E5. apply IH in E5. destruct E5 as [Hl Hs]. split; [congruence|].
      intros [|j] x y Hx Hy; simpl in *.
      * injection Hx as <-. injection Hy as <-. rewrite Nat.add_0_r. auto.
      * specialize (Hs j x y Hx Hy). replace (k + S j) with (S k + j) by lia. exact Hs.
    + intros [Hl Hs]. f_equal.
      * destruct (Hs 0 a b eq_refl eq_refl) as (E1 & E2 & E3 & E4). rewrite Nat.add_0_r in E4. congruence.
      * apply IH. split; [lia|]. intros j x y Hx Hy. specialize (Hs (S j) x y Hx Hy).
        replace (k + S j) with (S k + j) in Hs by lia. exact Hs.
Qed.

Lemma alookup_cons {B} k k' (v : B) l :
  alookup k ((k', v) :: l) = if k' =? k then Some v else alookup k l.
Proof. reflexivity. Qed.

Definition env_le (e e' : list (nat * nat)) : Prop := forall l i, alookup l e = Some i -> alookup l e' = Some i.
Definition phs_le (p p' : list nat) : Prop := forall h, memb h p = true -> memb h p' = true.

Lemma env_le_refl e : env_le e e. Proof. intros l i H; exact H. Qed.
Lemma phs_le_refl p : phs_le p p. Proof. intros h H; exact H. Qed.

Lemma env_le_cons e l i : alookup l e = None -> env_le e ((l, i) :: e).
Proof.
  intros Hn l0 i0 H. rewrite alookup_cons. destruct (l =? l0) eqn:E; auto.
  apply Nat.eqb_eq in E. subst. congruence.
Qed.

Lemma phs_le_cons p h : phs_le p (h :: p).
Proof. intros h0 H. simpl. rewrite H. apply orb_true_r. Qed.

Fixpoint mapM {A B} (f : A -> option B) (l : list A) : option (list B) :=
  match l with
  | [] => Some []
  | x :: r => match f x, mapM f r with Some a, Some b => Some (a :: b) | _, _ => None end
  end.

Lemma resolve_struct e p cs :
  resolve e p (SStruct cs) = match mapM (resolve e p) cs with Some cs' => Some (SStruct cs') | None => None end.
Proof.
  simpl.
  match goal with |- match ?g cs with _ => _ end = _ => assert (E : g cs = mapM (resolve e p) cs) end.
  { induction cs as [|x r IH]; simpl; [reflexivity | rewrite IH; reflexivity]. }
  rewrite E. reflexivity.
Qed.

Lemma mapM_mono {A B} (f g : A -> option B) cs :
  Forall (fun x => forall r, f x = Some r -> g x = Some r) cs ->
  forall l, mapM f cs = Some l -> mapM g cs = Some l.
Proof.
  induction 1 as [|x r Hx Hr IH]; simpl; intros l H; auto.
  destruct (f x) as [a|] eqn:Ea; [|discriminate].
  destruct (mapM f r) as [b|] eqn:Eb; [|discriminate].
  rewrite (Hx a eq_refl), (IH b eq_refl). exact H.
Qed.

Lemma resolve_mono e p e' p' : env_le e e' -> phs_le p p' ->
  forall s r, resolve e p s = Some r -> resolve e' p' s = Some r.
Proof.
  intros He Hp s. induction s as [n q k|h q| |cs IH] using src_ind'; intros r H.
  - simpl in *. destruct (alookup n e) as [i|] eqn:E; [|discriminate]. rewrite (He n i E). exact H.
  - simpl in *. destruct (memb h p) eqn:E; [|discriminate]. rewrite (Hp h E). exact H.
  - exact H.
  - rewrite resolve_struct in *. destruct (mapM (resolve e p) cs) as [l|] eqn:E; [|discriminate].
    rewrite (mapM_mono _ _ cs IH l E). exact H.
Qed.

Lemma resolve_inputs_spec e p ins rins : resolve_inputs e p ins = Some rins ->
  Forall2 (fun i r => exists s, resolve e p (in_src i) = Some s /\
             r = {| in_src := s; in_tpath := in_tpath i; in_rank := in_rank i; in_passive := in_passive i |}) ins rins.
Proof.
  revert rins. induction ins as [|i r IH]; simpl; intros rins H.
  - injection H as <-. constructor.
  - destruct (resolve e p (in_src i)) as [s|] eqn:Es; [|discriminate].
    destruct (resolve_inputs e p r) as [r'|]; [|discriminate].
    injection H as <-. constructor; eauto.
Qed.

Lemma resolve_inputs_mono e p e' p' : env_le e e' -> phs_le p p' ->
  forall ins r, resolve_inputs e p ins = Some r -> resolve_inputs e' p' ins = Some r.
Proof.
  intros He Hp ins rr H. apply resolve_inputs_spec in H.
  induction H as [|i ? r r' (s & Hs & ->) _ IH]; simpl; auto.
  rewrite (resolve_mono e p e' p' He Hp _ _ Hs), IH. reflexivity.
Qed.

Lemma norm_from_passive k ins : map in_passive (norm_from k ins) = map in_passive ins.
Proof. revert k; induction ins as [|i r IH]; intros k; simpl; auto. rewrite IH. reflexivity. Qed.

Lemma resolve_inputs_passive e p ins : forall rins, resolve_inputs e p ins = Some rins ->
  map in_passive rins = map in_passive ins.
Proof.
  intros rins H. apply resolve_inputs_spec in H.
  induction H as [|i ? r r' (s & _ & ->) _ IH]; simpl; congruence.
Qed.

Lemma interns_not_uniq d : interns d = true -> nd_uniq d = false.
Proof. unfold interns. destruct (nd_uniq d); [rewrite andb_false_r; discriminate | reflexivity]. Qed.

Lemma tab_find_some k t i : tab_find k t = Some i -> In (k, i) t.
Proof.
  induction t as [|[k' v] r IH]; simpl; [discriminate|]. destruct (key_eqb k' k) eqn:E; [|auto].
  apply key_eqb_eq in E. subst k'. intros [= ->]. auto.
Qed.

(* statement l was given instance i, and i is configured exactly as l asks *)
Definition inst_matches (prog : list stmt) (w : wst) (l i : nat) : Prop :=
  exists d ins rins it,
    nth_error prog l = Some (StNode d ins) /\ nth_error (w_insts w) i = Some it /\
    resolve_inputs (w_env w) (w_phs w) ins = Some rins /\
    nd_def (i_def it) = nd_def d /\ nd_sch (i_def it) = nd_sch d /\ nd_scal (i_def it) = nd_scal d /\
    interns (i_def it) = interns d /\
    key_inputs (i_ins it) = key_inputs (eff_inputs d rins) /\
    (interns d = false -> i_label it = l).

Definition w_le (w w' : wst) : Prop :=
  (forall i it, nth_error (w_insts w) i = Some it -> nth_error (w_insts w') i = Some it) /\
  env_le (w_env w) (w_env w') /\ phs_le (w_phs w) (w_phs w').

Lemma w_le_refl w : w_le w w.
Proof. split; [auto|]. split; [apply env_le_refl | apply phs_le_refl]. Qed.

Lemma inst_matches_mono prog w w' l i : w_le w w' -> inst_matches prog w l i -> inst_matches prog w' l i.
Proof.
  intros (Hi & He & Hp) (d & ins & rins & it & H1 & H2 & H3 & H4).
  exists d, ins, rins, it. split; auto. split; [apply Hi; exact H2|]. split; auto.
  eapply resolve_inputs_mono; eauto.
Qed.

(* [done]: the labels executed so far.  Every port the caller holds belongs to an executed statement
   ([wi_env_done]: a label outside [done] is fresh, [winv_fresh]) and stands for an instance configured as
   that statement asks ([wi_env]); every executed node statement has a port; every table entry is an instance
   with that key; every binding was made by an executed bind statement, and each of those has made one. *)
Record WInv (prog : list stmt) (done : list nat) (w : wst) : Prop := {
  wi_env : forall l i, alookup l (w_env w) = Some i -> inst_matches prog w l i;
  wi_env_done : forall l i, alookup l (w_env w) = Some i -> In l done;
  wi_node_done : forall l d ins, In l done -> nth_error prog l = Some (StNode d ins) ->
                 exists i, alookup l (w_env w) = Some i;
  wi_tab : forall k i, In (k, i) (w_tab w) ->
           exists it, nth_error (w_insts w) i = Some it /\ make_key (i_def it) (i_ins it) = k /\ interns (i_def it) = true;
  wi_binds : forall h i q, alookup h (w_binds w) = Some (i, q) ->
             exists lb l, In lb done /\ nth_error prog lb = Some (StBind h l q) /\ alookup l (w_env w) = Some i;
  wi_bind_done : forall lb h l q, In lb done -> nth_error prog lb = Some (StBind h l q) -> alookup h (w_binds w) <> None
}.

Lemma winv_init prog : WInv prog [] w0.
Proof. constructor; simpl; try discriminate; try tauto. Qed.

Lemma stmt_node_dec s : (exists d ins, s = StNode d ins) \/ (forall d ins, s <> StNode d ins).
Proof. destruct s; [left; eauto | right; discriminate ..]. Qed.

(* a node statement: the caller gets a port; the instance behind it is found in the table or appended *)
Lemma wire_node_ok sh w l d ins w' : wire_stmt sh w l (StNode d ins) = Ok w' ->
  exists rins i, resolve_inputs (w_env w) (w_phs w) ins = Some rins /\
    w_env w' = (l, i) :: w_env w /\ w_phs w' = w_phs w /\ w_binds w' = w_binds w /\ w_deps w' = w_deps w /\
    let k := make_key d (eff_inputs d rins) in
    (interns d = true /\ tab_find k (w_tab w) = Some i /\
     w_insts w' = w_insts w /\ w_tab w' = w_tab w) \/
    ((sh = true -> interns d = true -> tab_find k (w_tab w) = None) /\ i = length (w_insts w) /\
     w_insts w' = w_insts w ++ [{| i_label := l; i_def := d; i_ins := eff_inputs d rins |}] /\
     w_tab w' = if interns d then (k, i) :: w_tab w else w_tab w).
Proof.
  cbn [wire_stmt]. unfold wire_node, wire_node_gen.
  destruct (resolve_inputs (w_env w) (w_phs w) ins) as [rins|]; [|discriminate].
  destruct (all_passive _); [discriminate|].
  destruct (if sh && interns d then _ else None) as [i|] eqn:T; intros [= <-]; exists rins; eexists; repeat split.
  - left. destruct sh, (interns d); try discriminate. auto.
  - right. repeat split. intros Hs Hi. rewrite Hs, Hi in T. exact T.
Qed.

(* the bindings of [w'] are those of [w] and the one that statement [s], if it is a bind, makes *)
Definition binds_ext (s : stmt) (w w' : wst) : Prop :=
  (forall h i q, alookup h (w_binds w') = Some (i, q) ->
     alookup h (w_binds w) = Some (i, q) \/ exists l', s = StBind h l' q /\ alookup l' (w_env w) = Some i) /\
  (forall h, alookup h (w_binds w) <> None -> alookup h (w_binds w') <> None) /\
  (forall h l' q, s = StBind h l' q -> alookup h (w_binds w') <> None).

Lemma wire_other sh w l s w' : wire_stmt sh w l s = Ok w' -> (forall d ins, s <> StNode d ins) ->
  w_insts w' = w_insts w /\ w_tab w' = w_tab w /\ w_env w' = w_env w /\ phs_le (w_phs w) (w_phs w') /\
  binds_ext s w w' /\
  (forall a b, In (a, b) (w_deps w') ->
     In (a, b) (w_deps w) \/ exists la lb, alookup la (w_env w) = Some a /\ alookup lb (w_env w) = Some b).
Proof.
  intros Hw Hn.
  destruct s as [d ins| |h l' p|a b|pa la|pa la rc]; cbn [wire_stmt] in Hw.
  - destruct (Hn _ _ eq_refl).
  - injection Hw as <-. simpl. repeat split; auto using phs_le_cons. intros; discriminate.
  - destruct (memb h (w_phs w)); [|discriminate].
    destruct (alookup l' (w_env w)) as [i|] eqn:El; [|discriminate].
    destruct (alookup h (w_binds w)) eqn:Eb; [discriminate|]. injection Hw as <-.
    repeat split; auto using phs_le_refl; cbn [w_binds].
    + intros h0 i0 q. rewrite alookup_cons. destruct (Nat.eqb_spec h h0) as [<-|_]; [|auto].
      intros [= <- <-]. right. eauto.
    + intros h0. rewrite alookup_cons. destruct (h =? h0); [discriminate | auto].
    + intros h0 l0 q [= <- _ _]. rewrite alookup_cons, Nat.eqb_refl. discriminate.
  - destruct (alookup a (w_env w)) as [ia|] eqn:Ea; [|discriminate].
    destruct (alookup b (w_env w)) as [ib|] eqn:Eb; [|discriminate].
    destruct (ia =? ib); [discriminate|].
    destruct (existsb _ (w_deps w)); injection Hw as <-; repeat split; auto using phs_le_refl; try (intros; discriminate).
    cbn [w_deps].
    intros x y Hin. apply in_app_iff in Hin. destruct Hin as [Hin|[[= <- <-]|[]]]; eauto.
  - destruct (alookup la (w_env w)); [|discriminate]. injection Hw as <-. repeat split; auto using phs_le_refl; intros; discriminate.
  - destruct (alookup la (w_env w)); [|discriminate]. injection Hw as <-. repeat split; auto using phs_le_refl; intros; discriminate.
Qed.

Lemma wire_stmt_le sh w l s w' : wire_stmt sh w l s = Ok w' -> alookup l (w_env w) = None -> w_le w w'.
Proof.
  intros Hw Hl. unfold w_le. destruct (stmt_node_dec s) as [(d & ins & ->)|Hn].
  - destruct (wire_node_ok _ _ _ _ _ _ Hw) as (rins & i & _ & -> & -> & _ & _ & [(_ & _ & -> & _)|(_ & _ & -> & _)]);
      auto using nth_error_app_some, env_le_cons, phs_le_refl.
  - destruct (wire_other _ _ _ _ _ Hw Hn) as (-> & _ & -> & Hp & _). auto using env_le_refl.
Qed.

(* the new state extends the old one, and whatever is new in the environment, the table and the bindings
   is accounted for by statement [l] *)
Lemma winv_extend prog done w w' l s :
  WInv prog done w -> nth_error prog l = Some s -> w_le w w' ->
  (forall l0 i, alookup l0 (w_env w') = Some i ->
     alookup l0 (w_env w) = Some i \/ l0 = l /\ inst_matches prog w' l i) ->
  (forall d ins, s = StNode d ins -> alookup l (w_env w') <> None) ->
  (forall k i, In (k, i) (w_tab w') -> In (k, i) (w_tab w) \/
     exists it, nth_error (w_insts w') i = Some it /\ make_key (i_def it) (i_ins it) = k /\ interns (i_def it) = true) ->
  binds_ext s w w' ->
  WInv prog (l :: done) w'.
Proof.
  intros I Hs Hle He Hn Ht (Hb & Hb1 & Hb2). pose proof Hle as (Hi & Hee & _). constructor.
  - intros l0 i H. destruct (He l0 i H) as [H0|[-> H0]]; [|exact H0].
    eapply inst_matches_mono, wi_env; eauto.
  - intros l0 i H. destruct (He l0 i H) as [H0|[-> _]]; [right; eapply wi_env_done; eauto | left; reflexivity].
  - intros l0 d ins [<-|Hd] H0.
    + rewrite Hs in H0. injection H0 as ->. specialize (Hn _ _ eq_refl). destruct (alookup l (w_env w')); [eauto | congruence].
    + destruct (wi_node_done _ _ _ I l0 d ins Hd H0) as (i & Hi0). eauto.
  - intros k i H. destruct (Ht k i H) as [H0|H0]; [|exact H0].
    destruct (wi_tab _ _ _ I k i H0) as (it & A & B). eauto.
  - intros h i q H. destruct (Hb h i q H) as [H0|(l' & -> & H0)].
    + destruct (wi_binds _ _ _ I h i q H0) as (lb & l1 & H1 & H2 & H3). exists lb, l1. auto with datatypes.
    + exists l, l'. auto with datatypes.
  - intros lb h l1 q [<-|Hd] H0; [rewrite Hs in H0; injection H0 as ->; eauto|].
    eapply Hb1, wi_bind_done; eauto.
Qed.

Lemma winv_fresh prog done w l : WInv prog done w -> ~ In l done -> alookup l (w_env w) = None.
Proof. intros I Hl. destruct (alookup l (w_env w)) eqn:E; auto. destruct Hl. eapply wi_env_done; eauto. Qed.

Lemma winv_step sh prog done w l s w' :
  WInv prog done w -> ~ In l done -> nth_error prog l = Some s -> wire_stmt sh w l s = Ok w' ->
  WInv prog (l :: done) w'.
Proof.
  intros I Hfresh Hs Hw.
  pose proof (wire_stmt_le _ _ _ _ _ Hw (winv_fresh _ _ _ _ I Hfresh)) as Hle.
  destruct (stmt_node_dec s) as [(d & ins & ->)|Hn].
  - destruct (wire_node_ok _ _ _ _ _ _ Hw) as (rins & i & R & Ee & Ep & Eb & _ & Hcase).
    apply (winv_extend prog done w w' l _ I Hs Hle); rewrite ?Ee; [ | | | unfold binds_ext; rewrite Eb; repeat split; auto; discriminate].
    + (* the port handed out: configured as the statement asks *)
      intros l0 i0. rewrite alookup_cons. destruct (Nat.eqb_spec l l0) as [<-|_]; [|auto].
      intros [= <-]. right. split; [reflexivity|].
      assert (R' : resolve_inputs (w_env w') (w_phs w') ins = Some rins).
      { eapply resolve_inputs_mono; [apply Hle | apply Hle | exact R]. }
      destruct Hcase as [(Hint & T & Ei & _)|(_ & -> & Ei & _)].
      * destruct (wi_tab _ _ _ I _ _ (tab_find_some _ _ _ T)) as (it & Hit & Hkey & Hiint).
        apply make_key_inj in Hkey. destruct Hkey as (K1 & K2 & K3 & K4).
        exists d, ins, rins, it. rewrite Ei. repeat split; auto; congruence.
      * eexists d, ins, rins, _. rewrite Ei, nth_error_app_len. repeat split; auto.
    + intros _ _ _. rewrite alookup_cons, Nat.eqb_refl. discriminate.
    + intros k j. destruct Hcase as [(_ & _ & _ & ->)|(_ & -> & -> & ->)]; [auto|].
      destruct (interns d) eqn:Eint; [|auto]. intros [[= <- <-]|Hin]; [right | auto].
      eexists. rewrite nth_error_app_len. auto.
  - destruct (wire_other _ _ _ _ _ Hw Hn) as (Ei & Et & Ee & _ & Hb & _).
    apply (winv_extend prog done w w' l s I Hs Hle); rewrite ?Et, ?Ee; auto.
    intros d ins ->. destruct (Hn _ _ eq_refl).
Qed.

(* [done]: latest first *)
Lemma wire_prog_ind sh prog (P : list nat -> wst -> Prop) :
  P [] w0 ->
  (forall done w l s w', P done w -> nth_error prog l = Some s -> wire_stmt sh w l s = Ok w' -> P (l :: done) w') ->
  forall order w, wire_prog sh prog order = Ok w -> P (rev order) w.
Proof.
  intros H0 Hstep order w. unfold wire_prog. rewrite <- (app_nil_r (rev order)).
  revert H0. generalize (@nil nat) as done, w0 as w1.
  induction order as [|l r IH]; intros done w1 HP Hw; simpl in *.
  - injection Hw as <-. exact HP.
  - destruct (nth_error prog l) as [s|] eqn:Es; [|discriminate].
    destruct (wire_stmt sh w1 l s) as [w2|c] eqn:Ew; [|discriminate].
    rewrite <- app_assoc. apply (IH (l :: done) w2); eauto.
Qed.

Lemma wire_prog_inv sh prog order w :
  NoDup order -> wire_prog sh prog order = Ok w -> WInv prog (rev order) w.
Proof.
  intros Hnd Hw.
  refine (wire_prog_ind sh prog (fun done w => NoDup done -> WInv prog done w) _ _ order w Hw (NoDup_rev Hnd)).
  - intros _. apply winv_init.
  - intros done w1 l s w2 IH Hs Hw1 Hd. apply NoDup_cons_iff in Hd. destruct Hd. eapply winv_step; eauto.
Qed.

Definition single_bind (prog : list stmt) : Prop :=
  forall h l p l' p', In (StBind h l p) prog -> In (StBind h l' p') prog -> l = l' /\ p = p'.

Lemma bind_of_in prog h l p : bind_of prog h = Some (l, p) -> In (StBind h l p) prog.
Proof.
  induction prog as [|s r IH]; simpl; [discriminate|]. destruct s as [| |h' l' p'| | |]; auto.
  destruct (Nat.eqb_spec h' h) as [->|_]; [intros [= -> ->]|]; auto.
Qed.

Lemma bind_of_none prog h : bind_of prog h = None -> forall l p, ~ In (StBind h l p) prog.
Proof.
  induction prog as [|s r IH]; simpl; intros H l p; [tauto|].
  destruct s as [| |h' l' p'| | |]; try (intros [X|X]; [discriminate | apply (IH H l p X)]).
  destruct (Nat.eqb_spec h' h) as [->|Hne]; [discriminate|].
  intros [[= -> _ _]|X]; [destruct Hne; reflexivity | apply (IH H l p X)].
Qed.

Lemma bind_of_single prog h l p : single_bind prog -> In (StBind h l p) prog -> bind_of prog h = Some (l, p).
Proof.
  intros Hs Hin. destruct (bind_of prog h) as [[l' p']|] eqn:E.
  - apply bind_of_in in E. destruct (Hs h l p l' p' Hin E) as [-> ->]. reflexivity.
  - destruct (bind_of_none prog h E l p Hin).
Qed.

(* resolved inputs unfold in the graph to what the unresolved ones unfold to in the program, when the two
   sides agree on what each port and each placeholder stands for *)
Section unfold_resolved.
  Variables (G P : nat -> tree) (gb pb : nat -> option (nat * list nat)) (e : list (nat * nat)) (p : list nat).
  Hypothesis Hn : forall l i, alookup l e = Some i -> G i = P l.
  Hypothesis Hb : forall h, match gb h with
                            | Some (i, q) => exists l, pb h = Some (l, q) /\ alookup l e = Some i
                            | None => pb h = None
                            end.

  Lemma unf_src_resolve s : forall r, resolve e p s = Some r -> unf_src G gb r = unf_src P pb s.
  Proof.
    induction s as [n q k|h q| |cs IH] using src_ind'; intros r H.
    - simpl in H. destruct (alookup n e) as [i|] eqn:E; [|discriminate]. injection H as <-. simpl.
      rewrite (Hn n i E). reflexivity.
    - simpl in H. destruct (memb h p); [|discriminate]. injection H as <-. simpl.
      pose proof (Hb h) as Hh. destruct (gb h) as [[i q0]|].
      + destruct Hh as (l & Hpb & Hl). rewrite Hpb, (Hn l i Hl). reflexivity.
      + rewrite Hh. reflexivity.
    - injection H as <-. reflexivity.
    - rewrite resolve_struct in H. destruct (mapM (resolve e p) cs) as [cs'|] eqn:E; [|discriminate].
      injection H as <-. simpl. f_equal.
      revert cs' E. induction IH as [|x r Hx Hr IHr]; simpl; intros cs' E.
      + injection E as <-. reflexivity.
      + destruct (resolve e p x) as [a|] eqn:Ea; [|discriminate].
        destruct (mapM (resolve e p) r) as [b|] eqn:Eb; [|discriminate].
        injection E as <-. simpl. rewrite (Hx a eq_refl), (IHr b eq_refl). reflexivity.
  Qed.

  Lemma unf_inputs_resolve ins rins : resolve_inputs e p ins = Some rins -> unf_inputs G gb rins = unf_inputs P pb ins.
  Proof.
    unfold unf_inputs, norm_inputs. intros H. generalize 0 as k. apply resolve_inputs_spec in H.
    induction H as [|i ? r r' (s & Hs & ->) _ IH]; intros k; simpl; [reflexivity|].
    rewrite (unf_src_resolve _ _ Hs), IH. reflexivity.
  Qed.
End unfold_resolved.

Lemma resolve_inputs_eff e p d ins rins :
  resolve_inputs e p ins = Some rins -> resolve_inputs e p (eff_inputs d ins) = Some (eff_inputs d rins).
Proof.
  unfold eff_inputs. destruct (nd_uniq d); auto.
  intros H. apply resolve_inputs_spec in H. induction H as [|i ? r r' (s & Hs & ->) _ IH]; simpl; auto.
  rewrite Hs, IH. reflexivity.
Qed.

Definition binds_done (prog : list stmt) (done : list nat) : Prop :=
  forall lb h l q, nth_error prog lb = Some (StBind h l q) -> In lb done.

Lemma graph_unfolds_to_program prog done w :
  WInv prog done w -> single_bind prog -> binds_done prog done ->
  forall fuel l i, alookup l (w_env w) = Some i -> gunf w fuel i = punf prog fuel l.
Proof.
  intros I Hsb Hbd.
  assert (Hb : forall h, match alookup h (w_binds w) with
                         | Some (i, q) => exists l, bind_of prog h = Some (l, q) /\ alookup l (w_env w) = Some i
                         | None => bind_of prog h = None
                         end).
  { intros h. destruct (alookup h (w_binds w)) as [[i q]|] eqn:E.
    - destruct (wi_binds _ _ _ I h i q E) as (lb & l & _ & Hn & Hl). exists l. split; auto.
      apply bind_of_single; auto. eapply nth_error_In; eauto.
    - destruct (bind_of prog h) as [[l q]|] eqn:Eb; auto. exfalso.
      apply bind_of_in in Eb. apply In_nth_error in Eb. destruct Eb as (lb & Hlb).
      apply (wi_bind_done _ _ _ I lb h l q (Hbd lb h l q Hlb) Hlb). exact E. }
  induction fuel as [|f IH]; intros l i Hl; [reflexivity|].
  destruct (wi_env _ _ _ I l i Hl) as (d & ins & rins & it & A & B & C & D1 & D2 & D3 & D4 & N & L).
  cbn [gunf punf]. rewrite A, B. unfold site_of. rewrite D1, D2, D3, D4.
  f_equal.
  - destruct (interns d) eqn:X; auto.
  - transitivity (unf_inputs (gunf w f) (fun h => alookup h (w_binds w)) (eff_inputs d rins)).
    + unfold unf_inputs. unfold key_inputs in N. rewrite N. reflexivity.
    + apply unf_inputs_resolve with (e := w_env w) (p := w_phs w); auto using resolve_inputs_eff.
Qed.

Definition complete_order (prog : list stmt) (order : list nat) : Prop :=
  NoDup order /\ forall l, l < length prog -> In l order.

Lemma run_unfolds sh prog order w :
  complete_order prog order -> single_bind prog -> wire_prog sh prog order = Ok w ->
  forall l d ins, nth_error prog l = Some (StNode d ins) ->
  exists i, alookup l (w_env w) = Some i /\ forall fuel, gunf w fuel i = punf prog fuel l.
Proof.
  intros [Hnd Hall] Hsb Hw l d ins Hn.
  pose proof (wire_prog_inv sh prog order w Hnd Hw) as I.
  assert (Hin : forall l0 s, nth_error prog l0 = Some s -> In l0 (rev order)).
  { intros l0 s H. apply in_rev. rewrite rev_involutive. apply Hall. apply nth_error_Some. congruence. }
  destruct (wi_node_done _ _ _ I l d ins (Hin _ _ Hn) Hn) as (i & Hi).
  exists i. split; auto. intros fuel.
  apply (graph_unfolds_to_program prog (rev order) w I Hsb); auto.
  intros lb h l0 q H. eapply Hin; eauto.
Qed.

Lemma runs_agree sh1 sh2 prog o1 o2 w1 w2 :
  complete_order prog o1 -> complete_order prog o2 -> single_bind prog ->
  wire_prog sh1 prog o1 = Ok w1 -> wire_prog sh2 prog o2 = Ok w2 ->
  forall l d ins, nth_error prog l = Some (StNode d ins) ->
  exists i1 i2, alookup l (w_env w1) = Some i1 /\ alookup l (w_env w2) = Some i2 /\
                forall fuel, gunf w1 fuel i1 = gunf w2 fuel i2.
Proof.
  intros Hc1 Hc2 Hsb H1 H2 l d ins Hn.
  destruct (run_unfolds sh1 prog o1 w1 Hc1 Hsb H1 l d ins Hn) as (i1 & A1 & B1).
  destruct (run_unfolds sh2 prog o2 w2 Hc2 Hsb H2 l d ins Hn) as (i2 & A2 & B2).
  exists i1, i2. repeat split; auto. intros fuel. rewrite B1, B2. reflexivity.
Qed.

Lemma intern_preserves_dataflow prog order w1 w0' :
  complete_order prog order -> single_bind prog ->
  wire_prog true prog order = Ok w1 -> wire_prog false prog order = Ok w0' ->
  forall l d ins, nth_error prog l = Some (StNode d ins) ->
  exists i1 i0, alookup l (w_env w1) = Some i1 /\ alookup l (w_env w0') = Some i0 /\
                forall fuel, gunf w1 fuel i1 = gunf w0' fuel i0.
Proof. intros Hc. exact (runs_agree true false prog order order w1 w0' Hc Hc). Qed.

(* the witness of the two refutations below: x = src, y = src, sum(passive(x), y), sum(x, y).  Under
   [wire_prog_old] (the key without the passive markers) the two sums share a node. *)
Definition w_src (s : Z) : ndef := {| nd_def := 0; nd_sch := [1%Z]; nd_scal := Some [s]; nd_uniq := false; nd_push := false |}.
Definition w_add : ndef := {| nd_def := 3; nd_sch := [1%Z]; nd_scal := None; nd_uniq := false; nd_push := false |}.
Definition w_in (l : nat) (pa : bool) : input := {| in_src := SPeer l [] 0; in_tpath := []; in_rank := true; in_passive := pa |}.
Definition w_prog : list stmt :=
  [StNode (w_src 7) []; StNode (w_src 8) []; StNode w_add [w_in 0 true; w_in 1 false]; StNode w_add [w_in 0 false; w_in 1 false]].

Lemma passive_marker_distinct_old_rule_refuted :
  exists prog order w l1 l2 i d1 ins1 d2 ins2,
    NoDup order /\ wire_prog_old true prog order = Ok w /\ l1 <> l2 /\
    alookup l1 (w_env w) = Some i /\ alookup l2 (w_env w) = Some i /\
    nth_error prog l1 = Some (StNode d1 ins1) /\ nth_error prog l2 = Some (StNode d2 ins2) /\
    map in_passive ins1 <> map in_passive ins2.
Proof.
  destruct (wire_prog_old true w_prog [0; 1; 2; 3]) as [w|c] eqn:E; [|vm_compute in E; discriminate].
  exists w_prog, [0; 1; 2; 3], w, 2, 3, 2, w_add, [w_in 0 true; w_in 1 false], w_add, [w_in 0 false; w_in 1 false].
  vm_compute in E. injection E as <-.
  split; [apply nodupb_NoDup; reflexivity|].
  repeat split; try reflexivity; try discriminate.
Qed.

Lemma order_independent_old_rule_refuted :
  exists prog o1 o2 w1 w2 l i1 i2 fuel,
    complete_order prog o1 /\ complete_order prog o2 /\ single_bind prog /\
    wire_prog_old true prog o1 = Ok w1 /\ wire_prog_old true prog o2 = Ok w2 /\
    alookup l (w_env w1) = Some i1 /\ alookup l (w_env w2) = Some i2 /\
    gunf w1 fuel i1 <> gunf w2 fuel i2.
Proof.
  destruct (wire_prog_old true w_prog [0; 1; 2; 3]) as [w1|c] eqn:E1; [|vm_compute in E1; discriminate].
  destruct (wire_prog_old true w_prog [0; 1; 3; 2]) as [w2|c] eqn:E2; [|vm_compute in E2; discriminate].
  exists w_prog, [0; 1; 2; 3], [0; 1; 3; 2], w1, w2, 2, 2, 2, 1.
  vm_compute in E1. injection E1 as <-. vm_compute in E2. injection E2 as <-.
  assert (Hc : forall o, nodupb o = true -> forallb (fun l => memb l o) (seq 0 (length w_prog)) = true -> complete_order w_prog o).
  { intros o H1 H2. split; [apply nodupb_NoDup; exact H1|]. intros l Hl.
    rewrite forallb_forall in H2. apply memb_In. apply H2. apply in_seq. lia. }
  split; [apply Hc; reflexivity|]. split; [apply Hc; reflexivity|].
  split; [intros h l p l' p' H; simpl in H; intuition discriminate|].
  repeat split; try reflexivity. vm_compute. discriminate.
Qed.

(* ... whereas under the repaired rule the same two statements get two nodes *)
Lemma passive_pair_distinct_now :
  match wire_prog true w_prog [0; 1; 2; 3] with
  | Ok w => (alookup 2 (w_env w), alookup 3 (w_env w))
  | Err _ => (None, None)
  end = (Some 2, Some 3).
Proof. vm_compute. reflexivity. Qed.
