(* NestedFacts.v — lemmas about the tree engine of Nested.v:
     what every primitive leaves alone ([step], proved once by a walk through the primitives);
     the control structure of the recursive engine as invariant rules;
     a schedule request does not fail unless it is in the graph's past, and is recorded in the node's own slot, clamped
     (what push and pull rest on);
     clocks: a child is evaluated at its parent's time and never moves back ([clocks_ok]); the root's cached next time
     ([root_cache]); the two together are [run_inv], which NestedInv.run_sim_whole carries through the run;
     captured errors: one tick, same cycle, the run continues; the footprint of a capture. *)
Require Import Base Sched Nested.
From Coq Require Import ZifyBool.

Lemma nth_update_rel {A} (R : A -> A -> Prop) i i' f (l : list A) d :
  (forall x, R x x) -> (i = i' -> R (nth i l d) (f (nth i l d))) -> R (nth i' l d) (nth i' (update i f l) d).
Proof.
  intros Hr Hf. rewrite nth_update. destruct (Nat.eqb_spec i' i) as [->|]; simpl; auto. destruct (_ <? _)%nat; auto.
Qed.

Lemma upd_g_log g f w : w_log (upd_g g f w) = w_log w. Proof. reflexivity. Qed.
Lemma emit_gs l w : w_gs (emit l w) = w_gs w. Proof. reflexivity. Qed.
Lemma set_err_gs e w : w_gs (set_err e w) = w_gs w. Proof. reflexivity. Qed.
Lemma gat_set_err g e w : gat g (set_err e w) = gat g w. Proof. reflexivity. Qed.

Lemma upd_g_len g f w : length (w_gs (upd_g g f w)) = length (w_gs w).
Proof. apply update_length. Qed.

Lemma upd_g_twice g f h k w : (forall s, f (h s) = k s) -> upd_g g f (upd_g g h w) = upd_g g k w.
Proof. intros H. unfold upd_g; simpl. f_equal. apply update_twice, H. Qed.

Lemma gat_upd_same g f w : (g < length (w_gs w))%nat -> gat g (upd_g g f w) = f (gat g w).
Proof. apply nth_update_same. Qed.

Lemma gat_upd_other g g' f w : g <> g' -> gat g' (upd_g g f w) = gat g' w.
Proof. apply nth_update_other. Qed.

Lemma gat_upd_rel (R : gst -> gst -> Prop) g g' f w :
  (forall s, R s s) -> (g = g' -> R (gat g w) (f (gat g w))) -> R (gat g' w) (gat g' (upd_g g f w)).
Proof. apply nth_update_rel. Qed.

Lemma gat_upd_proj {A} (pr : gst -> A) g g' f w :
  (forall s, pr (f s) = pr s) -> pr (gat g' (upd_g g f w)) = pr (gat g' w).
Proof. intros H. apply (gat_upd_rel (fun s s' => pr s' = pr s)); auto. Qed.

Lemma node_upd_rel (R : nst -> nst -> Prop) g i g' i' f w :
  (forall n, R n n) -> (g = g' -> i = i' -> R (node_at g i w) (f (node_at g i w))) ->
  R (node_at g' i' w) (node_at g' i' (upd_node g i f w)).
Proof.
  intros Hr Hf. apply (gat_upd_rel (fun s s' => R (nth i' (g_nodes s) init_n) (nth i' (g_nodes s') init_n))); auto.
  intros E. simpl. apply (nth_update_rel R); auto.
Qed.

(* what no scheduling or user-code primitive touches *)
Record keep_g (s s' : gst) : Prop := mkKeepG {
  kg_now : g_now s' = g_now s;
  kg_started : g_started s' = g_started s;
  kg_evaluating : g_evaluating s' = g_evaluating s;
  kg_failed : g_failed s' = g_failed s;
  kg_cursor : g_cursor s' = g_cursor s;
  kg_nslots : length (g_slots s') = length (g_slots s);
  kg_nnodes : length (g_nodes s') = length (g_nodes s) }.

Definition Keep (w w' : world) : Prop :=
  length (w_gs w') = length (w_gs w) /\ forall g, keep_g (gat g w) (gat g w').

Lemma keep_g_refl s : keep_g s s. Proof. constructor; reflexivity. Qed.
Lemma keep_g_trans a b c : keep_g a b -> keep_g b c -> keep_g a c.
Proof. intros [] []; constructor; congruence. Qed.

Definition errp (n : nst) : option Z * Z := (n_err n, n_elmt n).

(* the instances of [P] (which node updates) and of [F] (no graph) of [step] *)
Definition sched_only (f : nst -> nst) : Prop := False.
Definition keeps_err (f : nst -> nst) : Prop := forall n, errp (f n) = errp n.
Definition any_upd (f : nst -> nst) : Prop := True.
Definition none (g : nat) : Prop := False.

(* [step P F w0 w]: w is reached from w0 by the elementary updates the engine's primitives are made of - a
   trace line that is not a node-evaluation mark, the error flag, a node update of kind P, arming a slot,
   lowering a cache to a time not in the graph's past - while the graphs in F change freely and have nodes
   evaluated: F is [none] for the primitives, [le c] for the evaluation or start of graph c.  What a step
   preserves of a graph outside F is read off [step_graph]. *)
Inductive step (P : (nst -> nst) -> Prop) (F : nat -> Prop) (w0 : world) : world -> Prop :=
| step_refl : step P F w0 w0
| step_emit c l w : c <> 11 -> step P F w0 w -> step P F w0 (emit (c :: l) w)
| step_err e w : step P F w0 w -> step P F w0 (set_err e w)
| step_node g i f w : P f -> step P F w0 w -> step P F w0 (upd_node g i f w)
| step_arm g i t w : step P F w0 w -> step P F w0 (upd_g g (g_set_sched i t) w)
| step_lower g t w : g_now (gat g w) <= t <= g_nst (gat g w) -> step P F w0 w -> step P F w0 (upd_g g (g_set_nst t) w)
| step_free g f w : F g -> step P F w0 w -> step P F w0 (upd_g g f w)
| step_mark g i t w : F g -> step P F w0 w -> step P F w0 (emit [11; Z.of_nat g; Z.of_nat i; t] w).

Lemma step_trans P F a b c : step P F a b -> step P F b c -> step P F a c.
Proof. intros H1 H2. induction H2; eauto using step. Qed.

Lemma step_sub (P Q : (nst -> nst) -> Prop) (F G : nat -> Prop) w0 w :
  (forall f, P f -> Q f) -> (forall g, F g -> G g) -> step P F w0 w -> step Q G w0 w.
Proof. intros HP HF H. induction H; eauto using step. Qed.

Lemma step_len P F w0 w : step P F w0 w -> length (w_gs w) = length (w_gs w0).
Proof. induction 1; auto; unfold upd_node; rewrite upd_g_len; auto. Qed.

Lemma step_graph (R : gst -> gst -> Prop) (P : (nst -> nst) -> Prop) F :
  (forall s, R s s) -> (forall a b c, R a b -> R b c -> R a c) ->
  (forall i f s, P f -> R s (g_upd_node i f s)) ->
  (forall i t s, R s (g_set_sched i t s)) ->
  (forall t s, g_now s <= t <= g_nst s -> R s (g_set_nst t s)) ->
  forall w0 w g, step P F w0 w -> ~ F g -> R (gat g w0) (gat g w).
Proof.
  intros Hr Ht Hn Ha Hl w0 w g H Hg.
  induction H; try exact IHstep; auto; (eapply Ht; [exact IHstep|]); apply (gat_upd_rel R); auto.
  intros <-. contradiction.
Qed.

Lemma keep_upd_node i f s : keep_g s (g_upd_node i f s).
Proof. constructor; simpl; auto. apply update_length. Qed.
Lemma keep_set_sched i when s : keep_g s (g_set_sched i when s).
Proof. constructor; simpl; auto. apply set_nth_length. Qed.
Lemma keep_set_nst t s : keep_g s (g_set_nst t s).
Proof. constructor; reflexivity. Qed.

Lemma step_keep P F w0 w g : step P F w0 w -> ~ F g -> keep_g (gat g w0) (gat g w).
Proof.
  apply (step_graph keep_g); auto using keep_g_refl, keep_upd_node, keep_set_sched, keep_set_nst.
  apply keep_g_trans.
Qed.

Definition clamp (T : tcfg) (g : nat) (when : Z) (w : world) : Z :=
  match gc_parent (gcfg_at T g) with None => when | Some (pg, _) => Z.max (Z.max when (now_of pg w)) (now_of 0 w) end.
Definition idle (g : nat) (w : world) : bool := g_started (gat g w) && negb (g_evaluating (gat g w)).
Definition lower (g : nat) (t : Z) (w : world) : world :=
  if t <? g_nst (gat g w) then upd_g g (g_set_nst t) w else w.

Lemma sched_at_root d T g i when w :
  gc_parent (gcfg_at T g) = None -> sched_at d T g i when w = sched_local g i when w.
Proof. intros H. destruct d; simpl; rewrite H; reflexivity. Qed.

Lemma sched_at_S d T g i when w pg pn :
  gc_parent (gcfg_at T g) = Some (pg, pn) ->
  sched_at (S d) T g i when w =
    let t := clamp T g when w in
    let w1 := sched_local g i t w in
    if ok w1 && idle g w1 then sched_at d T pg pn t (lower g t w1) else w1.
Proof.
  intros H. unfold clamp, idle, lower. cbn [sched_at]. rewrite H. cbv zeta.
  destruct (ok _); simpl; auto. destruct (g_started _ && negb _); reflexivity.
Qed.

Lemma lower_proj {A} (pr : gst -> A) g g' t w :
  (forall s, pr (g_set_nst t s) = pr s) -> pr (gat g' (lower g t w)) = pr (gat g' w).
Proof. intros H. unfold lower. destruct (_ <? _); auto. apply gat_upd_proj, H. Qed.

Lemma sched_local_ok g i t w : ok (sched_local g i t w) = true -> g_now (gat g (sched_local g i t w)) <= t.
Proof.
  unfold sched_local; cbv zeta. destruct (t <? g_now (gat g w)) eqn:E; [discriminate|intros _].
  destruct (_ || _); [rewrite (gat_upd_proj g_now); auto|]; lia.
Qed.

(* graph.cpp propagate_nested_parent_schedule, the tail of a completed cycle *)
Definition propagate (T : tcfg) (g : nat) (w : world) : world :=
  match gc_parent (gcfg_at T g) with
  | None => w
  | Some (pg, pn) => let nx := g_nst (gat g w) in if nx <? MAX_DT then sched_at (length T) T pg pn nx w else w
  end.

#[export] Hint Constructors step : step.
#[export] Hint Extern 1 (_ <> _) => discriminate : step.
#[export] Hint Extern 1 (keeps_err _) => intro; reflexivity : step.
#[export] Hint Extern 1 (any_upd _) => exact I : step.

Section WALK.
  Variable P : (nst -> nst) -> Prop.
  Variable F : nat -> Prop.
  Variable w0 : world.

  Lemma step_sched_local g i when w : step P F w0 w -> step P F w0 (sched_local g i when w).
  Proof. intros H. unfold sched_local; cbv zeta. destruct (_ <? _); [|destruct (_ || _)]; auto with step. Qed.

  Lemma step_lowered g t w : g_now (gat g w) <= t -> step P F w0 w -> step P F w0 (lower g t w).
  Proof. intros Ht H. unfold lower. destruct (t <? _) eqn:E; auto. apply step_lower; auto. lia. Qed.

  Lemma step_sched_at d T : forall g i when w, step P F w0 w -> step P F w0 (sched_at d T g i when w).
  Proof.
    induction d as [|d IH]; intros g i when w H;
      (destruct (gc_parent (gcfg_at T g)) as [[pg pn]|] eqn:Hp; [|rewrite sched_at_root; auto using step_sched_local]).
    - simpl. rewrite Hp. auto with step.
    - rewrite (sched_at_S _ _ _ _ _ _ _ _ Hp). cbv zeta.
      destruct (ok _) eqn:E; simpl; auto using step_sched_local. destruct (idle _ _); auto using step_sched_local.
      apply IH, step_lowered; auto using step_sched_local, sched_local_ok.
  Qed.

  Lemma step_notify_graphs T sub now : forall gs g w, step P F w0 w -> step P F w0 (notify_graphs T sub now gs g w).
  Proof.
    induction gs as [|gc r IH]; intros g w H; simpl; auto. apply IH.
    generalize 0%nat. revert w H. induction (gc_nodes gc) as [|c cs IHc]; intros w H j; simpl; auto.
    apply IHc. destruct (_ && _); auto using step_sched_at.
  Qed.

  Lemma step_notify T p now w : step P F w0 w -> step P F w0 (notify T p now w).
  Proof. apply step_notify_graphs. Qed.
  Lemma step_notify_link T x now w : step P F w0 w -> step P F w0 (notify_link T x now w).
  Proof. apply step_notify_graphs. Qed.

  Lemma step_opt_schedule T g i o w : step P F w0 w -> step P F w0 (opt_schedule T g i o w).
  Proof. destruct o; simpl; auto using step_sched_at. Qed.

  Lemma step_sampled T child now : forall bs w, step P F w0 w -> step P F w0 (sampled T child now bs w).
  Proof.
    induction bs as [|b r IH]; intros w H; simpl; auto.
    apply IH. destruct (match nth_error _ _ with Some _ => _ | None => _ end); auto using step_sched_at.
  Qed.

  Lemma step_sampled_if b T child now bs w : step P F w0 w -> step P F w0 (sampled_if b T child now bs w).
  Proof. destruct b; simpl; auto using step_sampled. Qed.

  Lemma step_pull T g i child w : step P F w0 w -> step P F w0 (pull T g i child w).
  Proof. unfold pull. destruct (_ =? _); auto using step_sched_at. Qed.

  Lemma step_propagate T g w : step P F w0 w -> step P F w0 (propagate T g w).
  Proof. unfold propagate. destruct (gc_parent _) as [[pg pn]|]; [destruct (_ <? _)|]; auto using step_sched_at. Qed.

  Local Hint Resolve step_sched_at step_notify step_notify_link step_opt_schedule step_pull : step.

  (* user code and the bookkeeping around it write no error port *)
  Hypothesis HP : forall f, keeps_err f -> P f.

  Lemma step_quiet g i f w : keeps_err f -> step P F w0 w -> step P F w0 (upd_node g i f w).
  Proof. auto with step. Qed.
  Local Hint Resolve step_quiet : step.

  Lemma step_snapshot g i now k s x w : step P F w0 w -> step P F w0 (emit (snapshot g i now k s x) w).
  Proof. apply (step_emit P F w0 13). discriminate. Qed.
  Local Hint Resolve step_snapshot : step.

  Lemma step_do_op T g i st opi o w : step P F w0 w -> step P F w0 (do_op T g i st opi o w).
  Proof.
    intros H. unfold do_op. destruct (negb (ok w)); auto.
    destruct o; try destruct (c_sched _); try destruct (_ && _); auto 6 with step.
    - destruct (schedule _ _ _ _ _) as [s' push]. destruct (ok _); auto 6 with step.
    - destruct (pop_tag _ _ _). auto with step.
  Qed.

  Lemma step_do_ops T g i st : forall os opi w, step P F w0 w -> step P F w0 (do_ops T g i st opi os w).
  Proof. induction os as [|o r IH]; intros opi w H; simpl; auto using step_do_op. Qed.

  Lemma step_run_user T beh g i w : step P F w0 w -> step P F w0 (run_user T beh g i w).
  Proof. intros H. apply step_do_ops. simpl. auto with step. Qed.

  Lemma step_rearm T g i sn now w : step P F w0 w -> step P F w0 (rearm T g i sn now w).
  Proof.
    intros H. unfold rearm. destruct (c_sched _); auto.
    destruct sn; [destruct (advance _ _)|destruct (is_scheduled _)]; auto with step.
  Qed.

  Lemma step_start_plain T beh g i w : step P F w0 w -> step P F w0 (start_plain T beh g i w).
  Proof.
    intros H. unfold start_plain. destruct (negb (ok _)); [|destruct (c_sos _)]; auto using step_do_ops with step.
  Qed.

  Lemma step_eval_pauser T beh g i w : step P F w0 w -> step P F w0 (eval_pauser T beh g i w).
  Proof.
    intros H. unfold eval_pauser. destruct (negb (n_started _)); auto.
    destruct (_ <? _); auto using step_run_user with step.
  Qed.

  Lemma step_relink T g i w : step P F w0 w -> step P F w0 (relink T g i w).
  Proof. intros H. unfold relink. destruct (_ && _); auto with step. Qed.

  (* of an evaluation, only the capture may write the error port *)
  Lemma step_eval_plain_if T beh g i w :
    step P F w0 w -> step P F w0 (capture T g i (now_of g w) (run_user T beh g i w)) ->
    step P F w0 (eval_plain T beh g i w).
  Proof.
    intros H Hc. unfold eval_plain. destruct (negb (n_started _)); auto.
    destruct (match c_ins _ with [] => true | _ => _ end); destruct (negb (ok _)); auto using step_rearm.
  Qed.

  (* ... an error tick does *)
  Hypothesis HE : forall c t, P (set_errv c t).

  Lemma step_write_err T g i code now w : step P F w0 w -> step P F w0 (write_err T g i code now w).
  Proof. unfold write_err. auto with step. Qed.

  Lemma step_capture T g i now w : step P F w0 w -> step P F w0 (capture T g i now w).
  Proof. intros H. unfold capture. destruct (_ && _); auto using step_write_err with step. Qed.

  Lemma step_catch T g i now w : step P F w0 w -> step P F w0 (catch T g i now w).
  Proof.
    intros H. unfold catch, caught. apply step_pull. destruct (negb (ok w)); auto using step_write_err with step.
  Qed.

  Lemma step_eval_plain T beh g i w : step P F w0 w -> step P F w0 (eval_plain T beh g i w).
  Proof. intros H. apply step_eval_plain_if; auto using step_capture, step_run_user. Qed.
End WALK.

#[export] Hint Resolve step_sched_local step_sched_at step_notify step_notify_link step_opt_schedule step_sampled step_sampled_if
  step_pull step_propagate step_quiet step_do_ops step_run_user step_rearm step_start_plain step_eval_pauser step_relink
  step_write_err step_capture step_catch step_eval_plain : step.

Lemma step_nodes F w0 w g : step sched_only F w0 w -> ~ F g -> g_nodes (gat g w) = g_nodes (gat g w0).
Proof.
  apply (step_graph (fun s s' => g_nodes s' = g_nodes s)); auto; [congruence|contradiction].
Qed.

Definition ErrEq (w w' : world) : Prop := forall g i, errp (node_at g i w') = errp (node_at g i w).

Lemma ErrEq_step w w' : step keeps_err none w w' -> ErrEq w w'.
Proof.
  intros H g i. revert i.
  apply (step_graph (fun s s' => forall i, errp (nth i (g_nodes s') init_n) = errp (nth i (g_nodes s) init_n)) keeps_err none) with (w0 := w);
    auto.
  - intros a b c H1 H2 j. rewrite H2. apply H1.
  - intros j f s Hf j'. apply (nth_update_rel (fun n n' => errp n' = errp n)); auto.
Qed.

Lemma Keep_step w w' : step any_upd none w w' -> Keep w w'.
Proof. intros H. split; [apply (step_len _ _ _ _ H)|]. intros g. apply (step_keep _ _ _ _ g H). intros []. Qed.

Lemma Keep_now w w' g : Keep w w' -> now_of g w' = now_of g w.
Proof. intros [_ H]. apply (kg_now _ _ (H g)). Qed.

Lemma clamp_Keep T g t w w' : Keep w w' -> clamp T g t w' = clamp T g t w.
Proof. intros K. unfold clamp. destruct (gc_parent _) as [[]|]; auto. rewrite !(Keep_now w w'); auto. Qed.

Definition stable (I : world -> Prop) : Prop := forall w w', step any_upd none w w' -> I w -> I w'.

Lemma step_stable F w0 : stable (step any_upd F w0).
Proof. intros w w' H H0. eapply step_trans; [exact H0|]. eapply step_sub; [| |exact H]; [auto|intros ? []]. Qed.

Definition resuming (rr : bool) (s : gst) : bool :=
  (if rr then negb (g_failed s) else true) && negb (g_cursor s =? 0) && negb (g_cursor s =? -1).

Definition cycle_begin (rr : bool) (g : nat) (t : Z) (w : world) : world :=
  let w0 := upd_g g (fun s => g_set_flags (g_started s) true false (g_set_now t s)) w in
  if resuming rr (gat g w) then w0 else emit [10; Z.of_nat g; t] (upd_g g (fun s => g_set_cursor 0 (g_set_nst MAX_DT s)) w0).

Definition cycle_end (T : tcfg) (g : nat) (w2 : world) : world :=
  if negb (ok w2) then upd_g g (fun s => g_set_flags (g_started s) false (negb (w_err w2 =? PAUSED)) s) w2
  else upd_g g (fun s => g_set_flags (g_started s) false (g_failed s) s) (propagate T g (upd_g g (g_set_cursor 0) w2)).

Lemma eval_graph_S f T beh rr g t w :
  eval_graph (S f) T beh rr g t w =
    let w1 := cycle_begin rr g t w in
    let st := Z.to_nat (g_cursor (gat g w1)) in
    cycle_end T g (scan T beh (eval_graph f T beh rr) g st (length (gc_nodes (gcfg_at T g)) - st) w1).
Proof. reflexivity. Qed.

Lemma cycle_begin_fresh rr g t w :
  resuming rr (gat g w) = false ->
  cycle_begin rr g t w =
    emit [10; Z.of_nat g; t]
         (upd_g g (fun s => g_set_cursor 0 (g_set_nst MAX_DT (g_set_flags (g_started s) true false (g_set_now t s)))) w).
Proof. intros H. unfold cycle_begin. rewrite H. f_equal. apply upd_g_twice. reflexivity. Qed.

Lemma cycle_end_ok T g w : ok (cycle_end T g w) = true -> ok w = true.
Proof. unfold cycle_end. destruct (ok w) eqn:E; auto. intros H. exact (eq_trans (eq_sym E) H). Qed.

Section RULES.
  Variable T : tcfg.
  Variable beh : behaviour.

  Lemma reenter_inv (I : world -> Prop) ev c now :
    stable I -> (forall w, I w -> I (ev c now w)) -> forall n w, I w -> I (reenter ev n c now w).
  Proof.
    intros HI Hev. induction n as [|n IH]; intros w H; simpl; auto.
    destruct (_ =? _); auto. apply IH, Hev, (HI w); auto with step.
  Qed.

  Lemma eval_node_inv (I : world -> Prop) ev g i w :
    stable I ->
    (is_nested (ncfg_at T g i) = true -> forall w', I w' -> I (ev (c_child (ncfg_at T g i)) (now_of g w) w')) ->
    I w -> I (eval_node T beh ev g i w).
  Proof.
    intros HI Hev H. unfold eval_node. destruct (is_nested _).
    - unfold eval_nested. destruct (negb (n_started _)); auto.
      assert (H1 : I (ev (c_child (ncfg_at T g i)) (now_of g w) (relink T g i w))) by (apply Hev, (HI w); auto with step).
      destruct (_ =? 1); auto. destruct (_ =? 4); [apply reenter_inv; auto|].
      destruct (_ =? PAUSED); auto. eapply HI; [|exact H1]. auto with step.
    - destruct (_ =? 5); apply (HI w); auto with step.
  Qed.

  (* what the scan does at index i, the cursor already there *)
  Definition visit (ev : nat -> Z -> world -> world) (g i : nat) (w0 : world) : world :=
    let s := gat g w0 in
    let sc := slot_at i s in
    if sc =? g_now s then eval_node T beh ev g i (emit [11; Z.of_nat g; Z.of_nat i; g_now s] w0)
    else if g_now s <? sc then (if sc <? g_nst s then upd_g g (g_set_nst sc) w0 else w0)
    else w0.

  Lemma scan_S ev g i k w :
    scan T beh ev g i (S k) w =
      if negb (ok w) then w else
      let w' := visit ev g i (upd_g g (g_set_cursor (Z.of_nat i)) w) in
      if negb (ok w') then w' else scan T beh ev g (S i) k w'.
  Proof. reflexivity. Qed.

  Lemma visit_inv (I : world -> Prop) ev g i w :
    stable I -> (I w -> I (eval_node T beh ev g i (emit [11; Z.of_nat g; Z.of_nat i; g_now (gat g w)] w))) ->
    I w -> I (visit ev g i w).
  Proof.
    intros HI He H. unfold visit; cbv zeta. destruct (_ =? _); auto.
    destruct (g_now _ <? _) eqn:E1; auto. destruct (_ <? g_nst _) eqn:E2; auto.
    apply (HI w); auto. apply step_lower; [lia|apply step_refl].
  Qed.

  Lemma scan_rule (I : nat -> world -> Prop) ev g :
    (forall i w, ok w = true -> I i w -> I (S i) (visit ev g i (upd_g g (g_set_cursor (Z.of_nat i)) w))) ->
    forall k i w, I i w ->
      exists m, (m <= k)%nat /\ I (i + m)%nat (scan T beh ev g i k w) /\ (ok (scan T beh ev g i k w) = true -> m = k).
  Proof.
    intros HI. induction k as [|k IH]; intros i w H.
    - exists 0%nat. rewrite Nat.add_0_r. auto.
    - rewrite scan_S. destruct (ok w) eqn:E; cbn [negb].
      + specialize (HI i w E H). cbv zeta.
        set (w' := visit ev g i (upd_g g (g_set_cursor (Z.of_nat i)) w)) in *. destruct (ok w') eqn:E'; cbn [negb].
        * destruct (IH _ _ HI) as (m & Hm & H1 & H2). exists (S m). rewrite Nat.add_succ_r. split; [lia|split; [exact H1|auto]].
        * exists 1%nat. rewrite Nat.add_1_r, E'. split; [lia|split; [exact HI|discriminate]].
      + exists 0%nat. rewrite Nat.add_0_r, E. split; [lia|split; [exact H|discriminate]].
  Qed.

  Lemma scan_inv (I : world -> Prop) ev g :
    (forall i w, I w -> I (visit ev g i (upd_g g (g_set_cursor (Z.of_nat i)) w))) ->
    forall k i w, I w -> I (scan T beh ev g i k w).
  Proof. intros HI k i w H. destruct (scan_rule (fun _ => I) ev g (fun i w _ => HI i w) k i w H) as (_ & _ & H' & _). exact H'. Qed.

  Lemma start_node_inv (I : world -> Prop) sc g i w :
    stable I -> (is_nested (ncfg_at T g i) = true -> I w -> I (sc (c_child (ncfg_at T g i)) (now_of g w) w)) ->
    I w -> I (start_node T beh sc g i w).
  Proof.
    intros HI Hsc H. unfold start_node. destruct (negb (ok w)); auto.
    destruct (is_nested _); [|apply (HI w); auto with step].
    destruct (negb (ok _)); auto.
    match goal with |- I (if negb (ok ?w3) then _ else _) => assert (H3 : I w3) by (eapply HI; [|apply Hsc; auto]; auto with step) end.
    destruct (negb (ok _)); auto. eapply HI; [|exact H3]. auto with step.
  Qed.

  Lemma start_nodes_inv (I : world -> Prop) sc g :
    (forall i w, I w -> I (start_node T beh sc g i w)) -> forall k i w, I w -> I (start_nodes T beh sc g i k w).
  Proof. intros HI. induction k as [|k IH]; intros i w H; simpl; auto. Qed.
End RULES.

Definition parents_lt (T : tcfg) : Prop :=
  forall g pg pn, gc_parent (gcfg_at T g) = Some (pg, pn) -> (pg < g)%nat.
Definition tree_ok (T : tcfg) : Prop :=
  forall g i, is_nested (ncfg_at T g i) = true ->
              gc_parent (gcfg_at T (c_child (ncfg_at T g i))) = Some (g, i).
Definition wf_tree (T : tcfg) : Prop :=
  parents_lt T /\ tree_ok T /\ gc_parent (gcfg_at T 0) = None.

Lemma has_parent_in_range T g pg pn : gc_parent (gcfg_at T g) = Some (pg, pn) -> (g < length T)%nat.
Proof.
  intros H. destruct (lt_dec g (length T)); auto.
  unfold gcfg_at in H. rewrite nth_overflow in H by lia. discriminate.
Qed.

(* the fuel [length T] carries a nested schedule from any graph up to the root *)
Lemma fuel_reaches_root T g : (g < length T)%nat \/ gc_parent (gcfg_at T g) = None.
Proof. destruct (gc_parent (gcfg_at T g)) as [[pg pn]|] eqn:Hp; auto. left. apply (has_parent_in_range T g pg pn Hp). Qed.

Lemma child_gt T g i : wf_tree T -> is_nested (ncfg_at T g i) = true -> (g < c_child (ncfg_at T g i))%nat.
Proof. intros (HP & HK & _) Hn. apply (HP _ _ _ (HK _ _ Hn)). Qed.

(* the recursive engine: evaluating or starting graph c is a step that is free in the graphs from c on *)
Definition ev_step (ev : nat -> Z -> world -> world) : Prop :=
  forall (F : nat -> Prop) c t w0 w, (forall a, (c <= a)%nat -> F a) -> step any_upd F w0 w -> step any_upd F w0 (ev c t w).

Lemma ev_step_keep ev c t w g : ev_step ev -> (g < c)%nat -> keep_g (gat g w) (gat g (ev c t w)).
Proof. intros Hev Hg. apply (step_keep any_upd (le c)); [apply Hev; auto with step|lia]. Qed.

Section STEPS.
  Variable T : tcfg.
  Variable beh : behaviour.
  Hypothesis HT : wf_tree T.
  Variable F : nat -> Prop.
  Variable w0 : world.

  Lemma step_eval_node ev g i w : ev_step ev -> (forall a, (g < a)%nat -> F a) ->
    step any_upd F w0 w -> step any_upd F w0 (eval_node T beh ev g i w).
  Proof.
    intros Hev HF. apply eval_node_inv; [apply step_stable|].
    intros Hn w'. apply Hev. intros a Ha. apply HF. pose proof (child_gt T g i HT Hn). lia.
  Qed.

  Lemma step_scan ev g : ev_step ev -> (forall a, (g <= a)%nat -> F a) ->
    forall k i w, step any_upd F w0 w -> step any_upd F w0 (scan T beh ev g i k w).
  Proof.
    intros Hev HF. apply scan_inv. intros i w H.
    apply visit_inv; [apply step_stable| |apply step_free; auto].
    intros H'. apply step_eval_node; [auto|intros a Ha; apply HF; lia|apply step_mark; auto].
  Qed.

  Lemma step_cycle_begin rr g t w : F g -> step any_upd F w0 w -> step any_upd F w0 (cycle_begin rr g t w).
  Proof. intros Hg H. unfold cycle_begin; cbv zeta. destruct (resuming _ _); auto 6 with step. Qed.

  Lemma step_cycle_end g w : F g -> step any_upd F w0 w -> step any_upd F w0 (cycle_end T g w).
  Proof.
    intros Hg H. unfold cycle_end. destruct (negb (ok w)); auto 6 with step.
  Qed.

  Lemma step_start_node sc g i w : ev_step sc -> (forall a, (g < a)%nat -> F a) ->
    step any_upd F w0 w -> step any_upd F w0 (start_node T beh sc g i w).
  Proof.
    intros Hsc HF. apply start_node_inv; [apply step_stable|].
    intros Hn. apply Hsc. intros a Ha. apply HF. pose proof (child_gt T g i HT Hn). lia.
  Qed.

  Lemma step_start_nodes sc g : ev_step sc -> (forall a, (g < a)%nat -> F a) ->
    forall k i w, step any_upd F w0 w -> step any_upd F w0 (start_nodes T beh sc g i k w).
  Proof. intros Hsc HF. apply start_nodes_inv. intros i w. apply step_start_node; auto. Qed.
End STEPS.

Lemma step_eval_graph T beh rr : wf_tree T -> forall f, ev_step (eval_graph f T beh rr).
Proof.
  intros HT. induction f as [|f IH]; intros F c t w0 w HF H; [simpl; auto with step|].
  rewrite eval_graph_S. cbv zeta. apply step_cycle_end, (step_scan T beh HT), step_cycle_begin; auto.
Qed.

Lemma step_start_graph T beh : wf_tree T -> forall f, ev_step (start_graph f T beh).
Proof.
  intros HT. induction f as [|f IH]; intros F c t w0 w HF H; simpl; [auto with step|].
  match goal with |- step _ _ _ (if negb (ok ?w1) then _ else _) => assert (H1 : step any_upd F w0 w1) end.
  { apply (step_start_nodes T beh HT); [exact IH|intros a Ha; apply HF; lia|apply step_free; auto]. }
  destruct (negb (ok _)); auto. apply step_free; auto.
Qed.

Lemma sched_local_errs g i t w :
  w_err (sched_local g i t w) = w_err w \/ (w_err (sched_local g i t w) = 3 /\ t < now_of g w).
Proof.
  unfold sched_local, now_of; cbv zeta.
  destruct (t <? g_now (gat g w)) eqn:E; [right; simpl; lia|left; destruct (_ || _); reflexivity].
Qed.

(* what can go wrong in a nested schedule request, exactly: the time lies in the graph's own past (code 3, raised at
   the first level: above it the clamp rules that out), or the fuel does not reach the root (code 9) *)
Lemma sched_at_errs T (HT : parents_lt T) :
  forall d g i when w,
    let r := sched_at d T g i when w in
    w_err r = w_err w \/ (w_err r = 3 /\ when < now_of g w)
    \/ (w_err r = 9 /\ (d <= g)%nat /\ gc_parent (gcfg_at T g) <> None).
Proof.
  induction d as [|d IH]; intros g i when w; cbv zeta;
    (destruct (gc_parent (gcfg_at T g)) as [[pg pn]|] eqn:Hp; [|rewrite sched_at_root by auto; destruct (sched_local_errs g i when w); tauto]).
  - simpl. rewrite Hp. right; right. repeat split; [lia|discriminate].
  - rewrite (sched_at_S _ _ _ _ _ _ _ _ Hp). unfold clamp. rewrite Hp. cbv zeta.
    set (t := Z.max (Z.max when (now_of pg w)) (now_of 0 w)). set (w1 := sched_local g i t w).
    assert (E1 : w_err w1 = w_err w \/ w_err w1 = 3 /\ when < now_of g w)
      by (destruct (sched_local_errs g i t w) as [|[? ?]]; [tauto|right; split; [assumption|unfold t in *; lia]]).
    destruct (ok w1 && idle g w1); [|tauto].
    (* the push: one level up the request is not in the past, and fuel that does not reach from g's parent does not reach from g *)
    destruct (IH pg pn t (lower g t w1)) as [E|[[_ E]|(E & Hd & _)]].
    + rewrite E. replace (w_err (lower g t w1)) with (w_err w1) by (unfold lower; destruct (_ <? _); reflexivity). tauto.
    + exfalso. unfold now_of in E. rewrite (lower_proj g_now) in E by reflexivity. fold (now_of pg w1) in E.
      rewrite (Keep_now w w1) in E by apply Keep_step, step_sched_local, step_refl. lia.
    + right; right. specialize (HT _ _ _ Hp). repeat split; [exact E|lia|discriminate].
Qed.

Lemma sched_at_top_err T (HT : parents_lt T) g i when w :
  now_of g w <= when -> w_err (sched_at (length T) T g i when w) = w_err w.
Proof.
  intros H. destruct (sched_at_errs T HT (length T) g i when w) as [E|[[_ E]|(_ & E & E')]]; [exact E|lia|].
  destruct (fuel_reaches_root T g); [lia|contradiction].
Qed.

Lemma cycle_end_err T (HT : parents_lt T) g w : ok w = true ->
  w_err (cycle_end T g w) = 0 \/ w_err (cycle_end T g w) = 3 \/ w_err (cycle_end T g w) = 9.
Proof.
  intros Hok. unfold cycle_end, propagate. rewrite Hok. cbv zeta. cbn [negb]. unfold ok in Hok.
  destruct (gc_parent _) as [[pg pn]|]; [destruct (_ <? _)|]; try (left; simpl; lia).
  match goal with |- context [sched_at ?d T pg pn ?t ?w3] => destruct (sched_at_errs T HT d pg pn t w3) as [H|[[H _]|[H _]]] end;
    simpl in *; rewrite H; auto. left. lia.
Qed.

Lemma notify_graphs_err T (HT : parents_lt T) sub now : forall gs g w, w_err (notify_graphs T sub now gs g w) = w_err w.
Proof.
  induction gs as [|gc r IH]; intros g w; simpl; auto. rewrite IH.
  generalize 0%nat. revert w. induction (gc_nodes gc) as [|c cs IHc]; intros w j; simpl; auto.
  rewrite IHc. destruct (_ && _); auto. apply sched_at_top_err; auto. lia.
Qed.

Lemma notify_err T (HT : parents_lt T) p now w : w_err (notify T p now w) = w_err w.
Proof. apply notify_graphs_err; auto. Qed.
Lemma notify_link_err T (HT : parents_lt T) x now w : w_err (notify_link T x now w) = w_err w.
Proof. apply notify_graphs_err; auto. Qed.

Lemma write_err_err T (HT : parents_lt T) g i code now w : w_err (write_err T g i code now w) = w_err w.
Proof. unfold write_err. rewrite notify_err; auto. Qed.

Lemma slot_set_sched i when s j :
  slot_at j (g_set_sched i when s) = if (j =? i)%nat && (i <? length (g_slots s))%nat then when else slot_at j s.
Proof.
  unfold slot_at, g_set_sched, set_nth; simpl. apply nth_update.
Qed.

Lemma gat_sched_local_rel (R : gst -> gst -> Prop) g g' i t w :
  (forall s, R s s) -> (g = g' -> R (gat g w) (g_set_sched i t (gat g w))) ->
  R (gat g' w) (gat g' (sched_local g i t w)).
Proof. intros Hr Hs. unfold sched_local; cbv zeta. destruct (_ <? _); auto. destruct (_ || _); auto. apply gat_upd_rel; auto. Qed.

Lemma sched_local_slot_le g i when w :
  (g < length (w_gs w))%nat -> (i < length (g_slots (gat g w)))%nat -> g_now (gat g w) <= when ->
  slot_at i (gat g (sched_local g i when w)) <= when.
Proof.
  intros Lg Li Hn. unfold sched_local; cbv zeta.
  destruct (when <? g_now (gat g w)) eqn:E0; [lia|].
  destruct (_ || _) eqn:E; [|lia].
  rewrite gat_upd_same, slot_set_sched, Nat.eqb_refl by auto. replace (i <? _)%nat with true by lia. simpl. lia.
Qed.

Lemma sched_local_slot_cases g i when w :
  slot_at i (gat g (sched_local g i when w)) = when \/ slot_at i (gat g (sched_local g i when w)) = slot_at i (gat g w).
Proof.
  apply (gat_sched_local_rel (fun s s' => slot_at i s' = when \/ slot_at i s' = slot_at i s)); auto.
  intros _. rewrite slot_set_sched. destruct (_ && _); auto.
Qed.

Lemma sched_at_above T (HT : parents_lt T) d : forall g i when w g', (g < g')%nat ->
  gat g' (sched_at d T g i when w) = gat g' w.
Proof.
  assert (SL : forall g i when w g', (g < g')%nat -> gat g' (sched_local g i when w) = gat g' w)
    by (intros; symmetry; apply (gat_sched_local_rel eq); auto; lia).
  induction d as [|d IH]; intros g i when w g' Hg;
    (destruct (gc_parent (gcfg_at T g)) as [[pg pn]|] eqn:Hp; [|rewrite sched_at_root; auto]).
  - simpl. rewrite Hp. reflexivity.
  - rewrite (sched_at_S _ _ _ _ _ _ _ _ Hp). cbv zeta. destruct (_ && _); auto.
    rewrite IH by (specialize (HT _ _ _ Hp); lia). unfold lower. destruct (_ <? _); auto.
    rewrite gat_upd_other by lia. auto.
Qed.

Lemma sched_at_own_slots T (HT : parents_lt T) d g i when w :
  g_slots (gat g (sched_at (S d) T g i when w)) = g_slots (gat g (sched_local g i (clamp T g when w) w)).
Proof.
  destruct (gc_parent (gcfg_at T g)) as [[pg pn]|] eqn:Hp.
  - rewrite (sched_at_S _ _ _ _ _ _ _ _ Hp). cbv zeta. destruct (_ && _); auto.
    rewrite sched_at_above by auto using (HT _ _ _ Hp). apply (lower_proj g_slots). reflexivity.
  - unfold clamp. rewrite sched_at_root, Hp; auto.
Qed.

(* clamped: the request raised to the clocks of the graph's parent and of the root *)
Lemma sched_at_own_slot T (HT : parents_lt T) d g i when w :
  (g < d)%nat \/ gc_parent (gcfg_at T g) = None ->
  (g < length (w_gs w))%nat -> (i < length (g_slots (gat g w)))%nat -> now_of g w <= when ->
  slot_at i (gat g (sched_at d T g i when w)) <= clamp T g when w.
Proof.
  intros Hd Lg Li Hn.
  assert (Hc : g_now (gat g w) <= clamp T g when w) by (unfold clamp, now_of in *; destruct (gc_parent _) as [[]|]; lia).
  destruct d as [|d]; [|unfold slot_at; rewrite sched_at_own_slots by auto; apply sched_local_slot_le; auto].
  destruct Hd as [|Hp]; [lia|]. unfold clamp in *. rewrite sched_at_root, Hp in *; auto using sched_local_slot_le.
Qed.

Definition clocks_ok (T : tcfg) (w : world) : Prop :=
  forall c pg pn, gc_parent (gcfg_at T c) = Some (pg, pn) -> now_of c w <= now_of pg w.
(* the root never has to go back in time *)
Definition root_cache (w : world) : Prop := g_now (gat 0 w) <= g_nst (gat 0 w).

Definition NowEq (w w' : world) : Prop := forall g, now_of g w' = now_of g w.

Lemma NowEq_trans a b c : NowEq a b -> NowEq b c -> NowEq a c.
Proof. intros H1 H2 g. rewrite H2, H1; auto. Qed.
Lemma NowEq_upd_g g f w : (forall s, g_now (f s) = g_now s) -> NowEq w (upd_g g f w).
Proof. intros H g'. unfold now_of. apply (gat_upd_proj g_now); auto. Qed.
Lemma clocks_NowEq T w w' : NowEq w w' -> clocks_ok T w -> clocks_ok T w'.
Proof. intros K H c pg pn Hp. rewrite !K. eauto. Qed.

Lemma clocks_stable T : stable (clocks_ok T).
Proof. intros w w' H. apply clocks_NowEq. intros g. apply Keep_now, Keep_step, H. Qed.

Lemma clocks_upd_now T (HT : parents_lt T) g f t w :
  (forall s, g_now (f s) = t) -> clocks_ok T w -> now_of g w <= t ->
  (forall pg pn, gc_parent (gcfg_at T g) = Some (pg, pn) -> t <= now_of pg w) ->
  clocks_ok T (upd_g g f w).
Proof.
  intros Hf H Hn Hp c pg pn Hc. specialize (H _ _ _ Hc). unfold now_of in *.
  destruct (Nat.eq_dec c g) as [->|Hcg].
  - rewrite (gat_upd_other g pg) by (specialize (HT _ _ _ Hc); lia). revert H.
    apply (gat_upd_rel (fun s s' => g_now s <= g_now (gat pg w) -> g_now s' <= g_now (gat pg w))); auto.
    intros _ _. rewrite Hf. eauto.
  - rewrite (gat_upd_other g c) by auto. etransitivity; [exact H|].
    apply (gat_upd_rel (fun s s' => g_now s <= g_now s')); [intros; lia|intros <-; rewrite Hf; exact Hn].
Qed.

Lemma NowEq_cycle_end T g w : NowEq w (cycle_end T g w).
Proof.
  intros g'. unfold cycle_end, now_of; cbv zeta.
  destruct (negb (ok w)); rewrite (gat_upd_proj g_now) by reflexivity; auto.
  rewrite <- (gat_upd_proj g_now g g' (g_set_cursor 0) w) by reflexivity.
  apply Keep_now, Keep_step. auto with step.
Qed.

(* what the recursion needs to know about "one level down" *)
Definition ev_clocks (T : tcfg) (ev : nat -> Z -> world -> world) : Prop :=
  forall c t w, clocks_ok T w -> now_of c w <= t ->
    (forall pg pn, gc_parent (gcfg_at T c) = Some (pg, pn) -> t <= now_of pg w) ->
    clocks_ok T (ev c t w).

Section CLOCKS.
  Variable T : tcfg.
  Variable beh : behaviour.
  Hypothesis HT : wf_tree T.

  (* a nested node calls its child at its own graph's time, which the call leaves alone: it can call again *)
  Lemma clocks_call ev g i t w :
    ev_clocks T ev -> ev_step ev -> is_nested (ncfg_at T g i) = true ->
    clocks_ok T w /\ now_of g w = t ->
    clocks_ok T (ev (c_child (ncfg_at T g i)) t w) /\ now_of g (ev (c_child (ncfg_at T g i)) t w) = t.
  Proof.
    intros Hev Hst Hn [H <-]. destruct HT as (HP & HK & _). assert (Hc := HK _ _ Hn). split.
    - apply Hev; [exact H|apply (H _ _ _ Hc)|]. intros pg pn Hp. rewrite Hc in Hp. inversion Hp; subst. lia.
    - apply (kg_now _ _ (ev_step_keep ev _ _ w g Hst (HP _ _ _ Hc))).
  Qed.

  Lemma clocks_eval_node ev g i w :
    ev_clocks T ev -> ev_step ev -> clocks_ok T w -> clocks_ok T (eval_node T beh ev g i w).
  Proof.
    intros Hev Hst H.
    refine (proj1 (eval_node_inv T beh (fun w' => clocks_ok T w' /\ now_of g w' = now_of g w) ev g i w _ _ (conj H eq_refl))).
    - intros a b S [C E]. split; [apply (clocks_stable T a b S C)|]. rewrite <- E. apply Keep_now, Keep_step, S.
    - intros Hn w'. apply clocks_call; auto.
  Qed.

  Lemma clocks_scan ev g : ev_clocks T ev -> ev_step ev -> forall k i w, clocks_ok T w -> clocks_ok T (scan T beh ev g i k w).
  Proof.
    intros Hev Hst. apply scan_inv. intros i w H.
    apply visit_inv; [apply clocks_stable|intros H'; apply clocks_eval_node; auto|].
    apply (clocks_NowEq T w); auto. apply NowEq_upd_g; reflexivity.
  Qed.

  Lemma clocks_eval_graph rr : forall f, ev_clocks T (eval_graph f T beh rr).
  Proof.
    induction f as [|f IH]; intros g t w H Hn Hp; [exact H|].
    rewrite eval_graph_S. cbv zeta. apply (clocks_NowEq T _ _ (NowEq_cycle_end T g _)).
    apply clocks_scan; auto using step_eval_graph.
    unfold cycle_begin; cbv zeta.
    match goal with |- clocks_ok T (if _ then ?w0 else _) => assert (H0 : clocks_ok T w0) by (apply clocks_upd_now with (t := t); auto; apply HT) end.
    destruct (resuming _ _); auto. refine (clocks_NowEq T _ _ _ H0). intros x. apply (NowEq_upd_g g). reflexivity.
  Qed.

  Lemma clocks_start_node sc g i w :
    ev_clocks T sc -> ev_step sc -> clocks_ok T w -> clocks_ok T (start_node T beh sc g i w).
  Proof.
    intros Hev Hst. apply start_node_inv; [apply clocks_stable|].
    intros Hn H. apply clocks_call; auto.
  Qed.

  Lemma clocks_start_graph : forall f, ev_clocks T (start_graph f T beh).
  Proof.
    induction f as [|f IH]; intros g t w H Hn Hp; simpl; auto.
    match goal with |- clocks_ok T (if negb (ok ?w1) then _ else _) => assert (H1 : clocks_ok T w1) end.
    { apply start_nodes_inv; [intros; apply clocks_start_node; auto using step_start_graph|].
      apply clocks_upd_now with (t := t); auto. apply HT. }
    destruct (negb (ok _)); auto. refine (clocks_NowEq T _ _ _ H1). apply NowEq_upd_g. reflexivity.
  Qed.
End CLOCKS.

Lemma root_cache_upd g f w :
  (g = 0%nat -> root_cache w -> g_now (f (gat 0 w)) <= g_nst (f (gat 0 w))) -> root_cache w -> root_cache (upd_g g f w).
Proof.
  intros H. unfold root_cache in *. apply (gat_upd_rel (fun s s' => g_now s <= g_nst s -> g_now s' <= g_nst s')); auto.
  intros ->. auto.
Qed.

Lemma step_root_cache P F w0 w : step P F w0 w -> ~ F 0%nat -> root_cache w0 -> root_cache w.
Proof.
  apply (step_graph (fun s s' => g_now s <= g_nst s -> g_now s' <= g_nst s')); auto; simpl; try lia.
  intros i t s H. destruct (_ && _) eqn:E; lia.
Qed.

Lemma root_stable : stable root_cache.
Proof. intros w w' H. apply (step_root_cache _ _ _ _ H). intros []. Qed.

Section ROOT.
  Variable T : tcfg.
  Variable beh : behaviour.
  Hypothesis HT : wf_tree T.

  Lemma root_cache_sampled c now : forall bs w, root_cache w -> root_cache (sampled T c now bs w).
  Proof using HT. intros bs w. apply root_stable. auto with step. Qed.

  Lemma root_cache_eval_root rr f t w :
    t <= g_nst (gat 0 w) -> t <= MAX_DT -> root_cache w -> root_cache (eval_graph f T beh rr 0 t w).
  Proof.
    intros Ht Hm R. destruct f as [|f]; [exact R|]. rewrite eval_graph_S. cbv zeta.
    unfold cycle_end, propagate. rewrite (proj2 (proj2 HT)).
    match goal with |- root_cache (if negb (ok ?w2) then _ else _) => assert (R2 : root_cache w2) end.
    { apply scan_inv.
      - intros i w' R'. apply visit_inv; [apply root_stable| |apply root_cache_upd; auto].
        intros R1. refine (step_root_cache any_upd (le 1) (emit _ _) _ _ _ R1); [|lia].
        apply (step_eval_node T beh HT); auto using step_eval_graph with step.
      - destruct (resuming rr (gat 0 w)) eqn:E; [unfold cycle_begin; rewrite E|rewrite cycle_begin_fresh by exact E];
          apply root_cache_upd; auto. }
    destruct (negb (ok _)); repeat apply root_cache_upd; auto.
  Qed.

  Lemma root_cache_start_root f t w :
    now_of 0 w <= t -> t <= g_nst (gat 0 w) -> t <= MAX_DT -> root_cache w -> root_cache (start_graph f T beh 0 t w).
  Proof.
    intros Hn Ht Hm R. destruct f as [|f]; [exact R|]. simpl.
    set (w0 := upd_g 0 (g_set_now t) w).
    assert (R0 : root_cache w0) by (apply root_cache_upd; auto).
    assert (N0 : g_now (gat 0 w0) <= t).
    { revert Hn. apply (gat_upd_rel (fun s s' => g_now s <= t -> g_now s' <= t)); auto. simpl. lia. }
    match goal with |- root_cache (if negb (ok ?w1) then _ else _) => assert (S1 : step any_upd (le 1) w0 w1) end.
    { apply (step_start_nodes T beh HT); auto using step_start_graph with step. }
    assert (N1 := kg_now _ _ (step_keep _ _ _ _ 0%nat S1 ltac:(lia))).
    destruct (negb (ok _)); [apply (step_root_cache _ _ _ _ S1); auto; lia|].
    apply root_cache_upd; [|apply (step_root_cache _ _ _ _ S1); auto; lia].
    intros _ _. cbn [g_set_flags seed_cache g_set_nst g_now g_nst]. set (g1 := gat 0 _).
    destruct (seed_fold (g_now g1) (g_slots g1) MAX_DT) as (_ & [->|H] & _); [unfold g1; lia|exact H].
  Qed.
End ROOT.

Section RUN.
  Variable T : tcfg.
  Variable beh : behaviour.
  Variable rr : bool.
  Hypothesis HT : wf_tree T.

  Definition run_inv (w : world) : Prop := clocks_ok T w /\ root_cache w.

  Lemma gat_init g : gat g (init_world T) = init_g (length (gc_nodes (gcfg_at T g))).
  Proof.
    unfold gat, init_world, gcfg_at; simpl.
    change dflt_g with ((fun gc => init_g (length (gc_nodes gc))) dflt_gc). apply map_nth.
  Qed.

  Lemma init_run_inv : run_inv (init_world T).
  Proof.
    split.
    - intros c pg pn _. unfold now_of. rewrite !gat_init. simpl. lia.
    - unfold root_cache. rewrite gat_init. simpl. unfold MIN_DT, MAX_DT. lia.
  Qed.

  Lemma run_loop_rule (I : world -> Prop) end_ :
    (forall w, I w -> I (set_err 9 w)) ->
    (forall w, I w -> ok w = true -> g_nst (gat 0 w) < end_ ->
               I (eval_graph (S (length T)) T beh rr 0 (g_nst (gat 0 w)) w)) ->
    forall fuel w, I w -> I (run_loop T beh rr end_ fuel w).
  Proof.
    intros H9 Hc. induction fuel as [|fuel IH]; intros w H; cbn [run_loop]; auto.
    destruct (ok w) eqn:Hok; cbn [negb]; auto.
    destruct (_ || _) eqn:E; auto. apply IH, Hc; auto. lia.
  Qed.
End RUN.

Lemma write_err_node T g i code now w g' i' :
  node_at g' i' (write_err T g i code now w) = node_at g' i' (upd_node g i (set_errv code now) w).
Proof.
  unfold write_err, node_at. rewrite (step_nodes none (upd_node g i (set_errv code now) w)); auto with step.
Qed.

Lemma write_err_footprint T g i code now w g' i' :
  let n := node_at g' i' w in
  let n' := node_at g' i' (write_err T g i code now w) in
  ((g', i') <> (g, i) -> n' = n)
  /\ n_val n' = n_val n /\ n_lmt n' = n_lmt n /\ n_sch n' = n_sch n /\ n_runs n' = n_runs n /\ n_started n' = n_started n.
Proof.
  cbv zeta. rewrite write_err_node.
  apply (node_upd_rel (fun n n' => ((g', i') <> (g, i) -> n' = n) /\ n_val n' = n_val n /\ n_lmt n' = n_lmt n
                                   /\ n_sch n' = n_sch n /\ n_runs n' = n_runs n /\ n_started n' = n_started n)).
  - intros n. repeat split.
  - intros <- <-. repeat split. intros H. contradiction.
Qed.

Section CAPTURE.
  Variable T : tcfg.
  Hypothesis HP : parents_lt T.

  Lemma error_tick g i now w e :
    w_err w = e -> (g < length (w_gs w))%nat -> (i < length (g_nodes (gat g w)))%nat ->
    let w' := write_err T g i (w_err w) now (set_err 0 w) in
    w_err w' = 0
    /\ errp (node_at g i w') = (Some e, now)
    /\ forall g' i', (g', i') <> (g, i) -> errp (node_at g' i' w') = errp (node_at g' i' w).
  Proof.
    intros <- Lg Li. repeat split.
    - rewrite write_err_err; auto.
    - rewrite write_err_node. unfold node_at, upd_node. rewrite gat_upd_same by auto. simpl. rewrite nth_update_same; auto.
    - intros g' i' Hd. destruct (write_err_footprint T g i (w_err w) now (set_err 0 w) g' i') as [E _]. rewrite E; auto.
  Qed.

  Lemma capture_none g i now w : w_err w = 0 -> capture T g i now w = w.
  Proof. intros H. unfold capture, ok. rewrite H. simpl. rewrite andb_false_r. reflexivity. Qed.

  Lemma capture_off g i now w : c_kind (ncfg_at T g i) <> 3 -> capture T g i now w = w.
  Proof. intros H. unfold capture. replace (c_kind (ncfg_at T g i) =? 3) with false by lia. reflexivity. Qed.

  Lemma ErrEq_pull g i c w : ErrEq w (pull T g i c w).
  Proof. apply ErrEq_step. auto with step. Qed.
End CAPTURE.
