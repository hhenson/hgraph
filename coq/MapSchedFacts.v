(* MapSchedFacts.v — the mechanism-level invariant of the map node's child scheduling (MapSched):
   no child wake-up is lost, over all sequences of child schedules, key removals, erases and slot reuse.
   Every operation is a composition of updates of one slot ([queued_local]) and of the owning graph's slot
   ([psched_eq]); an evaluation is followed through its stages by one predicate, [Queued C]: every pending
   child is covered by the queue or is in the set C of slots the evaluation will still look at.
   The last part says what an evaluation does to one entry, as equations ([reconcile_quiet], [do_eval_entry],
   [push_fold_notified]): MapNodeFacts follows a child through a cycle with them. *)
Require Import Base MapSched.
From Coq Require Import ZifyBool.

Lemma mem_in k l : existsb (Nat.eqb k) l = true <-> In k l.
Proof. apply existsb_eqb_In, Nat.eqb_eq. Qed.

Lemma insert_in x y l : In y (insert x l) <-> In y (x :: l).
Proof.
  induction l as [|z r IH]; cbn [insert]; [tauto|].
  destruct (hleb x z); [tauto|]. cbn [In] in *. tauto.
Qed.

Lemma isort_in y l : In y (isort l) <-> In y l.
Proof. induction l as [|x r IH]; cbn [isort]; [tauto|]. rewrite insert_in. cbn [In]. tauto. Qed.

Lemma due_in t h x : In x (due_part t h) <-> In x h /\ h_when x <= t.
Proof. unfold due_part. rewrite isort_in, filter_In. unfold is_due. intuition lia. Qed.

Lemma rest_in t h x : In x (rest_part t h) <-> In x h /\ t < h_when x.
Proof. unfold rest_part. rewrite filter_In. unfold is_due. intuition lia. Qed.

Lemma hmin_le d h x : In x h -> hmin d h <= h_when x.
Proof. induction h as [|y r IH]; cbn [hmin In]; [tauto|]. intros [H|H]; [subst; lia|specialize (IH H); lia]. Qed.

Lemma hmin_lb d h b : b < d -> (forall x, In x h -> b < h_when x) -> b < hmin d h.
Proof.
  intros Hd. induction h as [|y r IH]; cbn [hmin]; intros H; [exact Hd|].
  specialize (H y (or_introl eq_refl)) as Hy. specialize (IH (fun x Hx => H x (or_intror Hx))). lia.
Qed.

Lemma upd_same {A} k (v : A) f : upd k v f k = v.
Proof. unfold upd. rewrite Nat.eqb_refl. reflexivity. Qed.
Lemma upd_other {A} k k' (v : A) f : k' <> k -> upd k v f k' = f k'.
Proof. intros H. unfold upd. destruct (Nat.eqb k' k) eqn:E; [apply Nat.eqb_eq in E; congruence|reflexivity]. Qed.

(* some queue entry that is not stale will put k into the candidate set no later than T *)
Definition covered (s : st) (k : nat) (T : Z) : Prop :=
  exists h, In h (s_heap s) /\ h_slot h = k /\ h_when h <= T /\
            (h_pulled h = false \/ exists e, s_ent s k = Some e /\ e_pulled e = h_when h).

Definition Inv (s : st) : Prop :=
  forall k e, s_ent s k = Some e -> e_started e = true -> e_next e < MAX_DT ->
    (s_now s < e_next e \/ (s_now s = e_next e /\ s_done s = false)) /\
    (exists P, pend s = Some P /\ P <= e_next e) /\
    covered s k (e_next e).

(* the pull marker always has its queue entry (the coalescing in push_pulled_child_schedule relies on it) *)
Definition Pinv (s : st) : Prop :=
  forall k e, s_ent s k = Some e -> e_pulled e < MAX_DT -> In (e_pulled e, k, true) (s_heap s).

Definition Cinv (s : st) : Prop := forall k e, s_ent s k = Some e -> (k < s_cap s)%nat.

Definition Good (s : st) : Prop := Inv s /\ Pinv s /\ Cinv s.

(* [Good] splits ([good_iff]) into a part about the clock and the owning graph's slot, [Timed], and a part about the
   queue, [Queued] *)
Definition due_by (s : st) (T : Z) : Prop :=
  s_pslot s <= T /\ (s_now s < s_pslot s \/ s_pslot s = s_now s /\ s_done s = false).

Lemma pend_due_by s T : due_by s T -> pend s = Some (s_pslot s).
Proof. unfold due_by, pend. destruct (_ || _) eqn:E; [reflexivity|lia]. Qed.

Lemma pend_le_iff s T : (exists P, pend s = Some P /\ P <= T) <-> due_by s T.
Proof.
  split; [|intros H; rewrite (pend_due_by s T H); exists (s_pslot s); split; [reflexivity|apply H]].
  unfold due_by, pend. intros (P & HP & Hle). destruct (_ || _) eqn:E; [|discriminate]. injection HP as <-. lia.
Qed.

Definition Timed (s : st) : Prop :=
  forall k e, s_ent s k = Some e -> e_started e = true -> e_next e < MAX_DT -> due_by s (e_next e).

Definition Cov (C : nat -> Prop) (s : st) (k : nat) : Prop :=
  forall e, s_ent s k = Some e -> e_started e = true -> e_next e < MAX_DT -> C k \/ covered s k (e_next e).

Definition Queued (C : nat -> Prop) (s : st) : Prop := Pinv s /\ Cinv s /\ forall k, Cov C s k.

Definition nobody : nat -> Prop := fun _ => False.

Lemma good_iff s : Good s <-> Timed s /\ Queued nobody s.
Proof.
  split.
  - intros (HI & HP & HC). split; [|split; [exact HP|split; [exact HC|]]]; intros k e He Hs Hn;
      destruct (HI k e He Hs Hn) as (_ & H2 & H3); [apply pend_le_iff; exact H2|right; exact H3].
  - intros (HT & HP & HC & HQ). split; [|split; assumption]. intros k e He Hs Hn. pose proof (HT k e He Hs Hn) as H.
    split; [unfold due_by in H; lia|]. split; [apply pend_le_iff; exact H|]. destruct (HQ k e He Hs Hn) as [[]|H']. exact H'.
Qed.

Lemma queued_weaken (C C' : nat -> Prop) s : (forall k, C k -> C' k) -> Queued C s -> Queued C' s.
Proof.
  intros HCC (HP & HC & HQ). split; [exact HP|split; [exact HC|]]. intros k e He Hs Hn.
  destruct (HQ k e He Hs Hn); [left|right]; auto.
Qed.

Lemma good_init : Good init.
Proof. split; [|split]; intros k e H; discriminate H. Qed.

Lemma covered_mono s s' k T T' :
  incl (s_heap s) (s_heap s') ->
  (forall e, s_ent s k = Some e -> exists e', s_ent s' k = Some e' /\ e_pulled e' = e_pulled e) ->
  T <= T' -> covered s k T -> covered s' k T'.
Proof.
  intros Hh He HT (h & H1 & H2 & H3 & H4). exists h. split; [apply Hh, H1|]. split; [exact H2|]. split; [lia|].
  destruct H4 as [H4|(e & E1 & E2)]; [left; exact H4|right]. destruct (He e E1) as (e' & E1' & E2'). exists e'. split; [exact E1'|congruence].
Qed.

Lemma queued_local (C C' : nat -> Prop) s s' k :
  incl (s_heap s) (s_heap s') -> (s_cap s <= s_cap s')%nat ->
  (forall k', k' <> k -> s_ent s' k' = s_ent s k' /\ (C k' -> C' k')) ->
  (forall e', s_ent s' k = Some e' ->
     (k < s_cap s')%nat /\ (e_pulled e' < MAX_DT -> In (e_pulled e', k, true) (s_heap s')) /\
     (e_started e' = true -> e_next e' < MAX_DT -> C' k \/ covered s' k (e_next e'))) ->
  Queued C s -> Queued C' s'.
Proof.
  intros Hh Hc Ho Hk (HP & HC & HQ). split; [|split]; intros k' e' He';
    (destruct (Nat.eq_dec k' k) as [->|Hne]; [destruct (Hk e' He') as (K1 & K2 & K3)|destruct (Ho k' Hne) as [Ho1 Ho2]; rewrite Ho1 in He']).
  - exact K2.
  - intros Hl. apply Hh, HP; assumption.
  - exact K1.
  - specialize (HC k' e' He'). lia.
  - exact K3.
  - intros Hs Hn. destruct (HQ k' e' He' Hs Hn) as [H|H]; [left; auto|right].
    revert H. apply covered_mono; [exact Hh| |lia]. intros e E. rewrite Ho1. eauto.
Qed.

Lemma psched_eq w s :
  psched w s = mkS (s_now s) (s_done s) (if (s_pslot s <=? s_now s) || (w <? s_pslot s) then w else s_pslot s)
                   (s_cap s) (s_ent s) (s_heap s).
Proof. unfold psched. destruct (_ || _); [reflexivity|destruct s; reflexivity]. Qed.

Lemma psched_due_by w s : push_ok w s = true -> s_now s <= w ->
  due_by (psched w s) w /\ forall T, due_by s T -> due_by (psched w s) T.
Proof. unfold push_ok, due_by. rewrite psched_eq. cbn [s_now s_done s_pslot]. intros Hok Hw.
  destruct ((s_pslot s <=? s_now s) || (w <? s_pslot s)) eqn:E; (split; [|intros T HT]; lia).
Qed.

Lemma tick_due_by t s T : due_by s T -> tick_ok t s = true -> t <= s_pslot s <= T.
Proof. intros HT Ht. unfold tick_ok in Ht. rewrite (pend_due_by s T HT) in Ht. unfold due_by in HT. lia. Qed.

Lemma good_tick t s : Good s -> Good (do_tick t s).
Proof.
  intros HG. unfold do_tick. destruct (tick_ok t s) eqn:Ht; [|exact HG]. apply good_iff in HG as [HT HQ]. apply good_iff.
  split; [|exact HQ]. intros k e He Hs Hn. pose proof (tick_due_by t s _ (HT k e He Hs Hn) Ht).
  unfold due_by. cbn [s_now s_done s_pslot]. lia.
Qed.

Lemma tick_cannot_skip t s k e :
  Good s -> s_ent s k = Some e -> e_started e = true -> e_next e < MAX_DT -> tick_ok t s = true ->
  t <= s_pslot s <= e_next e.
Proof. intros HG He Hs Hn. apply good_iff in HG as [HT _]. apply tick_due_by, (HT k e He Hs Hn). Qed.

Lemma good_erase k s : Good s -> Good (do_erase k s).
Proof.
  rewrite !good_iff. intros [HT HQ]. split.
  - intros k' e He. apply (HT k' e). cbn [do_erase s_ent] in He. unfold upd in He. destruct (Nat.eqb k' k); [discriminate|exact He].
  - apply (queued_local nobody nobody s _ k); cbn [do_erase s_heap s_cap s_ent]; auto using incl_refl, upd_other.
    rewrite upd_same. discriminate.
Qed.

Lemma do_push_eq k when s : let w := Z.max when (s_now s) in
  do_push k when s = s \/
  exists e, s_ent s k = Some e /\ e_started e = true /\ push_ok w s = true /\
    do_push k when s = psched w (hpush (w, k, false) (set_ent k (Some (mkE true (e_pulled e) (Z.min (e_next e) w))) s)).
Proof.
  unfold do_push. destruct (s_ent s k) as [e|]; [|left; reflexivity].
  destruct (e_started e) eqn:Es, (push_ok _ s) eqn:Eok; cbn [andb]; try (left; reflexivity). right. exists e. auto.
Qed.

Lemma queued_push C k when s : Queued C s -> Queued C (do_push k when s).
Proof.
  intros HQ. destruct (do_push_eq k when s) as [->|(e & Ek & Es & _ & ->)]; [exact HQ|]. rewrite psched_eq.
  apply (queued_local C C s _ k); cbn [hpush set_heap set_ent s_heap s_cap s_ent]; auto using incl_tl, incl_refl, upd_other; [lia|].
  rewrite upd_same. intros e' [= <-]. cbn [e_pulled e_next]. split; [lia|]. destruct HQ as (HP & _ & HQ). split.
  - intros Hl. right. exact (HP k e Ek Hl).
  - intros _. destruct (Z.min_spec (e_next e) (Z.max when (s_now s))) as [[Hlt ->]|[Hge ->]]; intros Hn.
    + destruct (HQ k e Ek Es Hn) as [H|H]; [left; exact H|right]. revert H. apply covered_mono; cbn [s_heap s_ent]; auto using incl_tl, incl_refl, Z.le_refl.
      intros x Hx. rewrite upd_same. eexists. split; [reflexivity|cbn; congruence].
    + right. exists (Z.max when (s_now s), k, false). cbn. auto using Z.le_refl.
Qed.

Lemma good_push k when s : Good s -> Good (do_push k when s).
Proof.
  rewrite !good_iff. intros [HT HQ]. split; [|apply queued_push; exact HQ].
  destruct (do_push_eq k when s) as [->|(e & Ek & Es & Eok & ->)]; [exact HT|].
  destruct (psched_due_by _ _ Eok (Z.le_max_r _ _)) as [Hw Hle]. revert Hw Hle. rewrite !psched_eq.
  set (s' := mkS _ _ _ _ _ _). intros Hw Hle k' x Hx Hs Hn. cbn [s' hpush set_heap set_ent s_ent] in Hx. unfold upd in Hx.
  destruct (Nat.eqb k' k) eqn:E; [|exact (Hle _ (HT k' x Hx Hs Hn))].
  injection Hx as <-. cbn [e_next] in *. apply Nat.eqb_eq in E. subst k'.
  destruct (Z.min_spec (e_next e) (Z.max when (s_now s))) as [[Hlt ->]|[Hge ->]]; [|exact Hw]. apply Hle, (HT k e Ek Es). lia.
Qed.

Lemma queued_remove C k s : Queued C s -> Queued C (remove_slot k s).
Proof.
  intros H. unfold remove_slot. destruct (s_ent s k); [|exact H].
  apply (queued_local C C s _ k); cbn [set_ent s_heap s_cap s_ent]; auto using incl_refl, upd_other; [lia|].
  rewrite upd_same. intros e' [= <-]. cbn. split; [lia|]. split; [lia|discriminate].
Qed.

Definition fresh_entry (now : Z) (a : addspec) : entry := mkE true MAX_DT (clamp_next now (a_next a)).

Lemma queued_create (C : nat -> Prop) a s : C (a_slot a) -> Queued C s -> Queued C (create_slot a s).
Proof.
  intros Ha H.
  assert (H1 : Queued C (set_ent (a_slot a) (Some (fresh_entry (s_now s) a)) s)).
  { apply (queued_local C C s _ (a_slot a)); cbn [set_ent s_heap s_cap s_ent]; auto using incl_refl, upd_other; [lia|].
    rewrite upd_same. intros e' [= <-]. cbn. split; [lia|]. split; [lia|auto]. }
  unfold create_slot. destruct (s_ent s (a_slot a)) as [e|]; [destruct (e_started e); [exact H|]|];
    destruct (a_sampled a); auto using queued_push.
Qed.

Lemma queued_reconcile rm ad s :
  Queued nobody s -> Queued (fun k => In k (map a_slot ad)) (reconcile rm ad s).
Proof.
  intros H. apply (queued_weaken _ (fun k => In k (map a_slot ad))) in H; [|intros _ []]. unfold reconcile.
  apply fold_left_ind; [intros s' a Ha; apply queued_create, in_map, Ha|].
  apply fold_left_ind; [intros s' k _; apply queued_remove|exact H].
Qed.

Lemma do_push_now k when s : s_now (do_push k when s) = s_now s.
Proof. destruct (do_push_eq k when s) as [->|(e & _ & _ & _ & ->)]; [reflexivity|]. rewrite psched_eq. reflexivity. Qed.

Lemma remove_slot_now k s : s_now (remove_slot k s) = s_now s.
Proof. unfold remove_slot. destruct (s_ent s k); reflexivity. Qed.

Lemma create_slot_now a s : s_now (create_slot a s) = s_now s.
Proof.
  unfold create_slot. destruct (s_ent s (a_slot a)) as [e|]; [destruct (e_started e); [reflexivity|]|];
    destruct (a_sampled a); rewrite ?do_push_now; reflexivity.
Qed.

Lemma reconcile_now rm ad s : s_now (reconcile rm ad s) = s_now s.
Proof.
  unfold reconcile. apply (fold_left_ind _ (fun s' => s_now s' = s_now s)); [intros s' a _ <-; apply create_slot_now|].
  apply (fold_left_ind _ (fun s' => s_now s' = s_now s)); [intros s' k _ <-; apply remove_slot_now|reflexivity].
Qed.

Definition reset_pulled (e : entry) : entry := mkE (e_started e) MAX_DT (e_next e).

Lemma reset_pulled_idem e : reset_pulled (reset_pulled e) = reset_pulled e.
Proof. reflexivity. Qed.

Definition pull_due (D : list hent) (k : nat) (e : entry) : bool :=
  existsb (fun h => Nat.eqb (h_slot h) k && h_pulled h && (e_pulled e =? h_when h)) D.

Lemma pull_due_in D k e : pull_due D k e = true <-> In (e_pulled e, k, true) D.
Proof.
  unfold pull_due. rewrite existsb_exists. split.
  - intros ([[w sl] p] & Hin & H). cbn in H. assert (sl = k /\ p = true /\ e_pulled e = w) as (-> & -> & ->) by lia. exact Hin.
  - intros Hin. exists (e_pulled e, k, true). cbn. rewrite Nat.eqb_refl, Z.eqb_refl. auto.
Qed.

Definition drained (D : list hent) (k : nat) (e : entry) : entry := if pull_due D k e then reset_pulled e else e.

Lemma drained_same D k e : e_started (drained D k e) = e_started e /\ e_next (drained D k e) = e_next e.
Proof. unfold drained. destruct (pull_due D k e); auto. Qed.

Lemma drain_due_ent : forall D ent c k, fst (drain_due D ent c) k = option_map (drained D k) (ent k).
Proof.
  induction D as [|h D IH]; intros ent c k; [cbn [drain_due fst]; destruct (ent k); reflexivity|].
  assert (Hhd : forall e, drained (h :: D) k e =
            if Nat.eqb (h_slot h) k && h_pulled h && (e_pulled e =? h_when h) then reset_pulled e else drained D k e).
  { intros e. unfold drained, pull_due. cbn [existsb]. destruct (Nat.eqb _ _ && _ && _); reflexivity. }
  cbn [drain_due]. destruct (Nat.eqb (h_slot h) k) eqn:Ek.
  - apply Nat.eqb_eq in Ek. subst k. destruct (ent (h_slot h)) as [e0|] eqn:E0; [|rewrite IH, E0; reflexivity].
    cbn [option_map]. rewrite Hhd.
    destruct (h_pulled h); [destruct (e_pulled e0 =? h_when h)|]; rewrite IH, ?upd_same, ?E0; cbn [option_map andb]; try reflexivity.
    unfold drained. destruct (pull_due _ _ _); reflexivity.
  - assert (Hne : k <> h_slot h) by (intros ->; rewrite Nat.eqb_refl in Ek; discriminate).
    destruct (ent (h_slot h)) as [e0|]; [destruct (h_pulled h); [destruct (e_pulled e0 =? h_when h)|]|];
      rewrite IH, ?upd_other by exact Hne; destruct (ent k) as [e|]; cbn [option_map]; rewrite ?Hhd, ?Ek; reflexivity.
Qed.

Lemma drain_due_cand : forall D ent c k,
  c k = true \/
  (exists h, In h D /\ h_slot h = k /\ ent k <> None /\
             (h_pulled h = false \/ exists e, ent k = Some e /\ e_pulled e = h_when h)) ->
  snd (drain_due D ent c) k = true.
Proof.
  induction D as [|h0 D IH]; intros ent c k H; cbn [drain_due].
  - destruct H as [H|(h & [] & _)]. exact H.
  - destruct (Nat.eq_dec (h_slot h0) k) as [<-|Hne].
    + destruct (ent (h_slot h0)) as [e0|] eqn:E0.
      * destruct (h_pulled h0) eqn:Ep; [destruct (e_pulled e0 =? h_when h0) eqn:Ew|]; apply IH; try (left; apply upd_same).
        destruct H as [H|(h & [<-|Hin] & Hs & Hn & Hst)]; [left; exact H| |right; exists h; rewrite E0; repeat split; assumption].
        exfalso. destruct Hst as [Hst|(e & [= <-] & Hw)]; [congruence|lia].
      * apply IH. destruct H as [H|(h & _ & _ & Hn & _)]; [left; exact H|congruence].
    + assert (Hk : k <> h_slot h0) by congruence.
      assert (H' : c k = true \/ (exists h, In h D /\ h_slot h = k /\ ent k <> None /\
                     (h_pulled h = false \/ exists e, ent k = Some e /\ e_pulled e = h_when h))).
      { destruct H as [H|(h & [<-|Hin] & Hs & R)]; [left; exact H|congruence|right; exists h; auto]. }
      destruct (ent (h_slot h0)) as [e0|]; [destruct (h_pulled h0); [destruct (e_pulled e0 =? h_when h0)|]|];
        apply IH; rewrite ?upd_other by exact Hk; exact H'.
Qed.

Lemma drain_end_eq : forall D ent c, drain_end D ent = fst (drain_due D ent c).
Proof.
  induction D as [|h D IH]; intros ent c; cbn [drain_end drain_due fst]; [reflexivity|].
  destruct (h_pulled h), (ent (h_slot h)) as [e|]; try apply IH. destruct (e_pulled e =? h_when h); apply IH.
Qed.

(* holds after the first drain; kept by the loop, since [eval_slot] pushes only times after now; the reason why [finish]
   drains nothing *)
Definition Fut (s : st) : Prop := forall h, In h (s_heap s) -> s_now s < h_when h.

Lemma prepare_eq ad tk full s :
  prepare ad tk full s =
  let r := drain_due (due_part (s_now s) (s_heap s)) (s_ent s)
             (fold_left (fun c k => cadd (s_ent s) k c) (map a_slot ad ++ tk) (fun _ => false)) in
  (mkS (s_now s) (s_done s) (s_pslot s) (s_cap s) (fst r) (rest_part (s_now s) (s_heap s)),
   if full then all_slots (fst r) else snd r).
Proof. unfold prepare. destruct (drain_due _ _ _); reflexivity. Qed.

Lemma cadd_fold ent L k : In k L -> ent k <> None -> fold_left (fun c k => cadd ent k c) L (fun _ => false) k = true.
Proof.
  intros Hin Hk. apply in_split in Hin as (L1 & L2 & ->). rewrite fold_left_app. cbn [fold_left].
  apply (fold_left_ind _ (fun c : cset => c k = true)).
  - intros c x _ Hc. unfold cadd. destruct (ent x); [|exact Hc]. unfold upd. destruct (Nat.eqb k x); [reflexivity|exact Hc].
  - unfold cadd. destruct (ent k); [apply upd_same|congruence].
Qed.

Lemma queued_prepare ad tk full s : Queued (fun k => In k (map a_slot ad)) s ->
  let p := prepare ad tk full s in Fut (fst p) /\ Queued (fun k => snd p k = true) (fst p).
Proof.
  intros (HP & HC & HQ). rewrite prepare_eq. cbn zeta. cbn [fst snd].
  set (D := due_part (s_now s) (s_heap s)). set (c0 := fold_left _ _ _). set (r := drain_due D (s_ent s) c0).
  assert (Hent : forall k e1, fst r k = Some e1 -> exists e0, s_ent s k = Some e0 /\ e1 = drained D k e0).
  { intros k e1. unfold r. rewrite drain_due_ent. destruct (s_ent s k) as [e0|]; [|discriminate]. intros [= <-]. eauto. }
  split; [intros h Hh; apply rest_in in Hh; apply Hh|]. split; [|split]; intros k e1 He1; cbn [s_ent s_heap s_cap] in *;
    destruct (Hent k e1 He1) as (e0 & E0 & ->); destruct (drained_same D k e0) as [Hst Hnx].
  - unfold drained. destruct (pull_due D k e0) eqn:Ed; [cbn; lia|]. intros Hl. apply rest_in. split; [exact (HP k e0 E0 Hl)|].
    cbn. apply Z.nle_gt. intros Hle. rewrite (proj2 (pull_due_in D k e0)) in Ed; [discriminate|]. apply due_in. split; [exact (HP k e0 E0 Hl)|exact Hle].
  - exact (HC k e0 E0).
  - rewrite Hst, Hnx. intros Hs Hn.
    assert (Hcand : snd r k = true -> (if full then all_slots (fst r) else snd r) k = true).
    { destruct full; [|auto]. unfold all_slots. rewrite He1. reflexivity. }
    destruct (HQ k e0 E0 Hs Hn) as [Hin|(h & C1 & C2 & C3 & C4)].
    + left. apply Hcand, drain_due_cand. left. apply cadd_fold; [apply in_or_app; left; exact Hin|congruence].
    + (* the covering entry h: later than now, it stays in the queue and still covers, its pull marker untouched because
         only due markers are reset; due, it makes k a candidate *)
      destruct (Z_lt_le_dec (s_now s) (h_when h)) as [Hlt|Hle].
      * right. exists h. cbn [s_heap s_ent]. split; [apply rest_in; auto|]. split; [exact C2|]. split; [exact C3|].
        destruct C4 as [C4|(x & Cx & Cy)]; [left; exact C4|right]. rewrite E0 in Cx. injection Cx as <-.
        exists (drained D k e0). split; [exact He1|]. unfold drained. destruct (pull_due D k e0) eqn:Ed; [|exact Cy].
        apply pull_due_in, due_in in Ed. cbn in Ed. lia.
      * left. apply Hcand, drain_due_cand. right. exists h. split; [apply due_in; auto|]. split; [exact C2|]. split; [congruence|exact C4].
Qed.

(* the pure effect of one loop iteration on an entry *)
Definition eslot_ent (nexts : nat -> Z) (t : Z) (k : nat) (e : entry) : entry :=
  if negb (e_started e) then e else
  let e1 := if e_next e <=? t then mkE true (e_pulled e) (clamp_after t (nexts k)) else e in
  let n := e_next e1 in
  if (n <? MAX_DT) && (t <? n) then (if e_pulled e1 =? n then e1 else mkE true n n) else mkE true MAX_DT n.

(* the last line is why one iteration re-establishes coverage: a pending child's pull marker is left at its next time *)
Lemma eslot_ent_facts nexts t k e : let e' := eslot_ent nexts t k e in
  e_started e' = e_started e /\
  (e_started e = true -> e_next e' = if e_next e <=? t then clamp_after t (nexts k) else e_next e) /\
  (e_started e' = true -> e_next e' < MAX_DT -> e_pulled e' = e_next e').
Proof.
  unfold eslot_ent, clamp_after. destruct (e_started e) eqn:Hs; cbn [negb]; [|rewrite Hs; repeat split; auto; discriminate].
  destruct (e_next e <=? t) eqn:Ed; [destruct (nexts k <=? t) eqn:En|]; cbn [e_next e_pulled];
    (destruct (_ && _) eqn:Ef; [destruct (_ =? _) eqn:Ec|]); cbn [e_started e_next e_pulled]; repeat split; auto; lia.
Qed.

(* field by field, not as an equation between states: on an entry that is not started [eval_slot] returns [s] itself,
   which equals the updated state only extensionally *)
Lemma eval_slot_obs nexts k s : let s' := eval_slot nexts k s in
  s_now s' = s_now s /\ (s_cap s <= s_cap s')%nat /\
  (forall k', s_ent s' k' = if Nat.eqb k' k then option_map (eslot_ent nexts (s_now s) k) (s_ent s k) else s_ent s k') /\
  incl (s_heap s) (s_heap s') /\ (forall h, In h (s_heap s') -> In h (s_heap s) \/ s_now s < h_when h) /\
  match s_ent s k with
  | Some e => let p := e_pulled (eslot_ent nexts (s_now s) k e) in p < MAX_DT -> p = e_pulled e \/ In (p, k, true) (s_heap s')
  | None => True end.
Proof.
  assert (Hid : forall o : option entry, s_ent s k = o -> forall k', s_ent s k' = if Nat.eqb k' k then o else s_ent s k').
  { intros o <- k'. destruct (Nat.eqb k' k) eqn:E; [apply Nat.eqb_eq in E; subst k'|]; reflexivity. }
  unfold eval_slot, eslot_ent. destruct (s_ent s k) as [e|] eqn:Ek; cbn [option_map]; [|repeat split; auto using incl_refl].
  destruct (e_started e); cbn [negb]; [|repeat split; auto using incl_refl].
  destruct (e_next e <=? s_now s); cbn [e_next e_pulled];
    [set (n := clamp_after (s_now s) (nexts k))|set (n := e_next e)];
    (destruct ((n <? MAX_DT) && (s_now s <? n)) eqn:Ef; [destruct (e_pulled e =? n) eqn:Ec|]);
    try destruct (n <? MAX_DT) eqn:El; rewrite ?psched_eq; unfold hpush, set_heap, set_ent, upd; cbn [s_now s_done s_cap s_ent s_heap e_pulled];
    repeat split; auto using incl_refl, incl_tl; try lia; cbn [e_pulled In]; auto;
    try (intros h [<-|H]; [right; cbn; lia|auto]).
Qed.

Lemma eval_slot_queued nexts k s C : Fut s -> Queued C s ->
  let s' := eval_slot nexts k s in Fut s' /\ Queued (fun k' => C k' /\ k' <> k) s'.
Proof.
  intros HF HQ. destruct (eval_slot_obs nexts k s) as (Hn & Hc & He & Hi & Hf & Hp). cbn zeta.
  split; [intros h Hh; rewrite Hn; destruct (Hf h Hh) as [H|H]; [apply HF, H|exact H]|].
  apply (queued_local C _ s _ k); [exact Hi|exact Hc| | |exact HQ].
  - intros k' Hne. rewrite He. replace (Nat.eqb k' k) with false by (symmetry; apply Nat.eqb_neq, Hne). auto.
  - rewrite He, Nat.eqb_refl. destruct (s_ent s k) as [e|] eqn:Ek; [|discriminate]. intros e' [= He']. rewrite He' in Hp.
    destruct (eslot_ent_facts nexts (s_now s) k e) as (_ & _ & Hmark). rewrite He' in Hmark. destruct HQ as (HP & HC & _).
    (* the new pull marker is in the queue: it was pushed, or it is the old one; and the iteration leaves a pending child's
       marker at its next time ([Hmark]), so that queue entry covers the child *)
    assert (Hpull : e_pulled e' < MAX_DT -> In (e_pulled e', k, true) (s_heap (eval_slot nexts k s))).
    { intros Hl. destruct (Hp Hl) as [Ec|Hin]; [|exact Hin]. rewrite Ec in *. apply Hi, (HP k e Ek Hl). }
    split; [specialize (HC k e Ek); lia|]. split; [exact Hpull|]. intros Hs Hnx. specialize (Hmark Hs Hnx). right.
    exists (e_pulled e', k, true). cbn [h_slot h_when h_pulled fst snd]. split; [apply Hpull; lia|]. split; [reflexivity|].
    split; [lia|]. right. exists e'. rewrite He, Nat.eqb_refl, <- He'. auto.
Qed.

Lemma eval_loop_queued nexts c s : Fut s -> Queued (fun k => c k = true) s ->
  let s' := eval_loop nexts c s in Fut s' /\ Queued nobody s'.
Proof.
  intros HF HQ. unfold eval_loop.
  assert (H : Fut s /\ Queued (fun k => c k = true /\ In k (seq 0 (s_cap s))) s).
  { split; [exact HF|]. destruct HQ as (HP & HC & HQ). split; [exact HP|split; [exact HC|]]. intros k e He Hs Hn.
    destruct (HQ k e He Hs Hn) as [H|H]; [left|right; exact H]. split; [exact H|]. apply in_seq. specialize (HC k e He). lia. }
  clear HF HQ. revert H. generalize (seq 0 (s_cap s)). intros l. revert s. induction l as [|x r IH]; intros s [HF HQ]; cbn [fold_left].
  - split; [exact HF|]. revert HQ. apply queued_weaken. intros k [_ []].
  - destruct (c x) eqn:Ec.
    + destruct (eval_slot_queued nexts x s _ HF HQ) as (HF' & HQ'). apply IH. split; [exact HF'|].
      revert HQ'. apply queued_weaken. intros k [[Hc [<-|Hin]] Hne]; [congruence|auto].
    + apply IH. split; [exact HF|]. revert HQ. apply queued_weaken. intros k [Hc [<-|Hin]]; [congruence|auto].
Qed.

Lemma fut_due_nil t h : (forall x, In x h -> t < h_when x) -> due_part t h = [] /\ rest_part t h = h.
Proof.
  intros H. unfold due_part, rest_part. induction h as [|x r IH]; [auto|]. cbn [filter].
  replace (is_due t x) with false by (unfold is_due; specialize (H x (or_introl eq_refl)); lia).
  destruct IH as [-> ->]; auto. intros y Hy. apply H. right. exact Hy.
Qed.

Lemma finish_done s : s_done (finish s) = true.
Proof. unfold finish. destruct (rest_part _ _); [|rewrite psched_eq]; reflexivity. Qed.

Lemma finish_eq s : Fut s ->
  exists p, finish s = mkS (s_now s) true p (s_cap s) (s_ent s) (s_heap s) /\
            forall h, In h (s_heap s) -> p <= h_when h /\ (s_now s < MAX_DT -> s_now s < p).
Proof.
  intros HF. unfold finish. destruct (fut_due_nil (s_now s) (s_heap s) HF) as [-> ->]. cbn [drain_end].
  unfold Fut in HF. destruct (s_heap s) as [|h0 l] eqn:Eh; [exists (s_pslot s); split; [reflexivity|intros h []]|].
  rewrite psched_eq. eexists. split; [reflexivity|]. intros h Hh. cbn [s_now s_pslot].
  pose proof (hmin_le MAX_DT _ h Hh). split; [|intros Hl; pose proof (hmin_lb MAX_DT _ (s_now s) Hl HF)]; destruct (_ || _) eqn:E; lia.
Qed.

Lemma finish_good s : Fut s -> Queued nobody s -> Good (finish s).
Proof.
  intros HF HQ. destruct (finish_eq s HF) as (p & -> & Hp). apply good_iff. split; [|exact HQ].
  intros k e He Hs Hn. destruct HQ as (_ & _ & HQ). destruct (HQ k e He Hs Hn) as [[]|(h & G1 & _ & G3 & _)].
  specialize (Hp h G1). specialize (HF h G1). unfold due_by. cbn [s_now s_pslot s_done]. lia.
Qed.

Lemma up_to_loop rm ad tk full s : Good s ->
  let p := prepare ad tk full (reconcile rm ad s) in
  s_now (fst p) = s_now s /\ Fut (fst p) /\ Queued (fun k => snd p k = true) (fst p).
Proof.
  intros HG. apply good_iff in HG as [_ HQ]. split; [rewrite prepare_eq; apply reconcile_now|].
  apply queued_prepare, queued_reconcile, HQ.
Qed.

Lemma good_eval rm ad tk full nexts s : Good s -> Good (do_eval rm ad tk full nexts s).
Proof.
  intros HG. unfold do_eval. destruct (s_done s); [exact HG|].
  destruct (up_to_loop rm ad tk full s HG) as (_ & HF & HQ). destruct (prepare _ _ _ _) as [s1 c]. cbn [fst snd] in *.
  apply finish_good; apply (eval_loop_queued nexts c s1 HF HQ).
Qed.

Lemma good_step s o : Good s -> Good (step s o).
Proof.
  intros H. destruct o; cbn [step]; [apply good_tick|apply good_push|apply good_erase|apply good_eval]; exact H.
Qed.

Lemma reach_good ops : Good (reach ops).
Proof. unfold reach. apply fold_left_ind; [intros s o _; apply good_step|exact good_init]. Qed.

Lemma due_is_candidate rm ad tk full s k : Good s ->
  let p := prepare ad tk full (reconcile rm ad s) in
  forall e, s_ent (fst p) k = Some e -> e_started e = true -> e_next e < MAX_DT -> e_next e <= s_now s -> snd p k = true.
Proof.
  intros HG p e He Hs Hl Hn. destruct (up_to_loop rm ad tk full s HG) as (Hnow & HF & _ & _ & HQ). fold p in Hnow, HF, HQ.
  destruct (HQ k e He Hs Hl) as [H|(h & H1 & _ & H2 & _)]; [exact H|]. specialize (HF h H1). lia.
Qed.

Lemma no_child_wake_lost ops k e :
  let s := reach ops in
  s_ent s k = Some e -> e_started e = true -> e_next e < MAX_DT ->
  (s_now s < e_next e \/ (s_now s = e_next e /\ s_done s = false)) /\
  (exists P, pend s = Some P /\ P <= e_next e) /\
  covered s k (e_next e).
Proof. intros s. destruct (reach_good ops) as [HI _]. apply HI. Qed.

Definition stopped_entry : entry := mkE false MAX_DT MAX_DT.

Lemma remove_slot_ent r s k :
  s_ent (remove_slot r s) k = if Nat.eqb k r then option_map (fun _ => stopped_entry) (s_ent s k) else s_ent s k.
Proof.
  unfold remove_slot. destruct (s_ent s r) eqn:Er; cbn [set_ent s_ent]; unfold upd; destruct (Nat.eqb k r) eqn:E; try reflexivity;
    apply Nat.eqb_eq in E; subst k; rewrite Er; reflexivity.
Qed.

Lemma remove_fold_ent rm : forall s k,
  s_ent (fold_left (fun s k => remove_slot k s) rm s) k =
  if existsb (Nat.eqb k) rm then option_map (fun _ => stopped_entry) (s_ent s k) else s_ent s k.
Proof.
  induction rm as [|r rm IH]; intros s k; cbn [fold_left existsb]; [reflexivity|].
  rewrite IH, remove_slot_ent. destruct (Nat.eqb k r), (existsb (Nat.eqb k) rm), (s_ent s k); reflexivity.
Qed.

(* for a key added without a sampled consumer, the only shape in which [MapNode.c_ad] adds keys *)
Definition created (now : Z) (a : addspec) (o : option entry) : option entry :=
  match o with Some e => if e_started e then Some e else Some (fresh_entry now a) | None => Some (fresh_entry now a) end.

Lemma create_slot_quiet a s k : a_sampled a = false ->
  s_ent (create_slot a s) k = if Nat.eqb k (a_slot a) then created (s_now s) a (s_ent s k) else s_ent s k.
Proof.
  intros Hq. unfold create_slot, created. rewrite Hq. fold (fresh_entry (s_now s) a).
  destruct (Nat.eqb k (a_slot a)) eqn:E; [apply Nat.eqb_eq in E; subst k|];
    (destruct (s_ent s (a_slot a)) as [e|] eqn:Ea; [destruct (e_started e) eqn:Es|]); cbn [set_ent s_ent]; unfold upd;
    rewrite ?E, ?Nat.eqb_refl, ?Ea, ?Es; reflexivity.
Qed.

Lemma reconcile_quiet rm ad s k : (forall a, In a ad -> a_sampled a = false) ->
  s_ent (reconcile rm ad s) k =
  let r := if existsb (Nat.eqb k) rm then option_map (fun _ => stopped_entry) (s_ent s k) else s_ent s k in
  match find (fun a => Nat.eqb (a_slot a) k) ad with Some a => created (s_now s) a r | None => r end.
Proof.
  intros Hq. cbn zeta. rewrite <- remove_fold_ent, <- (reconcile_now rm [] s). unfold reconcile. cbn [fold_left].
  generalize (fold_left (fun s k => remove_slot k s) rm s). clear s. induction ad as [|a ad IH]; intros s; cbn [fold_left find]; [reflexivity|].
  rewrite IH by (intros a' Ha'; apply Hq; right; exact Ha'). rewrite create_slot_now, create_slot_quiet by (apply Hq; left; reflexivity).
  rewrite (Nat.eqb_sym (a_slot a) k). destruct (Nat.eqb k (a_slot a)); [|reflexivity].
  unfold created. destruct (find _ ad), (s_ent s k) as [e|]; try reflexivity; destruct (e_started e) eqn:Es; cbn [fresh_entry e_started]; rewrite ?Es; reflexivity.
Qed.

Lemma loop_ent nexts (c : cset) l : NoDup l -> forall s k,
  s_ent (fold_left (fun s k => if c k then eval_slot nexts k s else s) l s) k =
  if existsb (Nat.eqb k) l && c k
  then option_map (eslot_ent nexts (s_now s) k) (s_ent s k) else s_ent s k.
Proof.
  induction 1 as [|x l Hx _ IH]; intros s k; cbn [fold_left existsb]; [reflexivity|]. rewrite IH.
  assert (Hstep : s_now (if c x then eval_slot nexts x s else s) = s_now s /\
                  s_ent (if c x then eval_slot nexts x s else s) k =
                  if Nat.eqb k x && c x then option_map (eslot_ent nexts (s_now s) x) (s_ent s x) else s_ent s k).
  { destruct (c x); [rewrite andb_true_r; destruct (eval_slot_obs nexts x s) as (A & _ & B & _); auto|rewrite andb_false_r; auto]. }
  destruct Hstep as [-> ->]. destruct (Nat.eqb k x) eqn:E; [|reflexivity]. apply Nat.eqb_eq in E. subst x.
  replace (existsb (Nat.eqb k) l) with false by (symmetry; apply not_true_is_false; rewrite mem_in; exact Hx). destruct (c k); reflexivity.
Qed.

Lemma do_eval_entry rm ad tk full nexts s k :
  Good s -> s_done s = false -> s_now s < MAX_DT ->
  let s' := do_eval rm ad tk full nexts s in
  match s_ent (reconcile rm ad s) k with
  | None => s_ent s' k = None
  | Some e0 =>
      exists e', s_ent s' k = Some e' /\ e_started e' = e_started e0 /\
        e_next e' = (if evaluated_in rm ad tk full s k then clamp_after (s_now s) (nexts k) else e_next e0) /\
        (e_started e0 = true -> evaluated_in rm ad tk full s k = (e_next e0 <=? s_now s))
  end.
Proof.
  intros HG Hd HM. unfold do_eval, evaluated_in. rewrite Hd.
  pose proof (up_to_loop rm ad tk full s HG) as (Hnow & HF & HQ). pose proof (due_is_candidate rm ad tk full s k HG) as Hdue.
  assert (H1 : s_ent (fst (prepare ad tk full (reconcile rm ad s))) k =
               option_map (drained (due_part (s_now (reconcile rm ad s)) (s_heap (reconcile rm ad s))) k) (s_ent (reconcile rm ad s) k)).
  { rewrite prepare_eq. apply drain_due_ent. }
  destruct (prepare _ _ _ _) as [s1 c]. cbn [fst snd] in *. cbn zeta in Hdue.
  destruct (eval_loop_queued nexts c s1 HF HQ) as (HF2 & _). destruct (finish_eq _ HF2) as (p & -> & _). cbn [s_ent].
  unfold eval_loop. rewrite loop_ent by apply seq_NoDup. rewrite H1.
  destruct (s_ent (reconcile rm ad s) k) as [e0|]; [|destruct (_ && _); reflexivity]. cbn [option_map] in *.
  set (e1 := drained _ k e0) in *.
  assert (He1 : e_started e1 = e_started e0 /\ e_next e1 = e_next e0) by apply drained_same.
  destruct He1 as [Hst Hnx]. destruct HQ as (_ & HC & _).
  replace (existsb (Nat.eqb k) (seq 0 (s_cap s1))) with true by (symmetry; apply mem_in, in_seq; specialize (HC k e1 H1); lia).
  rewrite Hst, Hnx, Hnow. specialize (Hdue e1 H1). rewrite Hst, Hnx in Hdue.
  destruct (c k) eqn:Ec; [destruct (e_started e0) eqn:Es|]; cbn [andb]; eexists; (split; [reflexivity|]).
  - destruct (eslot_ent_facts nexts (s_now s) k e1) as (F1 & F2 & _). rewrite F1, (F2 Hst), Hst, Hnx. repeat split.
  - unfold eslot_ent. rewrite Hst. split; [exact Hst|split; [exact Hnx|discriminate]].
  - split; [exact Hst|split; [exact Hnx|]]. intros Hs. symmetry. apply Z.leb_gt, Z.nle_gt. intros Hle.
    discriminate (Hdue Hs ltac:(lia) Hle).
Qed.

Definition notified (now : Z) (e : entry) : entry :=
  if e_started e then mkE true (e_pulled e) (Z.min (e_next e) now) else e.

Lemma do_push_notified k s :
  s_done s = false ->
  let s' := do_push k (s_now s) s in
  s_now s' = s_now s /\ s_done s' = false /\
  forall k', s_ent s' k' = if Nat.eqb k' k then option_map (notified (s_now s)) (s_ent s k') else s_ent s k'.
Proof.
  intros Hd. unfold do_push, notified. rewrite Z.max_id.
  replace (push_ok (s_now s) s) with true by (unfold push_ok; rewrite Hd; lia).
  destruct (s_ent s k) as [e|] eqn:Ek; [rewrite andb_true_r; destruct (e_started e) eqn:Es; [rewrite psched_eq; cbn [hpush set_heap set_ent s_now s_done s_ent]|]|];
    (split; [reflexivity|]; split; [exact Hd|]); intros k'; unfold upd;
    (destruct (Nat.eqb k' k) eqn:E; [apply Nat.eqb_eq in E; subst k'; rewrite ?Ek; cbn [option_map]; rewrite ?Es|]; reflexivity).
Qed.

Lemma push_fold_notified l : forall s,
  s_done s = false ->
  let s' := fold_left (fun s k => do_push k (s_now s) s) l s in
  s_now s' = s_now s /\ s_done s' = false /\
  forall k', s_ent s' k' = if existsb (Nat.eqb k') l then option_map (notified (s_now s)) (s_ent s k') else s_ent s k'.
Proof.
  induction l as [|k r IH]; intros s Hd; cbn [fold_left existsb]; [auto|].
  destruct (do_push_notified k s Hd) as (A & B & C). destruct (IH _ B) as (A' & B' & C'). cbn zeta in *.
  rewrite A', B', A. repeat split. intros k'. rewrite C', C, A.
  destruct (Nat.eqb k' k), (existsb (Nat.eqb k') r), (s_ent s k') as [e|]; try reflexivity.
  unfold notified. cbn [option_map orb]. destruct (e_started e) eqn:Es; cbn [e_started e_pulled e_next]; rewrite ?Es, <- ?Z.min_assoc, ?Z.min_id; reflexivity.
Qed.

Lemma push_fold_good l s : Good s -> Good (fold_left (fun s k => do_push k (s_now s) s) l s).
Proof. apply fold_left_ind. intros s' k _. apply good_push. Qed.
