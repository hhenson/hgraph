(* RefFacts.v — property C13: facts about the reference model of Ref.v.

   The specification notions are folds over the script alone, independent of the link /
   selector state machine: [spec_tgt sh i cs] is target i's own history, [spec_sel op cs] the
   target the selectors designate.  [Inv]: after any well-formed history the state agrees
   with them.  [last_cycle] gives the output of one more cycle as [rebind] / [read] of targets
   and a link known through those notions; [ticked_cycle] and [retarget_cycle] say what the
   consumers read in the two kinds of cycle that wake them; the quiet kind is Props/C13.v
   unselected_never_reaches, on [read_quiet]. *)
Require Import Base Ref.

Definition tick_step (sh : shape) (i : nat) (g : target) (c : cyc) : target :=
  match tick_of c i with Some p => tick_target sh (c_t c) p g | None => g end.
Definition spec_tgt (sh : shape) (i : nat) (cs : list cyc) : target := fold_left (tick_step sh i) cs t0.

Definition selst_step (op : Z) (ss : selst) (c : cyc) : selst := fst (sel_eval op ss (c_sel c) (c_sel2 c)).
Definition spec_selst (op : Z) (cs : list cyc) : selst := fold_left (selst_step op) cs sel0.
Definition spec_sel (op : Z) (cs : list cyc) : option nat := s_out (spec_selst op cs).

Definition last_t (cs : list cyc) : Z := fold_left (fun _ c => c_t c) cs 0.

(* 0 = MIN_DT: every cycle is later than "never" *)
Fixpoint wf_from (lo : Z) (cs : list cyc) : Prop :=
  match cs with [] => True | c :: r => lo < c_t c /\ wf_from (c_t c) r end.
Definition wf (cs : list cyc) : Prop := wf_from 0 cs.

Definition st_after (sh : shape) (op : Z) (cs : list cyc) : state := fst (run sh op s0 cs).
Definition last_out (sh : shape) (op : Z) (pre : list cyc) (c : cyc) : cout :=
  snd (step sh op (st_after sh op pre) c).

(* what the consumers saw of the designated target [old] before cycle c, and the keys its last
   tick removed if that tick was in an earlier cycle *)
Definition old_view (sh : shape) (old : option nat) (pre : list cyc) : kv :=
  match old with Some i => tval (spec_tgt sh i pre) | None => [] end.
Definition old_stale (sh : shape) (old : option nat) (pre : list cyc) (c : cyc) : list Z :=
  match old with Some i => if ticks c i then [] else trem (spec_tgt sh i pre) | None => [] end.

Lemma run_app sh op st a b :
  run sh op st (a ++ b) =
  (fst (run sh op (fst (run sh op st a)) b), snd (run sh op st a) ++ snd (run sh op (fst (run sh op st a)) b)).
Proof.
  revert st; induction a as [|c a IH]; intros st; simpl.
  - destruct (run sh op st b); reflexivity.
  - destruct (step sh op st c) as [st1 o].
    rewrite IH. destruct (run sh op st1 a) as [st2 os]. simpl.
    destruct (run sh op st2 b); reflexivity.
Qed.

Lemma run_snoc sh op pre c :
  run sh op s0 (pre ++ [c]) =
  (fst (step sh op (st_after sh op pre) c), snd (run sh op s0 pre) ++ [last_out sh op pre c]).
Proof.
  rewrite run_app. unfold last_out, st_after. simpl.
  destruct (step sh op (fst (run sh op s0 pre)) c); reflexivity.
Qed.

Lemma st_after_snoc sh op pre c :
  st_after sh op (pre ++ [c]) = fst (step sh op (st_after sh op pre) c).
Proof. unfold st_after at 1. rewrite run_snoc. reflexivity. Qed.

Lemma wf_prefix pre post : wf (pre ++ post) -> wf pre.
Proof.
  unfold wf. generalize 0. induction pre as [|x a IH]; intros lo H; simpl in *; auto.
  destruct H; split; eauto.
Qed.

Lemma wf_snoc pre c : wf (pre ++ [c]) -> wf pre /\ 0 <= last_t pre < c_t c.
Proof.
  intros H. split; [exact (wf_prefix _ _ H)|].
  unfold wf, last_t in *. revert H. generalize 0.
  induction pre as [|x a IH]; intros lo; simpl; [lia|].
  intros [H1 H2]. specialize (IH _ H2). lia.
Qed.

Lemma last_t_snoc pre c : last_t (pre ++ [c]) = c_t c.
Proof. unfold last_t. rewrite fold_left_app. reflexivity. Qed.

Lemma spec_tgt_snoc sh i pre c : spec_tgt sh i (pre ++ [c]) = tick_step sh i (spec_tgt sh i pre) c.
Proof. unfold spec_tgt. rewrite fold_left_app. reflexivity. Qed.
Lemma spec_selst_snoc op pre c : spec_selst op (pre ++ [c]) = selst_step op (spec_selst op pre) c.
Proof. unfold spec_selst. rewrite fold_left_app. reflexivity. Qed.
Lemma spec_sel_snoc op pre c : spec_sel op (pre ++ [c]) = s_out (selst_step op (spec_selst op pre) c).
Proof. unfold spec_sel. rewrite spec_selst_snoc. reflexivity. Qed.

Lemma sel_target_lt3 op v : (sel_target op v < 3)%nat.
Proof. unfold sel_target. repeat match goal with |- context [if ?b then _ else _] => destruct b end; lia. Qed.

Lemma same_target_eqb op a b : same_target op a b = Nat.eqb a b.
Proof.
  unfold same_target, tid_eqb, tid_of. destruct (same_producer op); simpl.
  - reflexivity.
  - rewrite andb_true_r. reflexivity.
Qed.

Lemma sibling_identity op i j :
  same_producer op = true -> i <> j ->
  t_node (tid_of op i) = t_node (tid_of op j) /\ tid_of op i <> tid_of op j /\ same_target op i j = false.
Proof.
  intros Hp Hne. unfold tid_of. rewrite Hp. simpl. split; [reflexivity|]. split.
  - intros [= H]. contradiction.
  - rewrite same_target_eqb. apply Nat.eqb_neq. exact Hne.
Qed.

Lemma publish_some op s out j : publish op s out = Some j -> j = s /\ out <> Some j.
Proof.
  unfold publish. destruct out as [cur|]; rewrite ?same_target_eqb.
  - destruct (Nat.eqb_spec cur s); [discriminate|]. intros [= <-]. split; congruence.
  - intros [= <-]. split; [reflexivity|discriminate].
Qed.

Lemma publish_out op s out : match publish op s out with Some j => Some j | None => out end = Some s.
Proof.
  unfold publish. destruct out as [cur|]; [|reflexivity]. rewrite same_target_eqb.
  destruct (Nat.eqb_spec cur s); congruence.
Qed.

Lemma plain_designation op pre c v :
  chained op = false -> c_sel c = Some v -> spec_sel op (pre ++ [c]) = Some (sel_target op v).
Proof.
  intros Hch Hsel. rewrite spec_sel_snoc. unfold selst_step, sel_eval, selector.
  rewrite Hch, Hsel. apply publish_out.
Qed.

(* splits every [match] of the goal and the hypotheses: the case analysis of [sel_eval] *)
Ltac sel_cases :=
  repeat match goal with
         | |- context [match ?x with _ => _ end] => destruct x eqn:?
         | H : context [match ?x with _ => _ end] |- _ => destruct x eqn:?
         end.

Lemma sel_eval_out op ss a b :
  s_out (fst (sel_eval op ss a b)) = match snd (sel_eval op ss a b) with Some s => Some s | None => s_out ss end.
Proof. unfold sel_eval. destruct (chained op); reflexivity. Qed.

Lemma sel_eval_pub op ss a b j :
  snd (sel_eval op ss a b) = Some j -> exists s, publish op s (s_out ss) = Some j.
Proof.
  unfold sel_eval, selector. destruct (chained op); simpl; intros H; sel_cases; try discriminate; eauto.
Qed.

Definition sel_bounded (ss : selst) : Prop :=
  (forall j, s_in ss = Some j -> (j < 3)%nat) /\ (forall j, s_out ss = Some j -> (j < 3)%nat).

Lemma sel_eval_bounded op ss a b : sel_bounded ss -> sel_bounded (fst (sel_eval op ss a b)).
Proof.
  intros [Hi Ho].
  assert (Hi' : forall j, s_in (fst (sel_eval op ss a b)) = Some j -> (j < 3)%nat).
  { unfold sel_eval. destruct (chained op); [|discriminate]. simpl. intros j H.
    destruct a as [v|]; [|auto]. destruct (publish _ _ _) eqn:E; [|auto].
    apply publish_some in E as [-> _]. injection H as <-. apply sel_target_lt3. }
  split; [exact Hi'|]. intros j. rewrite sel_eval_out.
  destruct (snd _) as [k|] eqn:E; [|auto]. intros [= ->]. revert E Hi'.
  (* what is published is the inner designation, C (= 2) or the selector's choice *)
  unfold sel_eval, selector. destruct (chained op); simpl; intros H Hi'; sel_cases; try discriminate;
    apply publish_some in H as [-> _];
    try match goal with H : Some _ = Some ?n |- (?n < 3)%nat => injection H as <- end; auto using sel_target_lt3.
Qed.

Lemma spec_sel_lt3 op cs j : spec_sel op cs = Some j -> (j < 3)%nat.
Proof.
  assert (B : sel_bounded (spec_selst op cs)); [|apply B].
  induction cs as [|c cs IH] using rev_ind.
  - split; discriminate.
  - rewrite spec_selst_snoc. apply sel_eval_bounded, IH.
Qed.

Definition pub_of (op : Z) (ss : selst) (c : cyc) : option nat := snd (sel_eval op ss (c_sel c) (c_sel2 c)).

Lemma pub_spec op ss c :
  match pub_of op ss c with
  | Some j => s_out (selst_step op ss c) = Some j /\ s_out ss <> Some j
  | None => s_out (selst_step op ss c) = s_out ss
  end.
Proof.
  unfold pub_of, selst_step. rewrite sel_eval_out.
  destruct (snd _) as [j|] eqn:E; [|reflexivity].
  apply sel_eval_pub in E as [s E]. apply publish_some in E. tauto.
Qed.

Lemma pub_same op pre c :
  spec_sel op (pre ++ [c]) = spec_sel op pre -> pub_of op (spec_selst op pre) c = None.
Proof.
  rewrite spec_sel_snoc. unfold spec_sel. intros H. pose proof (pub_spec op (spec_selst op pre) c) as P.
  destruct (pub_of _ _ _); [|reflexivity]. destruct P as [P1 P2]. elim P2. congruence.
Qed.

Lemma pub_retarget op pre c j :
  spec_sel op (pre ++ [c]) = Some j -> spec_sel op pre <> Some j -> pub_of op (spec_selst op pre) c = Some j.
Proof.
  rewrite spec_sel_snoc. unfold spec_sel. intros H Hne. pose proof (pub_spec op (spec_selst op pre) c) as P.
  destruct (pub_of _ _ _); [destruct P|elim Hne]; congruence.
Qed.

Lemma get_tick_all sh t ps ts i :
  (i < length ts)%nat ->
  get_t (tick_all sh t ps ts) i =
  match nth i ps None with Some p => tick_target sh t p (get_t ts i) | None => get_t ts i end.
Proof.
  revert ps i; induction ts as [|g r IH]; intros ps i Hi; simpl in Hi; [lia|].
  destruct ps as [|[p|] ps'], i as [|i]; try reflexivity; apply (IH ps' i); lia.
Qed.

Lemma tick_all_length sh t ps ts : length (tick_all sh t ps ts) = length ts.
Proof.
  revert ps; induction ts as [|g r IH]; intros ps; simpl; [reflexivity|].
  destruct ps as [|[p|] ps']; simpl; auto.
Qed.

Lemma spec_tgt_lmt_le sh i cs : wf cs -> tlmt (spec_tgt sh i cs) <= last_t cs.
Proof.
  induction cs as [|c cs IH] using rev_ind; intros H.
  - reflexivity.
  - apply wf_snoc in H as [H1 H2]. specialize (IH H1).
    rewrite spec_tgt_snoc, last_t_snoc. unfold tick_step.
    destruct (tick_of c i); simpl; lia.
Qed.

Lemma spec_tgt_unticked sh i pre c : ticks c i = false -> spec_tgt sh i (pre ++ [c]) = spec_tgt sh i pre.
Proof. rewrite spec_tgt_snoc. unfold tick_step, ticks. destruct (tick_of c i); [discriminate|reflexivity]. Qed.

Lemma spec_tgt_ticked sh i pre c :
  ticks c i = true -> exists p, spec_tgt sh i (pre ++ [c]) = tick_target sh (c_t c) p (spec_tgt sh i pre).
Proof. rewrite spec_tgt_snoc. unfold tick_step, ticks. destruct (tick_of c i) as [p|]; [eauto|discriminate]. Qed.

Lemma before_cycle_spec sh i pre c :
  wf (pre ++ [c]) ->
  contents_before (c_t c) (spec_tgt sh i (pre ++ [c])) = tval (spec_tgt sh i pre) /\
  (if tlmt (spec_tgt sh i (pre ++ [c])) <? c_t c then trem (spec_tgt sh i (pre ++ [c])) else []) =
  (if ticks c i then [] else trem (spec_tgt sh i pre)).
Proof.
  intros [Hwp Hlt]%wf_snoc. pose proof (spec_tgt_lmt_le sh i pre Hwp) as Hle.
  rewrite spec_tgt_snoc. unfold tick_step, ticks, contents_before.
  destruct (tick_of c i) as [p|]; simpl.
  - rewrite Z.eqb_refl, Z.ltb_irrefl. split; reflexivity.
  - replace (tlmt (spec_tgt sh i pre) =? c_t c) with false by lia.
    replace (tlmt (spec_tgt sh i pre) <? c_t c) with true by lia. split; reflexivity.
Qed.

Lemma nested_slot_now when now : when <= now -> nested_slot when now = now.
Proof. unfold nested_slot. lia. Qed.

Lemma wake_true op now when : when <= now -> wake op now when = true.
Proof.
  intros H. unfold wake, nested_runs. destruct (in_nested op); [|reflexivity].
  destruct (wrapped op); rewrite nested_slot_now by lia; apply Z.eqb_refl.
Qed.

(* the seeded change C13w3-clamp-after-child-slot-write as arithmetic (Props/C13.v); the model
   has no unclamped variant *)
Lemma unclamped_slot_never_runs when now : when < now -> (when =? now) = false.
Proof. intros H. apply Z.eqb_neq. lia. Qed.

Lemma rebind_tgt sh op t ts s l : lk_tgt (fst (rebind sh op t ts s l)) = Some s.
Proof.
  unfold rebind. destruct (lk_tgt l) as [cur|] eqn:E; rewrite ?same_target_eqb.
  - destruct (Nat.eqb_spec cur s); [simpl; congruence|].
    repeat match goal with |- context [if ?b then _ else _] => destruct b end; reflexivity.
  - repeat match goal with |- context [if ?b then _ else _] => destruct b end; reflexivity.
Qed.

Lemma rebind_times sh op t ts s l :
  lk_lmt l <= t -> lk_trans l <= t -> 0 <= t ->
  lk_lmt (fst (rebind sh op t ts s l)) <= t /\ lk_trans (fst (rebind sh op t ts s l)) <= t.
Proof.
  intros H1 H2 H3. unfold rebind, MIN_DT.
  repeat match goal with |- context [if ?b then _ else _] => destruct b end; simpl; lia.
Qed.

Definition bound_ticked (old : option nat) (c : cyc) : bool :=
  match old with Some i => ticks c i | None => false end.

Definition touched (l : link) (c : cyc) : link :=
  mkL (lk_tgt l) (if bound_ticked (lk_tgt l) c then c_t c else lk_lmt l) (lk_trans l) (lk_prev l) (lk_stale l).

(* [step] with its intermediate values named and its results as projections *)
Lemma step_eq sh op st c :
  let ts := tick_all sh (c_t c) (c_ticks c) (tgts st) in
  let pub := pub_of op (sel st) c in
  let lr := match pub with Some s => rebind sh op (c_t c) ts s (touched (lnk st) c) | None => (touched (lnk st) c, false) end in
  step sh op st c =
  (mkS ts (selst_step op (sel st) c) (fst lr),
   mkO (c_t c) (directs c ts)
       (consumers (bound_ticked (lk_tgt (lnk st)) c || snd lr || c_nest c && (is_some pub || c_poke c))
                  (c_poke c) (c_force c) (read sh (c_t c) ts (fst lr)))
       (is_some pub)).
Proof.
  unfold step, pub_of, selst_step, touched, bound_ticked.
  destruct (sel_eval op (sel st) (c_sel c) (c_sel2 c)) as [ss' pub], (lnk st) as [[i|] ? ? ? ?]; simpl;
    [destruct (ticks c i)|]; (destruct pub as [s|]; [destruct (rebind _ _ _ _ _ _)|]; reflexivity).
Qed.

Record Inv (sh : shape) (op : Z) (pre : list cyc) (st : state) : Prop := mkInv {
  inv_len  : length (tgts st) = 3%nat;
  inv_tgt  : forall i, (i < 3)%nat -> get_t (tgts st) i = spec_tgt sh i pre;
  inv_rout : sel st = spec_selst op pre;
  inv_lk   : lk_tgt (lnk st) = spec_sel op pre;
  inv_lmt  : lk_lmt (lnk st) <= last_t pre;
  inv_tr   : lk_trans (lnk st) <= last_t pre;
  inv_tlmt : forall i, tlmt (spec_tgt sh i pre) <= last_t pre }.

Lemma step_inv sh op pre st c :
  wf (pre ++ [c]) -> Inv sh op pre st -> Inv sh op (pre ++ [c]) (fst (step sh op st c)).
Proof.
  intros Hwf [Hlen Htg Hro Hlk Hlmt Htr _]. destruct (wf_snoc _ _ Hwf) as [_ Hlt].
  rewrite step_eq. cbn [fst]. constructor; cbn [tgts sel lnk]; rewrite ?last_t_snoc.
  - rewrite tick_all_length. exact Hlen.
  - intros i Hi. rewrite get_tick_all, spec_tgt_snoc, Htg by lia. reflexivity.
  - rewrite spec_selst_snoc, Hro. reflexivity.
  - rewrite spec_sel_snoc, <- Hro. unfold selst_step. rewrite sel_eval_out. fold (pub_of op (sel st) c).
    destruct (pub_of op (sel st) c); [apply rebind_tgt|]. rewrite Hro. exact Hlk.
  - destruct (pub_of op (sel st) c); [apply rebind_times|]; simpl; try destruct (bound_ticked _ c); lia.
  - destruct (pub_of op (sel st) c); [apply rebind_times|]; simpl; try destruct (bound_ticked _ c); lia.
  - intros i. rewrite <- (last_t_snoc pre c). apply spec_tgt_lmt_le, Hwf.
Qed.

Lemma inv_reach sh op cs : wf cs -> Inv sh op cs (st_after sh op cs).
Proof.
  induction cs as [|c cs IH] using rev_ind; intros H.
  - constructor; try reflexivity. intros [|[|[|i]]] Hi; [reflexivity..|lia].
  - rewrite st_after_snoc. apply step_inv; [exact H|]. apply IH, (wf_prefix _ _ H).
Qed.

Lemma read_ticked sh t ts l j p g :
  lk_tgt l = Some j -> lk_lmt l = t -> lk_trans l <> t -> get_t ts j = tick_target sh t p g ->
  read sh t ts l = read_direct (get_t ts j).
Proof.
  intros Hj Hl Htr Hg. unfold read, read_direct. rewrite Hj, Hl, Hg. simpl.
  rewrite Z.eqb_refl, Z.max_id. replace (lk_trans l =? t) with false by lia.
  rewrite andb_false_r. destruct sh; reflexivity.
Qed.

Lemma read_quiet sh t ts l :
  let g := match lk_tgt l with Some j => get_t ts j | None => t0 end in
  lk_lmt l < t -> tlmt g < t ->
  exists lmt, read sh t ts l = mkR (tvalid g) false lmt (if tvalid g then tval g else []) [] [].
Proof.
  intros g Hl Hg. eexists. unfold read. fold g.
  replace (lk_lmt l =? t) with false by lia. replace (tlmt g =? t) with false by lia.
  rewrite andb_false_r. reflexivity.
Qed.

(* what consumers that saw prev read in the cycle of a retarget to a valid target with contents v *)
Definition sampled (sh : shape) (t : Z) (prev : kv) (stale : list Z) (v : kv) : reading :=
  mkR true true t v (fst (sample_delta_impl sh prev stale v)) (snd (sample_delta_impl sh prev stale v)).

Lemma read_rebind sh op t ts s l :
  lk_tgt l <> Some s -> tvalid (get_t ts s) = true -> tlmt (get_t ts s) <= t ->
  let o := match lk_tgt l with Some i => get_t ts i | None => t0 end in
  snd (rebind sh op t ts s l) = true /\
  read sh t ts (fst (rebind sh op t ts s l)) =
  sampled sh t (contents_before t o) (if tlmt o <? t then trem o else []) (tval (get_t ts s)).
Proof.
  intros Hne Hv Hle o. unfold rebind.
  assert (E : match lk_tgt l with Some cur => same_target op cur s | None => false end = false).
  { destruct (lk_tgt l) as [cur|]; [|reflexivity]. rewrite same_target_eqb. apply Nat.eqb_neq. congruence. }
  rewrite E, Hv, (wake_true op t _ Hle). unfold read, sampled, o.
  destruct (lk_tgt l), sh; simpl; rewrite Hv, !Z.eqb_refl, Z.max_l by lia; auto.
  (* no old target: contents_before t t0 is [] on either side of its test *)
  all: unfold contents_before; simpl; destruct t; auto.
Qed.

Lemma consumers_in notified poke force r cid r' :
  In (cid, r') (consumers notified poke force r) ->
  r' = r /\ (force = true \/ (notified = true /\ cid <> 2%nat) \/ (poke = true /\ (cid = 1%nat \/ cid = 2%nat))).
Proof.
  unfold consumers. intros H.
  destruct notified, poke, force, (r_valid r); simpl in H;
    repeat (destruct H as [[= <- <-]|H]; [auto 7|]); contradiction.
Qed.

Lemma consumers_notified poke force r :
  r_valid r = true ->
  In (0%nat, r) (consumers true poke force r) /\ In (1%nat, r) (consumers true poke force r) /\
  In (3%nat, r) (consumers true poke force r).
Proof.
  intros Hv. unfold consumers. rewrite Hv. simpl. repeat split; auto.
  destruct (poke || force); simpl; auto.
Qed.

(* ts are the targets after their ticks, l1 the link after phase 1, still designating the old
   selection; of the mechanism only [rebind] and [read] of them are left *)
Lemma last_cycle sh op pre c :
  wf (pre ++ [c]) ->
  let old := spec_sel op pre in
  let pub := pub_of op (spec_selst op pre) c in
  exists (ts : list target) (l1 : link),
    (forall i, (i < 3)%nat -> get_t ts i = spec_tgt sh i (pre ++ [c])) /\
    lk_tgt l1 = old /\ lk_trans l1 < c_t c /\
    (if bound_ticked old c then lk_lmt l1 = c_t c else lk_lmt l1 < c_t c) /\
    let lr := match pub with Some s => rebind sh op (c_t c) ts s l1 | None => (l1, false) end in
    lk_tgt (fst lr) = spec_sel op (pre ++ [c]) /\
    last_out sh op pre c =
    mkO (c_t c) (directs c ts)
        (consumers (bound_ticked old c || snd lr || c_nest c && (is_some pub || c_poke c))
                   (c_poke c) (c_force c) (read sh (c_t c) ts (fst lr)))
        (is_some pub).
Proof.
  intros Hwf old pub. destruct (wf_snoc _ _ Hwf) as [Hwp Hlt].
  (* the state before the cycle from the invariant after pre; the targets and the designation
     of the new link from the invariant after pre ++ [c] *)
  destruct (inv_reach sh op pre Hwp) as [_ _ Hro Hlk Hlmt Htr _].
  destruct (inv_reach sh op _ Hwf) as [_ Hts _ Hlk' _ _ _].
  unfold last_out. rewrite st_after_snoc, step_eq in *. rewrite Hro, Hlk in *.
  eexists _, (touched _ c). split; [exact Hts|]. cbn [touched lk_tgt lk_trans lk_lmt].
  rewrite Hlk. fold old. destruct (bound_ticked old c); repeat split; try lia; assumption.
Qed.

Lemma ticked_cycle sh op pre c j :
  wf (pre ++ [c]) ->
  spec_sel op (pre ++ [c]) = spec_sel op pre -> spec_sel op pre = Some j -> ticks c j = true ->
  o_cons (last_out sh op pre c) =
  consumers true (c_poke c) (c_force c) (read_direct (spec_tgt sh j (pre ++ [c]))).
Proof.
  intros Hwf Hsame Hold Htk.
  destruct (last_cycle sh op pre c Hwf) as (ts & l1 & Hts & Hl1 & Htr & Hlm & _ & ->).
  rewrite (pub_same _ _ _ Hsame), Hold in *. simpl in Hlm. rewrite Htk in Hlm.
  destruct (spec_tgt_ticked sh j pre c Htk) as [p Ep].
  cbn [o_cons fst bound_ticked]. rewrite Htk. rewrite <- Hts in * by (eapply spec_sel_lt3; eassumption).
  f_equal. eapply read_ticked; eauto. lia.
Qed.

Lemma retarget_cycle sh op pre c j :
  wf (pre ++ [c]) ->
  spec_sel op (pre ++ [c]) = Some j -> spec_sel op pre <> Some j ->
  tvalid (spec_tgt sh j (pre ++ [c])) = true ->
  o_ref (last_out sh op pre c) = true /\
  o_cons (last_out sh op pre c) =
  consumers true (c_poke c) (c_force c)
            (sampled sh (c_t c) (old_view sh (spec_sel op pre) pre) (old_stale sh (spec_sel op pre) pre c)
                     (tval (spec_tgt sh j (pre ++ [c])))).
Proof.
  intros Hwf Hcur Hne Hv.
  destruct (last_cycle sh op pre c Hwf) as (ts & l1 & Hts & Hl1 & _ & _ & _ & ->).
  rewrite (pub_retarget _ _ _ _ Hcur Hne). split; [reflexivity|]. cbn [o_cons is_some].
  assert (Hj := spec_sel_lt3 _ _ _ Hcur).
  pose proof (spec_tgt_lmt_le sh j _ Hwf) as Hle. rewrite last_t_snoc in Hle.
  destruct (read_rebind sh op (c_t c) ts j l1) as [-> ->]; rewrite ?Hl1, ?Hts; try assumption.
  rewrite orb_true_r. do 2 f_equal; unfold old_view, old_stale.
  all: destruct (spec_sel op pre) as [i|] eqn:Eo; [|unfold contents_before; simpl; now destruct (c_t c)].
  all: rewrite Hts by eauto using spec_sel_lt3.
  - apply before_cycle_spec, Hwf.
  - apply before_cycle_spec, Hwf.
Qed.

Lemma insert_wf op s w lo t l :
  lo < t -> wf_from lo (map (cyc_at op s w) l) -> wf_from lo (map (cyc_at op s w) (insert_uniq t l)).
Proof.
  revert lo; induction l as [|x r IH]; intros lo Hlo Hs; simpl in *; [auto|].
  destruct Hs as [H1 H2]. destruct (t <? x) eqn:E1; [simpl; repeat split; auto; lia|].
  destruct (t =? x) eqn:E2; simpl; [auto|]. split; [exact H1|]. apply IH; [lia|exact H2].
Qed.

Lemma times_wf op s e w w' lo : lo < s -> wf_from lo (map (cyc_at op s w') (times op s e w)).
Proof.
  intros Hlo. unfold times.
  assert (H0 : wf_from lo (map (cyc_at op s w') (if nested_consumers op && (s <? e) then [s] else [])))
    by (destruct (_ && _); simpl; auto).
  revert H0. generalize (if nested_consumers op && (s <? e) then [s] else []) as acc.
  induction w as [|l w IH]; intros acc Ha; simpl; [exact Ha|].
  apply IH. destruct (script_line l) as [[[k t] p]|]; [|exact Ha].
  destruct (wired op k && (s <=? t) && (t <? e)) eqn:E; [|exact Ha].
  apply insert_wf; [lia|exact Ha].
Qed.

Lemma run_ref_is_run w :
  run_ref w = flat_map enc_cout (snd (run (fst (fst (decode w))) (snd (fst (decode w))) s0 (snd (decode w)))).
Proof. unfold run_ref. destruct (decode w) as [[sh op] cs]. reflexivity. Qed.
