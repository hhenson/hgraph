(* InternWf.v — the rank graph of a wired state is well formed (all edge endpoints are instances), so the
   hypothesis [rg_wf g] of the theorems about [kahn] is met by every graph [compile] ranks; the dependencies
   of the service rank contract are among its edges. *)
Require Import Base Rank RankLemmas RankFacts Intern InternFacts.
From Coq Require Import Arith Permutation Lia.
Local Open Scope nat_scope.

Fixpoint peers (s : src) : list nat :=
  match s with
  | SPeer n _ _ => [n]
  | SStruct cs => flat_map peers cs
  | _ => []
  end.

Definition inputs_peers (ins : list input) : list nat := flat_map (fun i => peers (in_src i)) ins.

(* every instance number held anywhere in the state is below the number of instances *)
Record WF (w : wst) : Prop := {
  wf_env : forall l i, alookup l (w_env w) = Some i -> i < length (w_insts w);
  wf_tab : forall k i, In (k, i) (w_tab w) -> i < length (w_insts w);
  wf_ins : forall it n, In it (w_insts w) -> In n (inputs_peers (i_ins it)) -> n < length (w_insts w);
  wf_binds : forall h i q, alookup h (w_binds w) = Some (i, q) -> i < length (w_insts w);
  wf_deps : forall a b, In (a, b) (w_deps w) -> a < length (w_insts w) /\ b < length (w_insts w)
}.

Lemma wf_init : WF w0.
Proof. constructor; simpl; try discriminate; tauto. Qed.

Lemma mapM_in {A B} (f : A -> option B) cs l : mapM f cs = Some l ->
  forall y, In y l -> exists x, In x cs /\ f x = Some y.
Proof.
  revert l. induction cs as [|x r IH]; simpl; intros l H y Hy.
  - injection H as <-. destruct Hy.
  - destruct (f x) as [a|] eqn:Ea; [|discriminate]. destruct (mapM f r) as [b|] eqn:Eb; [|discriminate].
    injection H as <-. destruct Hy as [<-|Hy]; [eauto|].
    destruct (IH b eq_refl y Hy) as (x' & Hx' & Hf). eauto.
Qed.

Lemma alookup_in {B} k (l : list (nat * B)) v : alookup k l = Some v -> In (k, v) l.
Proof.
  induction l as [|[k' v'] r IH]; simpl; [discriminate|]. destruct (Nat.eqb_spec k' k) as [->|_]; auto.
  intros [= ->]. auto.
Qed.

Lemma resolve_peers e p s : forall r, resolve e p s = Some r ->
  forall n, In n (peers r) -> exists l, alookup l e = Some n.
Proof.
  induction s as [m q k|h q| |cs IH] using src_ind'; intros r H n Hn.
  - simpl in H. destruct (alookup m e) as [i|] eqn:E; [|discriminate]. injection H as <-.
    destruct Hn as [<-|[]]. eauto.
  - simpl in H. destruct (memb h p); [|discriminate]. injection H as <-. destruct Hn.
  - injection H as <-. destruct Hn.
  - rewrite resolve_struct in H. destruct (mapM (resolve e p) cs) as [cs'|] eqn:E; [|discriminate].
    injection H as <-. apply in_flat_map in Hn. destruct Hn as (y & Hy & Hny).
    destruct (mapM_in _ _ _ E y Hy) as (x & Hx & Hf).
    rewrite Forall_forall in IH. eapply IH; eauto.
Qed.

Lemma resolve_inputs_peers e p ins : forall rins, resolve_inputs e p ins = Some rins ->
  forall n, In n (inputs_peers rins) -> exists l, alookup l e = Some n.
Proof.
  intros rins H. apply resolve_inputs_spec in H.
  induction H as [|i ? r r' (s & Hs & ->) _ IH]; simpl; intros n Hn; [destruct Hn|].
  apply in_app_iff in Hn. destruct Hn as [Hn|Hn]; [eapply resolve_peers | eapply IH]; eauto.
Qed.

Lemma eff_inputs_peers d rins : inputs_peers (eff_inputs d rins) = inputs_peers rins.
Proof.
  unfold eff_inputs, inputs_peers. destruct (nd_uniq d); [|reflexivity].
  induction rins as [|x r IH]; simpl; congruence.
Qed.

Lemma wf_step sh w l s w' : WF w -> wire_stmt sh w l s = Ok w' -> WF w'.
Proof.
  intros F Hw. destruct (stmt_node_dec s) as [(d & ins & ->)|Hn].
  - destruct (wire_node_ok _ _ _ _ _ _ Hw) as (rins & i & R & Ee & _ & Eb & Ed & Hcase).
    assert (He : forall l0 i0, alookup l0 (w_env w') = Some i0 -> i0 = i \/ i0 < length (w_insts w)).
    { intros l0 i0. rewrite Ee, alookup_cons. destruct (l =? l0); [intros [= <-]; auto | right; eapply wf_env; eauto]. }
    destruct Hcase as [(_ & T & Ei & Et)|(_ & -> & Ei & Et)];
      constructor; rewrite ?Eb, ?Ed, Ei, ?Et; try apply F.
    + apply tab_find_some, (wf_tab _ F) in T.
      intros l0 i0 H. destruct (He l0 i0 H) as [->|H0]; auto.
    + intros l0 i0 H. rewrite app_length. destruct (He l0 i0 H); simpl; lia.
    + intros k i0 Hin. rewrite app_length. simpl.
      destruct (interns d); [destruct Hin as [[= _ <-]|Hin]; [lia|]|]; apply (wf_tab _ F) in Hin; lia.
    + (* the inputs of the new instance were resolved through the environment *)
      intros it n Hit Hn. rewrite app_length. apply in_app_iff in Hit. destruct Hit as [Hit|[<-|[]]].
      * pose proof (wf_ins _ F it n Hit Hn). lia.
      * cbn [i_ins] in Hn. rewrite eff_inputs_peers in Hn.
        destruct (resolve_inputs_peers _ _ _ _ R n Hn) as (l1 & Hl1). apply (wf_env _ F) in Hl1. lia.
    + intros h i0 q H. rewrite app_length. apply (wf_binds _ F) in H. lia.
    + intros a b H. rewrite app_length. apply (wf_deps _ F) in H. lia.
  - destruct (wire_other _ _ _ _ _ Hw Hn) as (Ei & Et & Ee & _ & (Hb & _) & Hd).
    constructor; rewrite Ei, ?Et, ?Ee; try apply F.
    + intros h i q H. destruct (Hb h i q H) as [H0|(l' & _ & H0)]; [eapply wf_binds | eapply wf_env]; eauto.
    + intros a b H. destruct (Hd a b H) as [H0|(la & lb & Ha & Hb')]; [eapply wf_deps; eauto|].
      split; eapply wf_env; eauto.
Qed.

Lemma wf_wire_prog sh prog order w : wire_prog sh prog order = Ok w -> WF w.
Proof. apply (wire_prog_ind sh prog (fun _ w => WF w)); [exact wf_init | intros; eapply wf_step; eauto]. Qed.

Lemma producers_struct binds cs :
  producers binds (SStruct cs) =
  match mapM (producers binds) cs with Some ls => Some (concat ls) | None => None end.
Proof.
  simpl. induction cs as [|x r IH]; simpl; [reflexivity|]. rewrite IH.
  destruct (producers binds x); [|reflexivity]. destruct (mapM (producers binds) r); reflexivity.
Qed.

Lemma producers_bound binds s : forall ps, producers binds s = Some ps ->
  forall p, In p ps -> In p (peers s) \/ exists h q, alookup h binds = Some (p, q).
Proof.
  induction s as [m q k|h q| |cs IH] using src_ind'; intros ps H p Hp.
  - injection H as <-. destruct Hp as [<-|[]]. left; simpl; auto.
  - simpl in H. destruct (alookup h binds) as [[i q0]|] eqn:E; [|discriminate]. injection H as <-.
    destruct Hp as [<-|[]]. right. eauto.
  - injection H as <-. destruct Hp.
  - rewrite producers_struct in H. destruct (mapM (producers binds) cs) as [ls|] eqn:E; [|discriminate].
    injection H as <-. apply in_concat in Hp. destruct Hp as (l & Hl & Hpl).
    destruct (mapM_in _ _ _ E l Hl) as (x & Hx & Hf).
    rewrite Forall_forall in IH. destruct (IH x Hx l Hf p Hpl) as [Hpe|Hb]; [|right; exact Hb].
    left. apply in_flat_map. eauto.
Qed.

Lemma input_edges_bound binds c ins : forall es, input_edges binds c ins = Some es ->
  forall p c', In (p, c') es -> c' = c /\ (In p (inputs_peers ins) \/ exists h q, alookup h binds = Some (p, q)).
Proof.
  unfold inputs_peers. induction ins as [|i r IH]; simpl; intros es H p c' Hin.
  - injection H as <-. destruct Hin.
  - rewrite in_app_iff. destruct (in_rank i).
    + destruct (producers binds (in_src i)) as [ps|] eqn:Ep; [|discriminate].
      destruct (input_edges binds c r) as [es'|] eqn:Er; [|discriminate].
      injection H as <-. apply in_app_iff in Hin. destruct Hin as [Hin|Hin].
      * apply in_map_iff in Hin. destruct Hin as (x & [= <- <-] & Hxp).
        destruct (producers_bound binds _ ps Ep x Hxp); auto.
      * destruct (IH es' eq_refl p c' Hin) as [A [B|B]]; auto.
    + destruct (IH es H p c' Hin) as [A [B|B]]; auto.
Qed.

Lemma rank_edges_bound w : WF w -> forall insts c es,
  incl insts (w_insts w) -> c + length insts <= length (w_insts w) ->
  rank_edges_from w c insts = Some es ->
  forall p c', In (p, c') es -> p < length (w_insts w) /\ c' < length (w_insts w).
Proof.
  intros F. induction insts as [|it r IH]; simpl; intros c es Hsub Hlen H p c' Hin.
  - injection H as <-. destruct Hin.
  - destruct (input_edges (w_binds w) c (i_ins it)) as [a|] eqn:Ea; [|discriminate].
    destruct (rank_edges_from w (S c) r) as [b|] eqn:Eb; [|discriminate].
    injection H as <-. apply incl_cons_inv in Hsub. destruct Hsub as [Hit Hsub].
    rewrite !in_app_iff in Hin. destruct Hin as [Hin|[Hin|Hin]].
    + destruct (input_edges_bound _ _ _ a Ea p c' Hin) as [-> [A|(h & q & B)]]; split; try lia.
      * eapply wf_ins; eauto.
      * eapply wf_binds; eauto.
    + apply in_map_iff in Hin. destruct Hin as ([x y] & [= <- <-] & Hf). apply filter_In in Hf.
      destruct Hf as [Hf _]. apply (wf_deps _ F) in Hf. split; [apply Hf | lia].
    + apply (IH (S c) b); auto. lia.
Qed.

Lemma rgraph_of_wf w g : WF w -> rgraph_of w = Some g -> rg_wf g.
Proof.
  intros F H. unfold rgraph_of in H. destruct (rank_edges_from w 0 (w_insts w)) as [es|] eqn:E; [|discriminate].
  injection H as <-. split; simpl; [apply map_length|].
  apply (rank_edges_bound w F (w_insts w) 0 es); auto using incl_refl.
Qed.

Lemma in_add_dep deps pr x : In x (add_dep deps pr) <-> In x deps \/ pr = x.
Proof.
  unfold add_dep. destruct (existsb (pair_eqb pr) deps) eqn:E; [|rewrite in_app_iff; simpl; tauto].
  split; auto. intros [H|<-]; auto. apply existsb_exists in E. destruct E as ([a b] & Hin & He).
  apply andb_true_iff in He. rewrite !Nat.eqb_eq in He. destruct pr, He. simpl in *. subst. exact Hin.
Qed.

(* the dependency one client adds at finish: none if its path has no anchor or the client is the anchor itself *)
Definition client_dep (anchors : list (nat * nat)) (cl : nat * nat * bool) : list (nat * nat) :=
  let '(p, c, rc) := cl in
  match alookup p anchors with
  | Some a => if a =? c then [] else [if rc then (c, a) else (a, c)]
  | None => []
  end.

Lemma in_client_dep anchors p c rc x : In x (client_dep anchors (p, c, rc)) <->
  exists a, alookup p anchors = Some a /\ a <> c /\ x = if rc : bool then (c, a) else (a, c).
Proof.
  cbn [client_dep]. destruct (alookup p anchors) as [a|]; [destruct (Nat.eqb_spec a c) as [->|Hne]|]; simpl.
  - split; [tauto | intros (a & [= <-] & Hne & _); destruct Hne; reflexivity].
  - split; [intros [<-|[]]; eauto | intros (a' & [= <-] & _ & ->); auto].
  - split; [tauto | intros (a & [=] & _)].
Qed.

Lemma in_apply_svc anchors clients : forall deps x,
  In x (apply_svc anchors clients deps) <-> In x deps \/ In x (flat_map (client_dep anchors) clients).
Proof.
  induction clients as [|[[p c] rc] r IH]; intros deps x; cbn [apply_svc flat_map client_dep In]; [tauto|].
  rewrite in_app_iff. destruct (alookup p anchors) as [a|]; [destruct (a =? c)|]; rewrite IH, ?in_add_dep; cbn [In]; tauto.
Qed.

Definition svc_ok (n : nat) (s : svc) : Prop :=
  (forall p i, In (p, i) (s_anchors s) -> i < n) /\ (forall p i rc, In (p, i, rc) (s_clients s) -> i < n).

Lemma collect_svc_ok prog env n : (forall l i, alookup l env = Some i -> i < n) ->
  forall order s s', svc_ok n s -> collect_svc prog order env s = Ok s' -> svc_ok n s'.
Proof.
  intros He. induction order as [|l r IH]; simpl; intros s s' Hs H.
  - injection H as <-. exact Hs.
  - destruct (nth_error prog l) as [[d ins| |h l' q|a b|p l'|p l' rc]|]; try (eapply IH; eauto; fail).
    + destruct (alookup l' env) as [i|] eqn:El; [|discriminate].
      destruct (alookup p (s_anchors s)) as [j|].
      * destruct (i =? j); [eapply IH; eauto | discriminate].
      * eapply IH; [|exact H]. destruct Hs as [Ha Hc]. split; simpl; auto.
        intros p0 i0 Hin. apply in_app_iff in Hin. destruct Hin as [Hin|[[= <- <-]|[]]]; eauto.
    + destruct (alookup l' env) as [i|] eqn:El; [|discriminate].
      eapply IH; [|exact H]. destruct Hs as [Ha Hc]. split; simpl; auto.
      intros p0 i0 rc0 Hin. apply in_app_iff in Hin. destruct Hin as [Hin|[[= <- <- <-]|[]]]; eauto.
Qed.

Lemma run_svc_ok prog order w s : WF w -> collect_svc prog order (w_env w) svc0 = Ok s -> svc_ok (length (w_insts w)) s.
Proof.
  intros F. apply (collect_svc_ok prog (w_env w) _ (wf_env _ F)). split; simpl; intros; tauto.
Qed.

Lemma wf_finalize prog order w s : WF w -> collect_svc prog order (w_env w) svc0 = Ok s -> WF (finalize w s).
Proof.
  intros F H. destruct (run_svc_ok prog order w s F H) as [Ha Hc].
  constructor; cbn [finalize w_insts w_tab w_env w_phs w_binds w_deps]; try apply F.
  intros a b Hin. apply in_apply_svc in Hin. destruct Hin as [Hin|Hin]; [apply (wf_deps _ F), Hin|].
  apply in_flat_map in Hin. destruct Hin as ([[p c] rc] & Hin & Hx).
  apply in_client_dep in Hx. destruct Hx as (an & Han & _ & E).
  apply alookup_in, Ha in Han. apply Hc in Hin. destruct rc; injection E as -> ->; auto.
Qed.

(* the graph that [compile] ranks *)
Lemma compile_graph_wf prog order w sv g :
  wire_prog true prog order = Ok w -> collect_svc prog order (w_env w) svc0 = Ok sv ->
  rgraph_of (finalize w sv) = Some g -> rg_wf g.
Proof.
  intros Hw Hs. apply rgraph_of_wf. eapply wf_finalize; eauto. eapply wf_wire_prog; eauto.
Qed.

Lemma compile_ranked prog order w g o es :
  compile prog order = Built w g o es -> kahn g = KOk o /\ is_ranking g o.
Proof.
  unfold compile. destruct (wire_prog true prog order) as [w'|c] eqn:Ew; [|discriminate].
  destruct (collect_svc prog order (w_env w') svc0) as [sv|c] eqn:Es; [|discriminate].
  unfold finish. destruct (rgraph_of (finalize w' sv)) as [g'|] eqn:Eg; [|discriminate].
  destruct (kahn g') as [o'| |] eqn:K; try discriminate.
  destruct (emit_from _ 0 _); [|discriminate]. intros [= <- <- <- <-].
  split; [exact K|]. apply kahn_sound; [|exact K]. eapply compile_graph_wf; eauto.
Qed.

Lemma rank_edges_from_deps w : forall insts c es, rank_edges_from w c insts = Some es ->
  forall a b, In (a, b) (w_deps w) -> c <= a < c + length insts -> In (b, a) es.
Proof.
  induction insts as [|it r IH]; simpl; intros c es H a b Hin Ha; [lia|].
  destruct (input_edges (w_binds w) c (i_ins it)) as [x|]; [|discriminate].
  destruct (rank_edges_from w (S c) r) as [y|] eqn:Er; [|discriminate].
  injection H as <-. rewrite !in_app_iff. right. destruct (Nat.eq_dec a c) as [->|Hne].
  - left. apply in_map_iff. exists (c, b). split; [reflexivity|].
    apply filter_In. split; [exact Hin | apply Nat.eqb_refl].
  - right. apply (IH (S c) y Er a b Hin). lia.
Qed.

(* rank edges are (producer, consumer): a receiving client comes after its anchor, a sending client before *)
Lemma service_edges_ranked prog order w sv g :
  wire_prog true prog order = Ok w -> collect_svc prog order (w_env w) svc0 = Ok sv ->
  rgraph_of (finalize w sv) = Some g ->
  forall p c rc a, In (p, c, rc) (s_clients sv) -> alookup p (s_anchors sv) = Some a -> a <> c ->
  In (if rc then (a, c) else (c, a)) (rg_edges g).
Proof.
  intros Hw Hs Hg p c rc a Hin Ha Hne.
  destruct (run_svc_ok prog order w sv (wf_wire_prog _ _ _ _ Hw) Hs) as [Hoa Hoc].
  assert (Hd : In (if rc then (c, a) else (a, c)) (w_deps (finalize w sv))).
  { apply in_apply_svc. right. apply in_flat_map. exists (p, c, rc). split; [exact Hin|]. apply in_client_dep. eauto. }
  unfold rgraph_of in Hg. destruct (rank_edges_from (finalize w sv) 0 (w_insts (finalize w sv))) as [es|] eqn:E; [|discriminate].
  injection Hg as <-. apply Hoc in Hin. apply alookup_in, Hoa in Ha.
  destruct rc; apply (rank_edges_from_deps _ _ 0 es E _ _ Hd); simpl; lia.
Qed.
