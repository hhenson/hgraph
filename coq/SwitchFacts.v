(* The mirror of switch_node.cpp refines the specification "the selected branch, alone" in
   lockstep ([refines]): abstraction [abs], invariant [Good] at cycle boundaries, [pre_ok] for the
   active graph inside a cycle, one post-condition lemma per phase over explicit records.  The
   other theorems are invariants of every reachable mirror state ([reach_inv]). *)
Require Import Base Sched SchedFacts Switch.
From Coq Require Import Sorted ZifyBool.
(* SchedFacts.Sorted; the short name now belongs to Coq's Sorted, imported after it *)
Notation SSorted := (StronglySorted ev_lt).

(* reduces the projections of the model's records where the record is explicit *)
Ltac proj := cbn [m_now m_srcs m_w m_pslot m_ninst m_out m_log m_err
                  s_now s_srcs s_cur s_ninst s_out s_outs s_cycles s_err
                  c_inst c_started c_slot c_nst c_etime i_br i_id i_state i_sch i_samp set_inst set_nst
                  fst snd negb andb orb events tags empty_sched b_sos br_body].

Lemma find_case_some k cs b : find_case k cs = Some b -> In (k, b) cs.
Proof.
  induction cs as [|[k' b'] r IH]; simpl; [discriminate|].
  destruct (k' =? k) eqn:E; [|auto]. intros [= ->]. left. f_equal. lia.
Qed.

Lemma find_case_none k cs : find_case k cs = None <-> forall b, ~ In (k, b) cs.
Proof.
  split.
  - induction cs as [|[k' b'] r IH]; simpl; [auto|].
    destruct (k' =? k) eqn:E; [discriminate|]. intros H b [[= -> _]|Hin]; [lia|exact (IH H b Hin)].
  - intros H. destruct (find_case k cs) as [b|] eqn:E; [|reflexivity]. destruct (H b (find_case_some k cs b E)).
Qed.

Lemma select_branch_none sp k :
  select_branch sp k = None <-> (forall b, ~ In (k, b) (s_cases sp)) /\ s_default sp = None.
Proof.
  unfold select_branch. rewrite <- find_case_none. destruct (find_case k (s_cases sp)).
  - split; [discriminate|intros [[=] _]].
  - split; [auto|intros [_ H]; exact H].
Qed.

(* what the abstraction keeps of the mirror's log: the recorder's lines (kinds 20, 21) and
   the cycle markers [10; t] *)
Definition is_rec (l : line) : bool := match l with k :: _ => (k =? 20) || (k =? 21) | [] => false end.
Definition outs_of (log : list line) : list line := filter is_rec log.
Definition cycles_of (log : list line) : list Z :=
  flat_map (fun l => match l with [k; t] => if k =? 10 then [t] else [] | _ => [] end) log.

Definition quiet (l : line) : Prop := outs_of [l] = [] /\ cycles_of [l] = [].

Lemma quiet_app ls log :
  Forall quiet ls -> outs_of (ls ++ log) = outs_of log /\ cycles_of (ls ++ log) = cycles_of log.
Proof.
  induction 1 as [|x r [Q1 Q2] _ [I1 I2]]; [auto|].
  unfold outs_of, cycles_of in *. simpl in *. rewrite app_nil_r in Q2. rewrite Q2.
  destruct (is_rec x); [discriminate|auto].
Qed.

(* the scheduler of a body node evaluated up to lo.  Not SchedFacts.Inv: a body node schedules
   untagged only, so the tag index, which is what Inv is about, plays no part; the slots depend
   on the bounds of the pending times, which Inv does not have: above lo, and below MAX_DT, the
   "nothing pending" value of c_nst, inst_wake and mirror_next *)
Definition Wf (lo : Z) (s : sched) : Prop :=
  SSorted (events s) /\ Forall (fun e => lo < fst e < MAX_DT) (events s).

Definition hd_time (l : list ev) : option Z := match l with [] => None | e :: _ => Some (fst e) end.

Lemma wf_empty lo : Wf lo empty_sched.
Proof. split; simpl; constructor. Qed.

Lemma wf_weaken lo lo' s : lo' <= lo -> Wf lo s -> Wf lo' s.
Proof.
  intros Hle [Hs Hf]. split; auto. eapply Forall_impl; [|exact Hf]. simpl. intros; lia.
Qed.

Lemma wf_hd lo s : Wf lo s -> forall f, hd_time (events s) = Some f -> lo < f < MAX_DT.
Proof. intros [_ Hf] f. destruct (events s); [discriminate|]. intros [= <-]. inversion Hf; auto. Qed.

Lemma wf_ins lo w s tg : Wf lo s -> lo < w < MAX_DT -> Wf lo (mkSched (ins (w, 0) (events s)) tg).
Proof.
  intros [Hs Hf] Hw. split; simpl.
  - apply sorted_ins; auto.
  - apply Forall_forall. intros x Hx. apply In_ins in Hx. destruct Hx as [->|Hx]; simpl; auto.
    rewrite Forall_forall in Hf. auto.
Qed.

Lemma wf_raise lo lo' s : Wf lo s -> (forall f, hd_time (events s) = Some f -> lo' < f) -> Wf lo' s.
Proof.
  intros [Hs Hf] Hh. split; [exact Hs|]. destruct (events s) as [|e r]; [constructor|].
  specialize (Hh _ eq_refl). rewrite Forall_forall in *. intros x Hx.
  pose proof (sorted_head_min e r x Hs Hx). pose proof (Hf x Hx). lia.
Qed.

Lemma drop_due_spec (P : ev -> Prop) now evs tg :
  SSorted evs -> Forall P evs ->
  let r := fst (drop_due now evs tg) in SSorted r /\ Forall P r /\ forall f, hd_time r = Some f -> now < f.
Proof.
  revert tg. induction evs as [|e r IH]; intros tg Hs Hp; simpl.
  - split; [constructor|]. split; [constructor|discriminate].
  - destruct (sorted_inv _ _ Hs) as [Hr _]. inversion Hp; subst.
    destruct (fst e <=? now) eqn:E; [auto|]. split; [exact Hs|]. split; [exact Hp|]. intros f [= <-]. lia.
Qed.

Lemma advance_post t s :
  Wf (t - 1) s ->
  Wf t (fst (advance t s)) /\ snd (advance t s) = hd_time (events (fst (advance t s))).
Proof.
  intros [Hs Hf]. unfold advance.
  destruct (drop_due_spec _ t (events s) (tags s) Hs Hf) as (A & B & C).
  destruct (drop_due t (events s) (tags s)) as [evs tg]; simpl in *.
  split; [apply (wf_raise (t - 1)); [split; assumption|exact C]|destruct evs; reflexivity].
Qed.

Lemma not_now_wf t s : Wf (t - 1) s -> is_scheduled_now t s = false -> Wf t s.
Proof.
  intros H Hn. apply (wf_raise (t - 1)); [exact H|]. intros f Hf. pose proof (wf_hd _ _ H f Hf).
  unfold is_scheduled_now in Hn. destruct (events s); [discriminate|]. injection Hf as <-. lia.
Qed.

(* a body never asks for a delay above D (with end_ + D <= MAX_DT its pending times stay below
   MAX_DT), nor, in its start hook, for a time in the past (schedule would ignore it;
   inst_start_fresh states the accepted case only) *)
Definition body_bounded (D : Z) (b : body) : Prop :=
  0 <= b_sd b <= D /\
  forall st wk ivs, match snd (b_step b st wk ivs) with Some d => d <= D | None => True end.

(* node.cpp evaluate_impl after the user code: the requested wake-up goes to the
   scheduler, then the node advances when its timer fired, else re-arms *)
Definition request (t : Z) (wk : option Z) (s : sched) : sched * option Z :=
  match wk with Some d => schedule t true (t + d) 0 s | None => (s, None) end.

Definition tail (t : Z) (scheduled_now : bool) (s : sched) : sched * option Z :=
  if scheduled_now then advance t s
  else (s, if is_scheduled s then Some (next_scheduled_time s) else None).

Lemma request_post t wk s D :
  Wf (t - 1) s -> match wk with Some d => d <= D | None => True end -> t + D < MAX_DT ->
  let rq := request t wk s in
  Wf (t - 1) (fst rq) /\ is_scheduled_now t (fst rq) = is_scheduled_now t s /\
  (snd rq = None \/ is_scheduled_now t s = false /\ snd rq = hd_time (events (fst rq))).
Proof.
  intros Hwf Hd HD. destruct wk as [d|]; [|simpl; auto].
  unfold request, schedule. destruct (t + d <=? t) eqn:E; [simpl; auto|].
  change (0 =? 0) with true. cbn [negb fst snd]. split; [apply wf_ins; [exact Hwf|lia]|].
  destruct Hwf as [Hs Hf]. rewrite (first_time_ins MIN_DT). unfold is_scheduled_now. cbn [events fst].
  pose proof (first_time_ins 0 (t + d, 0) (events s)) as Hm. cbn [fst] in Hm.
  destruct (ins (t + d, 0) (events s)) as [|e1 r1] eqn:Ei.
  { assert (H : In (t + d, 0) (ins (t + d, 0) (events s))) by (apply In_ins; auto). rewrite Ei in H. destruct H. }
  cbn [first_time hd_time] in *. destruct (events s) as [|e r]; cbn [first_time] in *.
  - split; [lia|]. right. split; [reflexivity|].
    replace (Z.min (t + d) (t + d) <? MAX_DT) with true by lia. f_equal. lia.
  - inversion Hf; subst. split; [lia|].
    destruct (Z.min (t + d) (fst e) <? fst e) eqn:Em; [right|left; reflexivity].
    split; [lia|]. f_equal. lia.
Qed.

Lemma tail_post t s :
  Wf (t - 1) s ->
  let tl := tail t (is_scheduled_now t s) s in
  Wf t (fst tl) /\ snd tl = hd_time (events (fst tl)) /\ (is_scheduled_now t s = false -> fst tl = s).
Proof.
  intros H. unfold tail. destruct (is_scheduled_now t s) eqn:E.
  - destruct (advance_post t s H). split; [assumption|split; [assumption|intros [=]]].
  - simpl. split; [apply not_now_wf; auto|]. split; [|reflexivity].
    unfold is_scheduled, next_scheduled_time. destruct (events s); reflexivity.
Qed.

(* one evaluation of the body node is the user's step (or none, behind the readiness gate),
   then [request], then [tail] *)
Lemma node_eval_inv t ivs i :
  let sn := is_scheduled_now t (i_sch i) in
  exists st' em wk lg,
    (wk = None \/ wk = snd (b_step (br_body (i_br i)) (i_state i) sn ivs)) /\ Forall quiet lg /\
    let rq := request t wk (i_sch i) in
    let tl := tail t sn (fst rq) in
    node_eval t ivs i =
      mkRes (mkInst (i_br i) (i_id i) st' (fst tl) (i_samp i)) lg em (opt_list (snd rq) ++ opt_list (snd tl)).
Proof.
  intros sn. unfold node_eval. fold sn.
  destruct (match ivs with [] => true | _ => forallb v_valid ivs end).
  - destruct (b_step (br_body (i_br i)) (i_state i) sn ivs) as [[st' em] wk].
    exists st', em, wk.
    destruct wk as [d|]; cbn [request]; [destruct (schedule t true (t + d) 0 (i_sch i)) as [s' p]|];
      unfold tail; cbn [fst snd]; destruct (if sn then advance t _ else _) as [s2 p2]; eexists;
      (split; [right; reflexivity|split; [|reflexivity]]); destruct em; repeat constructor.
  - exists (i_state i), None, None, []. split; [left; reflexivity|]. split; [constructor|].
    unfold tail, request. cbn [fst snd]. destruct (if sn then advance t _ else _) as [s2 p2]. reflexivity.
Qed.

Lemma node_eval_frame t ivs i :
  let r := node_eval t ivs i in
  i_br (r_inst r) = i_br i /\ i_id (r_inst r) = i_id i /\ i_samp (r_inst r) = i_samp i /\ Forall quiet (r_log r).
Proof. destruct (node_eval_inv t ivs i) as (st' & em & wk & lg & _ & Hlg & ->). simpl. auto. Qed.

Lemma node_eval_post t ivs i D :
  Wf (t - 1) (i_sch i) -> body_bounded D (br_body (i_br i)) -> t + D < MAX_DT ->
  let r := node_eval t ivs i in
  let hd := hd_time (events (i_sch (r_inst r))) in
  Wf t (i_sch (r_inst r)) /\ exists p1, r_push r = opt_list p1 ++ opt_list hd /\ (p1 = None \/ p1 = hd).
Proof.
  intros Hwf [_ Hb] HD. destruct (node_eval_inv t ivs i) as (st' & em & wk & lg & Hwk & _ & ->).
  assert (Hd : match wk with Some d => d <= D | None => True end) by (destruct Hwk as [-> | ->]; [exact I|apply Hb]).
  destruct (request_post t wk (i_sch i) D Hwf Hd HD) as (W1 & <- & Hp).
  destruct (tail_post t _ W1) as (W2 & -> & Hsame). cbn [r_inst r_push i_sch].
  split; [exact W2|]. eexists. split; [reflexivity|].
  destruct Hp as [Hp|[Hn ->]]; [left; exact Hp|right]. rewrite (Hsame Hn). reflexivity.
Qed.

(* the node's pushes while its graph evaluates: the same wake-up time f, once or twice; the first
   moves slot and cache from "now" to f, the second changes nothing *)
Lemma push_all_post t i p1 hd :
  (p1 = None \/ p1 = hd) -> (forall f, hd = Some f -> t < f < MAX_DT) ->
  push_all t (opt_list p1 ++ opt_list hd) (mkChild i true t MAX_DT t) =
    (match hd with Some f => mkChild i true f f t | None => mkChild i true t MAX_DT t end, false).
Proof.
  intros Hp Hf. destruct hd as [f|]; [specialize (Hf f eq_refl)|destruct Hp as [-> | ->]; reflexivity].
  assert (E : forall s n, (s = t /\ n = MAX_DT) \/ (s = f /\ n = f) ->
              child_schedule true t f (mkChild i true s n t) = (mkChild i true f f t, None, false)).
  { intros s n Hs. unfold child_schedule. proj. replace (Z.max f t) with f by lia.
    replace (f <? t) with false by lia. cbn [negb andb orb].
    destruct Hs as [[-> ->]|[-> ->]].
    - rewrite Z.leb_refl. replace ((t <? f) && (f <? MAX_DT)) with true by lia. reflexivity.
    - replace ((f <=? t) || (f <? f)) with false by lia. reflexivity. }
  destruct Hp as [-> | ->]; cbn [opt_list app push_all]; rewrite !E by auto; reflexivity.
Qed.

(* the active graph between cycles: its clock is the parent's, and the parent's slot and its own
   are both the node's first pending time, or both in the past when nothing is pending.  The
   third clause is not about scheduling: the inputs were sampled no later than now, so that in a
   later cycle an input reads "modified" exactly when its source ticked ([views_ticked]) *)
Definition idle_ok (now pslot : Z) (c : child) : Prop :=
  c_started c = true /\ c_etime c = now /\ i_samp (c_inst c) <= now /\ Wf now (i_sch (c_inst c)) /\
  match events (i_sch (c_inst c)) with
  | [] => pslot <= now /\ c_slot c <= now
  | e :: _ => pslot = fst e /\ c_slot c = fst e
  end.

(* the schedule state a branch graph must be in when its parent evaluates it at t:
   its node's slot says "now" exactly when the node is due.  It has no sampling clause: the
   lemmas from here to [switch_refines] carry [i_samp (c_inst c) <= t] beside it, and
   [child_evaluate_post] only passes it on into [idle_ok] *)
Definition pre_ok (t : Z) (dueb : bool) (c : child) : Prop :=
  c_started c = true /\ Wf (t - 1) (i_sch (c_inst c)) /\
  (dueb = false -> is_scheduled_now t (i_sch (c_inst c)) = false) /\
  if dueb then c_slot c = t
  else match events (i_sch (c_inst c)) with
       | [] => c_slot c < t
       | e :: _ => c_slot c = fst e
       end.

(* ... and evaluation leaves it [idle_ok], under a parent whose slot takes the wake-up handed up *)
Lemma child_evaluate_post t ivs c dueb D :
  pre_ok t dueb c -> i_samp (c_inst c) <= t -> body_bounded D (br_body (i_br (c_inst c))) -> t + D < MAX_DT ->
  let r := child_evaluate t ivs c in
  let nr := node_eval t ivs (c_inst c) in
  cr_err r = 0 /\ Forall quiet (cr_log r) /\
  c_inst (cr_child r) = (if dueb then r_inst nr else c_inst c) /\ cr_emit r = (if dueb then r_emit nr else None) /\
  cr_push r = hd_time (events (i_sch (c_inst (cr_child r)))) /\
  idle_ok t (match cr_push r with Some f => f | None => t end) (cr_child r).
Proof.
  intros (Hst & Hwf & Hnd & Hsl) Hsamp Hb HD. unfold child_evaluate. rewrite Hst. cbn [negb c_slot c_inst c_nst].
  destruct dueb.
  - rewrite Hsl, Z.eqb_refl.
    destruct (node_eval_post t ivs (c_inst c) D Hwf Hb HD) as (Wf' & p1 & -> & Hp1).
    destruct (node_eval_frame t ivs (c_inst c)) as (_ & _ & Fsamp & Hlg).
    set (nr := node_eval t ivs (c_inst c)) in *.
    pose proof (wf_hd _ _ Wf') as Hf.
    unfold set_inst. cbn [c_started c_slot c_nst c_etime]. rewrite (push_all_post t _ p1 _ Hp1 Hf).
    cbn [cr_err cr_child cr_emit cr_push cr_log]. split; [reflexivity|]. split; [repeat constructor; exact Hlg|].
    unfold idle_ok.
    destruct (events (i_sch (r_inst nr))) as [|e r0] eqn:Eev; cbn in Hf |- *;
      [|specialize (Hf _ eq_refl); replace (fst e <? MAX_DT) with true by lia];
      cbn; rewrite Eev, Fsamp; repeat split; auto; try apply Wf'; try congruence; lia.
  - specialize (Hnd eq_refl). pose proof (not_now_wf t _ Hwf Hnd) as Wf'. pose proof (wf_hd _ _ Wf') as Hf.
    destruct (events (i_sch (c_inst c))) as [|e r0] eqn:Eev; [|specialize (Hf (fst e) eq_refl)].
    all: replace (c_slot c =? t) with false by lia.
    + replace ((t <? c_slot c) && (c_slot c <? MAX_DT)) with false by lia. unfold idle_ok. cbn. rewrite Eev.
      repeat split; auto; try lia; try apply Wf'. repeat constructor.
    + replace ((t <? c_slot c) && (c_slot c <? MAX_DT)) with true by lia. unfold idle_ok. cbn. rewrite Eev, Hsl.
      replace (fst e <? MAX_DT) with true by lia. repeat split; auto; try apply Wf'. repeat constructor.
Qed.

(* how a graph gets there: its slot says "now" because of x (a notification, a sampled input)
   and follows the node's first pending time otherwise *)
Lemma pre_ok_intro t (x : bool) s0 c :
  c_started c = true -> Wf (t - 1) (i_sch (c_inst c)) ->
  match events (i_sch (c_inst c)) with [] => s0 < t | e :: _ => s0 = fst e end ->
  c_slot c = (if x then t else s0) ->
  pre_ok t (is_scheduled_now t (i_sch (c_inst c)) || x) c.
Proof.
  intros Hst Hwf Hs0 Hsl. split; [exact Hst|]. split; [exact Hwf|].
  split; [intros Hd; apply Bool.orb_false_iff in Hd; apply Hd|].
  pose proof (wf_hd _ _ Hwf) as Hh. unfold is_scheduled_now. rewrite Hsl.
  destruct (events (i_sch (c_inst c))) as [|e r]; [|specialize (Hh _ eq_refl); destruct (fst e =? t) eqn:E];
    destruct x; cbn [orb]; lia.
Qed.

Lemma child_schedule_notify now t c :
  c_started c = true -> c_etime c = now -> now <= t -> (c_slot c <= now \/ t <= c_slot c) ->
  exists c', child_schedule false t t c = (c', Some t, false) /\
             c_inst c' = c_inst c /\ c_started c' = true /\ c_etime c' = now /\ c_slot c' = t.
Proof.
  intros Hst He Hlt Hsl. unfold child_schedule. rewrite Z.max_id, He, Hst. cbn [negb andb orb].
  replace (t <? now) with false by lia.
  destruct ((c_slot c <=? now) || (t <? c_slot c)) eqn:E;
    match goal with |- context [if ?b then set_nst _ _ else _] => destruct b end;
    eexists; (split; [reflexivity|]); cbn; repeat split; auto; lia.
Qed.

Lemma sample_consumers_post t ivs c :
  c_started c = true -> c_etime c = t ->
  exists c2 ps, sample_consumers t ivs c = (c2, ps) /\ Forall (eq t) ps /\
                c_inst c2 = c_inst c /\ c_started c2 = true /\ c_etime c2 = t /\
                c_slot c2 = (if existsb v_valid ivs then t else c_slot c).
Proof.
  revert c. induction ivs as [|v r IH]; intros c Hst He; cbn [sample_consumers existsb].
  - exists c, []. repeat split; auto.
  - destruct (v_valid v); [|apply IH; auto].
    destruct (child_schedule_notify t t c Hst He (Z.le_refl t)) as (c1 & -> & I1 & S1 & T1 & L1); [lia|].
    destruct (IH c1 S1 T1) as (c2 & ps & -> & F2 & I2 & S2 & T2 & L2).
    exists c2, (t :: ps). rewrite L2, L1. repeat split; auto; try congruence. destruct (existsb v_valid r); auto.
Qed.

Lemma inst_start_fresh br id t :
  0 <= b_sd (br_body br) -> t + b_sd (br_body br) < MAX_DT ->
  inst_start t (fresh_inst br id t) =
    if b_sos (br_body br)
    then (mkInst br id 0 (mkSched [(t + b_sd (br_body br), 0)] []) t, Some (t + b_sd (br_body br)))
    else (fresh_inst br id t, None).
Proof.
  intros H0 Ht. unfold inst_start, fresh_inst, schedule. proj. destruct (b_sos (br_body br)); [|reflexivity].
  replace (t + b_sd (br_body br) <? t) with false by lia. cbn.
  replace (t + b_sd (br_body br) <? MAX_DT) with true by lia. reflexivity.
Qed.

Lemma inst_start_frame t i :
  let i' := fst (inst_start t i) in
  i_br i' = i_br i /\ i_id i' = i_id i /\ i_state i' = i_state i /\ i_samp i' = i_samp i.
Proof. unfold inst_start. destruct (b_sos _); [destruct (schedule _ _ _ _ _)|]; cbn; auto. Qed.

Lemma child_start_new br id t :
  0 < t -> 0 <= b_sd (br_body br) -> t + b_sd (br_body br) < MAX_DT ->
  child_start t (new_child br id t) =
    mkChild (fst (inst_start t (fresh_inst br id t))) true
            (if b_sos (br_body br) then t + b_sd (br_body br) else MIN_DT)
            (if b_sos (br_body br) then t + b_sd (br_body br) else MAX_DT) t.
Proof.
  intros Ht H0 HM. unfold child_start, new_child. proj. rewrite inst_start_fresh by assumption.
  set (sd := b_sd (br_body br)) in *. destruct (b_sos (br_body br)); proj.
  - unfold child_schedule. proj. replace (Z.max (t + sd) t) with (t + sd) by lia.
    replace (t + sd <? t) with false by lia. replace (MIN_DT <=? t) with true by (unfold MIN_DT; lia). proj.
    replace ((t <=? t + sd) && (t + sd <? MAX_DT)) with true by lia. reflexivity.
  - replace (t <=? MIN_DT) with false by (unfold MIN_DT; lia). reflexivity.
Qed.

Lemma view_of_sampled t s :
  view_of t t s = mkIv (is_some (fst s)) true (match fst s with Some v => v | None => 0 end).
Proof. unfold view_of. destruct (fst s); rewrite Z.eqb_refl; reflexivity. Qed.

Lemma fresh_views_mod t l :
  existsb (fun v => v_valid v && v_mod v) (map (view_of t t) l) = existsb v_valid (map (view_of t t) l).
Proof.
  induction l as [|s r IH]; simpl; auto. rewrite IH, view_of_sampled. cbn. rewrite Bool.andb_true_r. reflexivity.
Qed.

Lemma fresh_child_post sp br id t srcs :
  0 < t -> 0 <= b_sd (br_body br) -> t + b_sd (br_body br) < MAX_DT ->
  let i' := fst (inst_start t (fresh_inst br id t)) in
  let c1 := child_start t (new_child br id t) in
  exists c2 ps, sample_consumers t (views sp t srcs (c_inst c1)) c1 = (c2, ps) /\ Forall (eq t) ps /\
                c_inst c2 = i' /\ pre_ok t (due t (views sp t srcs i') i') c2.
Proof.
  intros Ht H0 HM i' c1. unfold c1. rewrite (child_start_new br id t Ht H0 HM). fold i'. cbn [c_inst].
  set (c1' := mkChild i' true _ _ t).
  destruct (sample_consumers_post t (views sp t srcs i') c1' eq_refl eq_refl)
    as (c2 & ps & E & F & I2 & S2 & _ & L2).
  exists c2, ps. split; [exact E|]. split; [exact F|]. split; [exact I2|].
  unfold due. replace (existsb _ (views sp t srcs i')) with (existsb v_valid (views sp t srcs i'))
    by (unfold views, i'; rewrite (proj2 (proj2 (proj2 (inst_start_frame t _)))); symmetry; apply fresh_views_mod).
  change (c_inst c1') with i' in I2. rewrite <- I2 at 1.
  apply (pre_ok_intro t _ (c_slot c1') c2 S2); [| |exact L2]; rewrite I2; unfold c1', i';
    rewrite inst_start_fresh by assumption; unfold MIN_DT; destruct (b_sos (br_body br)); cbn.
  - split; cbn; repeat constructor; cbn; lia.
  - apply wf_empty.
  - reflexivity.
  - exact Ht.
Qed.

(* what the specification sees of a mirror state: the instance of the graph in the active
   slot, under the active key; graph and parent slots, caches, clocks and the retired graph
   are forgotten *)
Definition abs (m : mst) : sst :=
  mkS (m_now m) (m_srcs m)
      (match w_active (m_w m), w_akey (m_w m) with
       | Some a, Some k => match getg a (m_w m) with Some c => Some (k, c_inst c) | None => None end
       | _, _ => None
       end)
      (m_ninst m) (m_out m) (outs_of (m_log m)) (cycles_of (m_log m)) (m_err m).

Definition active_inst (m : mst) : option (Z * inst) := s_cur (abs m).

Definition other_ok (w : swst) (a : bool) : Prop :=
  match getg (negb a) w with
  | None => w_prev w = None
  | Some c' => c_started c' = false /\ w_prev w = Some (negb a)
  end.

Definition srcs_ok (now : Z) (srcs : list srcv) : Prop :=
  exists s0 s1 s2, srcs = [s0; s1; s2] /\ snd s0 <= now /\ snd s1 <= now /\ snd s2 <= now.

(* at cycle boundaries.  While no branch is active the key is not valid: select_phase then
   selects on any valid key, ticked now or not, where the specification waits for a tick *)
Definition Good (D : Z) (m : mst) : Prop :=
  0 <= m_now m /\ m_err m = 0 /\ srcs_ok (m_now m) (m_srcs m) /\ o_lmt (m_out m) <= m_now m /\
  match w_active (m_w m) with
  | None => m_w m = empty_w /\ m_pslot m <= m_now m /\ fst (hd no_src (m_srcs m)) = None /\ m_out m = out0
  | Some a => exists c k, getg a (m_w m) = Some c /\ w_akey (m_w m) = Some k /\
                          idle_ok (m_now m) (m_pslot m) c /\ other_ok (m_w m) a /\
                          body_bounded D (br_body (i_br (c_inst c)))
  end.

Definition sp_bounded (D : Z) (sp : swspec) : Prop :=
  forall k br, select_branch sp k = Some br -> body_bounded D (br_body br).

Lemma getg_setg a x w : getg a (setg a x w) = x.
Proof. destruct a, w; reflexivity. Qed.
Lemma getg_setg_other a x w : getg (negb a) (setg a x w) = getg (negb a) w.
Proof. destruct a, w; reflexivity. Qed.
Lemma active_setg a x w : w_active (setg a x w) = w_active w.
Proof. destruct a, w; reflexivity. Qed.
Lemma akey_setg a x w : w_akey (setg a x w) = w_akey w.
Proof. destruct a, w; reflexivity. Qed.
Lemma prev_setg a x w : w_prev (setg a x w) = w_prev w.
Proof. destruct a, w; reflexivity. Qed.

Lemma setg_getg_id a w c : getg a w = Some c -> setg a (Some c) w = w.
Proof. destruct w, a; simpl; intros ->; reflexivity. Qed.

Lemma other_ok_setg a x w : other_ok w a -> other_ok (setg a x w) a.
Proof. unfold other_ok. rewrite getg_setg_other, prev_setg. auto. Qed.

Lemma parent_schedule_now t srcs w p n o lg :
  parent_schedule t (mkM t srcs w p n o lg 0) = mkM t srcs w t n o lg 0.
Proof.
  unfold parent_schedule. cbn. rewrite Z.ltb_irrefl.
  replace ((p <=? t) || (t <? p)) with true by lia. reflexivity.
Qed.

Lemma notify_skip sp t tks b m :
  match getg b (m_w m) with Some c => c_started c = false | None => True end -> notify_child sp t tks b m = m.
Proof. unfold notify_child. destruct (getg b (m_w m)); [intros ->|]; reflexivity. Qed.

Lemma notify_active sp t tks srcs w n o lg a c now :
  getg a w = Some c -> c_started c = true -> c_etime c = now -> now < t -> (c_slot c <= now \/ t <= c_slot c) ->
  exists c2,
    notify_child sp t tks a (mkM t srcs w t n o lg 0) = mkM t srcs (setg a (Some c2) w) t n o lg 0 /\
    c_inst c2 = c_inst c /\ c_started c2 = true /\ c_etime c2 = now /\
    c_slot c2 = (if bound_ticked sp (i_br (c_inst c)) tks then t else c_slot c).
Proof.
  intros Hg Hst He Hlt Hsl. unfold notify_child. cbn [m_w]. rewrite Hg, Hst. cbn [andb].
  destruct (bound_ticked sp (i_br (c_inst c)) tks).
  - destruct (child_schedule_notify now t c Hst He (Z.lt_le_incl _ _ Hlt) Hsl) as (c' & -> & R).
    exists c'. split; [apply parent_schedule_now|exact R].
  - exists c. rewrite (setg_getg_id a w c Hg). auto.
Qed.

(* the last hypothesis: the cycle is not later than the parent's slot ([next_ok]) *)
Lemma notify_phase sp t tks srcs w n o lg a c now p :
  getg a w = Some c -> other_ok w a -> idle_ok now p c -> now < t -> (now < p -> t <= p) ->
  exists c2,
    notify_child sp t tks true (notify_child sp t tks false (mkM t srcs w t n o lg 0)) =
      mkM t srcs (setg a (Some c2) w) t n o lg 0 /\
    c_inst c2 = c_inst c /\ c_etime c2 = now /\
    pre_ok t (is_scheduled_now t (i_sch (c_inst c)) || bound_ticked sp (i_br (c_inst c)) tks) c2.
Proof.
  intros Hg Ho (Hst & He & _ & Iwf & Iev) Hlt Hp. pose proof (wf_hd _ _ Iwf) as Hh.
  assert (Hwf : Wf (t - 1) (i_sch (c_inst c))).
  { apply (wf_raise _ _ _ Iwf). destruct (events (i_sch (c_inst c))); [discriminate|].
    intros f [= <-]. specialize (Hh _ eq_refl). lia. }
  destruct (notify_active sp t tks srcs w n o lg a c now Hg Hst He Hlt) as (c2 & E & I2 & S2 & T2 & L2).
  { destruct (events (i_sch (c_inst c))); [left; apply Iev|right]. specialize (Hh _ eq_refl). lia. }
  exists c2. split; [|split; [exact I2|split; [exact T2|]]].
  - assert (Hoff : forall m, getg (negb a) (m_w m) = getg (negb a) w -> notify_child sp t tks (negb a) m = m).
    { intros m Hm. apply notify_skip. rewrite Hm. unfold other_ok in Ho.
      destruct (getg (negb a) w); [apply Ho|exact I]. }
    destruct a.
    + rewrite Hoff by reflexivity. exact E.
    + rewrite E. apply Hoff. apply (getg_setg_other false).
  - rewrite <- I2. apply (pre_ok_intro t _ (c_slot c) c2 S2); rewrite I2; [exact Hwf| |exact L2].
    destruct (events (i_sch (c_inst c))); [lia|apply Iev].
Qed.

Lemma parent_schedule_all_now t srcs w n o lg ps :
  Forall (eq t) ps ->
  parent_schedule_all ps (mkM t srcs w t n o lg 0) = mkM t srcs w t n o lg 0.
Proof.
  induction 1 as [|p r <- _ IH]; cbn [parent_schedule_all]; [|rewrite parent_schedule_now]; auto.
Qed.

Definition reuse_slot (w : swst) : bool := match w_active w with Some a => negb a | None => false end.

(* [slots_ok] below, with the bound on the active graph's clock that child_stop tests *)
Definition store_ok (t : Z) (w : swst) : Prop :=
  match w_active w with
  | None => w = empty_w
  | Some a => exists c, getg a w = Some c /\ c_started c = true /\ c_etime c <= t /\ other_ok w a
  end.

Lemma other_ok_reuse w a : other_ok w a ->
  match w_prev w with Some p => negb (eqb p (negb a)) | None => false end = false /\
  match getg (negb a) w with Some c => c_started c | None => false end = false.
Proof. unfold other_ok. destruct (getg (negb a) w); [intros [-> ->]; rewrite eqb_reflx|intros ->]; auto. Qed.

Lemma teardown_active sh t srcs w p n o lg a c :
  w_active w = Some a -> getg a w = Some c -> c_started c = true -> c_etime c <= t ->
  switch_teardown sh true t (mkM t srcs w p n o lg 0) =
    mkM t srcs (let w1 := setg a (Some (mkChild (c_inst c) false (c_slot c) (c_nst c) t)) w in
                mkW (w_g0 w1) (w_g1 w1) None (Some a) None)
        p n (reset_out sh t o) ([23; t; i_id (c_inst c); b2z a] :: lg) 0.
Proof.
  intros Ha Hg Hs He. unfold switch_teardown, child_stop. cbn [m_w]. rewrite Ha, Hg, Hs.
  replace (t <? c_etime c) with false by lia. reflexivity.
Qed.

Lemma activate_post sp br k t srcs w n o lg :
  0 < t -> 0 <= b_sd (br_body br) -> t + b_sd (br_body br) < MAX_DT -> store_ok t w ->
  let i' := fst (inst_start t (fresh_inst br n t)) in
  exists w' c2 lg',
    activate_branch sp br k t (mkM t srcs w t n o lg 0) =
      mkM t srcs w' t (n + 1) (match w_active w with Some _ => reset_out (s_set sp) t o | None => o end)
          (lg' ++ lg) 0 /\
    Forall quiet lg' /\
    w_active w' = Some (reuse_slot w) /\ w_akey w' = Some k /\ getg (reuse_slot w) w' = Some c2 /\
    other_ok w' (reuse_slot w) /\
    c_inst c2 = i' /\ pre_ok t (due t (views sp t srcs i') i') c2.
Proof.
  intros Ht H0 HM Hs i'.
  destruct (fresh_child_post sp br n t srcs Ht H0 HM) as (c2 & ps & Esc & Fps & Fin).
  unfold store_ok in Hs. unfold reuse_slot, activate_branch. proj.
  destruct (w_active w) as [a|] eqn:Ha.
  - destruct Hs as (c & Hg & Hst & Hec & Ho). destruct (other_ok_reuse w a Ho) as [-> ->].
    eexists _, c2, [[22; t; n; b2z (negb a)]; [23; t; i_id (c_inst c); b2z a]].
    split; [|split; [repeat constructor|]].
    + rewrite (teardown_active _ t srcs _ t (n + 1) o lg a c);
        [|rewrite active_setg; reflexivity|destruct a; exact Hg|exact Hst|exact Hec].
      proj. rewrite Esc. unfold add_log, set_w. proj.
      rewrite parent_schedule_all_now by exact Fps. reflexivity.
    + destruct a; cbn; repeat split; apply Fin.
  - subst w. exists (mkW (Some c2) None (Some false) None (Some k)), c2, [[22; t; n; 0]].
    split; [|split; [repeat constructor|repeat split; apply Fin]].
    unfold switch_teardown. cbn [m_w m_err empty_w w_active w_prev getg setg w_g0 w_g1 Z.eqb negb]. rewrite Esc.
    apply parent_schedule_all_now. exact Fps.
Qed.

Lemma parent_schedule_later t p srcs w n o lg :
  (forall f, p = Some f -> t < f) ->
  parent_schedule_opt p (mkM t srcs w t n o lg 0) = mkM t srcs w (match p with Some f => f | None => t end) n o lg 0.
Proof.
  intros H. destruct p as [f|]; [specialize (H f eq_refl)|reflexivity].
  unfold parent_schedule_opt, parent_schedule. proj.
  replace (f <? t) with false by lia. rewrite Z.leb_refl. reflexivity.
Qed.

(* the node runs as if alone, and slots and clock are left as at a cycle boundary ([idle_ok];
   of the cache [c_nst] nothing is kept: child_evaluate resets it on entry) *)
Lemma eval_phase_post sp t srcs w n o lg a c D :
  w_active w = Some a -> getg a w = Some c ->
  pre_ok t (due t (views sp t srcs (c_inst c)) (c_inst c)) c -> i_samp (c_inst c) <= t ->
  body_bounded D (br_body (i_br (c_inst c))) -> t + D < MAX_DT ->
  let ac := alone_cycle sp t srcs (c_inst c) in
  exists c' lg' p',
    eval_phase sp t (mkM t srcs w t n o lg 0) =
      mkM t srcs (setg a (Some c') w) p' n
          (match snd ac with Some v => emit_out (s_set sp) t v o | None => o end) (lg' ++ lg) 0 /\
    Forall quiet lg' /\ c_inst c' = fst ac /\ idle_ok t p' c' /\ body_bounded D (br_body (i_br (c_inst c'))).
Proof.
  intros Ha Hg Hpre Hsamp Hb HD ac. unfold ac, alone_cycle.
  set (ivs := views sp t srcs (c_inst c)) in *.
  destruct (child_evaluate_post t ivs c _ D Hpre Hsamp Hb HD) as (Eerr & Hlog & Einst & Eemit & Ppush & Hidle).
  pose proof Hidle as (_ & _ & _ & Pwf & _).
  destruct (node_eval_frame t ivs (c_inst c)) as (Fbr & _ & _ & _).
  unfold eval_phase. cbn [m_w m_srcs]. rewrite Ha, Hg. fold ivs.
  set (cr := child_evaluate t ivs c) in *. rewrite Eerr, Eemit. cbn [Z.eqb negb].
  exists (cr_child cr), (rev (cr_log cr)), (match cr_push cr with Some f => f | None => t end).
  split; [|split; [apply Forall_rev; exact Hlog|split; [|split; [exact Hidle|]]]].
  - destruct (due t ivs (c_inst c)); [destruct (r_emit _)|]; unfold add_log, set_w, set_out; proj;
      apply parent_schedule_later; intros f Hf; apply (wf_hd _ _ Pwf); congruence.
  - rewrite Einst. destruct (due t ivs (c_inst c)); reflexivity.
  - rewrite Einst. destruct (due t ivs (c_inst c)); [rewrite Fbr|]; exact Hb.
Qed.

Lemma rec_commutes sp t m : m_err m = 0 -> abs (rec_phase sp t m) = spec_rec sp t (abs m).
Proof.
  intros E. unfold rec_phase, spec_rec. rewrite E. cbn [Z.eqb negb]. change (s_out (abs m)) with (m_out m).
  destruct (o_lmt (m_out m) =? t); [|reflexivity].
  unfold abs, rec_line, outs_of, cycles_of. destruct (s_set sp); reflexivity.
Qed.

Lemma good_rec sp D t m : Good D m -> Good D (rec_phase sp t m).
Proof. intros G. unfold rec_phase. destruct (negb _); [exact G|]. destruct (_ =? t); exact G. Qed.

Lemma good_active D m :
  Good D m -> option_map fst (active_inst m) = w_akey (m_w m) /\ (active_inst m = None -> m_out m = out0).
Proof.
  intros (_ & _ & _ & _ & Hact). unfold active_inst, abs. cbn [s_cur]. destruct (w_active (m_w m)).
  - destruct Hact as (c & k & -> & -> & _). split; [reflexivity|discriminate].
  - destruct Hact as (-> & _ & _ & ->). split; reflexivity.
Qed.

Lemma emit_out_lmt sh t v o : o_lmt (emit_out sh t v o) = t.
Proof. unfold emit_out. destruct sh; reflexivity. Qed.

Lemma reset_out_lmt sh t o : o_lmt o <= t -> o_lmt (reset_out sh t o) <= t.
Proof. unfold reset_out. destruct sh; simpl; lia. Qed.

(* the conclusion of [switch_refines] on a path that ends without error *)
Lemma good_step D m' s :
  abs m' = s -> Good D m' -> abs m' = s /\ (m_err m' = 0 -> Good D m') /\ (m_err m' = 0 \/ m_err m' = 2).
Proof. intros E G. split; [exact E|]. split; [intros _; exact G|left; apply G]. Qed.

Lemma eval_rec_refines sp D t srcs w n o lg a c k :
  0 < t -> t + D < MAX_DT -> srcs_ok t srcs -> o_lmt o <= t ->
  w_active w = Some a -> getg a w = Some c -> w_akey w = Some k -> other_ok w a ->
  pre_ok t (due t (views sp t srcs (c_inst c)) (c_inst c)) c -> i_samp (c_inst c) <= t ->
  body_bounded D (br_body (i_br (c_inst c))) ->
  let m1 := mkM t srcs w t n o lg 0 in
  let m' := rec_phase sp t (eval_phase sp t m1) in
  abs m' = spec_rec sp t (spec_eval sp t (abs m1)) /\ Good D m'.
Proof.
  intros Ht HD Hsrcs Ho Ha Hg Hk Hoth Hpre Hsamp Hb m1 m'.
  destruct (eval_phase_post sp t srcs w n o lg a c D Ha Hg Hpre Hsamp Hb HD)
    as (c' & lg' & p' & Eev & Hq & Hinst & Hidle & Hb').
  destruct (quiet_app lg' lg Hq) as [Qo Qc]. unfold m', m1. rewrite Eev.
  split.
  - rewrite rec_commutes by reflexivity. f_equal.
    unfold abs, spec_eval. proj.
    rewrite active_setg, akey_setg, Ha, Hk. cbv iota. rewrite getg_setg, Hg, Hinst, Qo, Qc.
    destruct (alone_cycle sp t srcs (c_inst c)). reflexivity.
  - apply good_rec. unfold Good. proj. rewrite active_setg, Ha.
    split; [lia|]. split; [reflexivity|]. split; [exact Hsrcs|]. split.
    + destruct (snd _); [rewrite emit_out_lmt; lia|exact Ho].
    + exists c', k. rewrite getg_setg, akey_setg.
      exact (conj eq_refl (conj Hk (conj Hidle (conj (other_ok_setg _ _ _ Hoth) Hb')))).
Qed.

Lemma act_path sp D t srcs w n o lg k br :
  0 < t -> t + D < MAX_DT -> srcs_ok t srcs -> o_lmt o <= t -> store_ok t w ->
  body_bounded D (br_body br) ->
  let m1 := activate_branch sp br k t (mkM t srcs w t n o lg 0) in
  let m' := rec_phase sp t (eval_phase sp t m1) in
  m_err m1 = 0 /\
  abs m' = spec_rec sp t (spec_eval sp t
             (mkS t srcs (Some (k, fst (inst_start t (fresh_inst br n t)))) (n + 1)
                  (match w_active w with Some _ => reset_out (s_set sp) t o | None => o end)
                  (outs_of lg) (cycles_of lg) 0)) /\
  Good D m'.
Proof.
  intros Ht HD Hsrcs Ho Hst Hb m1 m'.
  destruct (activate_post sp br k t srcs w n o lg Ht (proj1 (proj1 Hb)))
    as (w' & c2 & lga & Eact & Qa & Aact & Akey & Ag & Aoth & Ainst & Apre);
    [destruct Hb as [[? ?] _]; lia|exact Hst|].
  unfold m', m1. rewrite Eact. split; [reflexivity|].
  destruct (inst_start_frame t (fresh_inst br n t)) as (Fbr & _ & _ & Fsamp).
  rewrite <- Ainst in Apre, Fbr, Fsamp.
  destruct (eval_rec_refines sp D t srcs w' (n + 1)
              (match w_active w with Some _ => reset_out (s_set sp) t o | None => o end)
              (lga ++ lg) (reuse_slot w) c2 k Ht HD Hsrcs) as [Eabs HG]; auto.
  { destruct (w_active w); [apply reset_out_lmt|]; exact Ho. }
  { rewrite Fsamp. apply Z.le_refl. }
  { rewrite Fbr. exact Hb. }
  split; [|exact HG]. rewrite Eabs. do 2 f_equal.
  unfold abs. proj. rewrite Aact, Akey, Ag, Ainst.
  destruct (quiet_app lga lg Qa) as [-> ->]. reflexivity.
Qed.

(* the mirror's selection test is the specification's: a key tick that has to be selected *)
Lemma select_phase_eq sp t m :
  match w_active (m_w m) with
  | None => w_akey (m_w m) = None /\ forall k lm r, m_srcs m = (Some k, lm) :: r -> lm = t
  | Some _ => w_akey (m_w m) <> None
  end ->
  select_phase sp t m =
    match key_tick (m_srcs m) t with
    | Some k => if need_switch sp (w_akey (m_w m)) k
                then match select_branch sp k with None => set_err 2 m | Some br => activate_branch sp br k t m end
                else m
    | None => m
    end.
Proof.
  intros H. unfold select_phase, key_tick. destruct (m_srcs m) as [|[[k|] lm] r]; auto.
  destruct (w_active (m_w m)); cbn [is_some negb orb andb].
  - destruct (w_akey (m_w m)); [|destruct H; reflexivity]. rewrite Bool.orb_false_r. destruct (lm =? t); reflexivity.
  - destruct H as [-> Hl]. rewrite (Hl _ _ _ eq_refl), Z.eqb_refl. reflexivity.
Qed.

(* spec_cycle after the ticks ([spec_cycle_se]) *)
Definition spec_se (sp : swspec) (t : Z) (s : sst) : sst :=
  let s1 := spec_switch sp t s in if negb (s_err s1 =? 0) then s1 else spec_rec sp t (spec_eval sp t s1).

(* the switch node's evaluation and the recorder, from the state the notifications leave *)
Lemma switch_refines sp D t srcs w n o lg :
  0 < t < MAX_DT -> t + D < MAX_DT -> sp_bounded D sp -> srcs_ok t srcs -> o_lmt o < t ->
  match w_active w with
  | None => w = empty_w /\ (forall k lm r, srcs = (Some k, lm) :: r -> lm = t) /\ o = out0
  | Some a => exists c k0, getg a w = Some c /\ w_akey w = Some k0 /\ other_ok w a /\ c_etime c <= t /\
                           pre_ok t (due t (views sp t srcs (c_inst c)) (c_inst c)) c /\
                           i_samp (c_inst c) <= t /\ body_bounded D (br_body (i_br (c_inst c)))
  end ->
  let m := mkM t srcs w t n o lg 0 in
  let m' := rec_phase sp t (switch_evaluate sp t m) in
  abs m' = spec_se sp t (abs m) /\ (m_err m' = 0 -> Good D m') /\ (m_err m' = 0 \/ m_err m' = 2).
Proof.
  intros Ht HD Hsp Hsrcs Ho Hw m m'.
  pose proof (act_path sp D t srcs w n o lg) as Act. cbv zeta in Act. pose proof (select_phase_eq sp t m) as Sel.
  unfold m', switch_evaluate, spec_se, spec_switch. change (s_srcs (abs m)) with srcs. cbn [m_w m_srcs m] in Sel.
  destruct (w_active w) as [a|] eqn:Ha.
  - destruct Hw as (c & k0 & Hg & Hk & Hoth & Het & Hpre & Hsamp & Hb).
    assert (Habs : abs m = mkS t srcs (Some (k0, c_inst c)) n o (outs_of lg) (cycles_of lg) 0)
      by (unfold abs, m; cbn [m_w]; rewrite Ha, Hk, Hg; reflexivity).
    destruct (eval_rec_refines sp D t srcs w n o lg a c k0 (proj1 Ht) HD Hsrcs (Z.lt_le_incl _ _ Ho)
                Ha Hg Hk Hoth Hpre Hsamp Hb) as [Eabs HG].
    fold m in Eabs, HG.
    rewrite Sel by (rewrite Hk; discriminate). rewrite Habs in *. proj. cbn [option_map]. proj. rewrite Hk.
    destruct (key_tick srcs t) as [k|];
      [destruct (need_switch sp (Some k0) k); [destruct (select_branch sp k) as [br|] eqn:Esel|]|].
    + assert (Hstore : store_ok t w) by (unfold store_ok; rewrite Ha; exists c; repeat split; auto; apply Hpre).
      destruct (Act k br (proj1 Ht) HD Hsrcs (Z.lt_le_incl _ _ Ho) Hstore (Hsp k br Esel)) as (E0 & Eabs' & HG').
      fold m in E0, Eabs', HG'. rewrite E0. exact (good_step D _ _ Eabs' HG').
    + unfold abs, m. cbn. rewrite Ha, Hk, Hg. split; [reflexivity|]. split; [discriminate|right; reflexivity].
    + exact (good_step D _ _ Eabs HG).
    + exact (good_step D _ _ Eabs HG).
  - destruct Hw as (-> & Hkey & ->).
    rewrite Sel by (split; [reflexivity|exact Hkey]).
    change (abs m) with (mkS t srcs None n out0 (outs_of lg) (cycles_of lg) 0). proj.
    cbn [option_map empty_w w_akey need_switch].
    destruct (key_tick srcs t) as [k|] eqn:Ek; [destruct (select_branch sp k) as [br|] eqn:Esel|].
    + destruct (Act k br (proj1 Ht) HD Hsrcs (Z.lt_le_incl _ _ Ho) eq_refl (Hsp k br Esel)) as (E0 & Eabs' & HG').
      fold m in E0, Eabs', HG'. rewrite E0. exact (good_step D _ _ Eabs' HG').
    + cbn. split; [reflexivity|]. split; [discriminate|right; reflexivity].
    + assert (E : (o_lmt out0 =? t) = false) by lia.
      unfold m, rec_phase, spec_rec, eval_phase, spec_eval.
      cbn [m_err m_out m_w w_active empty_w s_cur s_out s_err Z.eqb negb]. rewrite E.
      split; [reflexivity|]. split; [|left; reflexivity]. intros _.
      unfold Good. proj. cbn [w_active empty_w].
      split; [lia|]. split; [reflexivity|]. split; [exact Hsrcs|]. split; [lia|].
      split; [reflexivity|]. split; [lia|]. split; [|reflexivity].
      destruct srcs as [|[[k|] lm] r]; auto. cbn in Ek. rewrite (Hkey _ _ _ eq_refl), Z.eqb_refl in Ek. discriminate.
Qed.

Lemma spec_cycle_se sp h t s :
  spec_cycle sp h t s =
    spec_se sp t (mkS t (apply_ticks t (s_srcs s) (ticks_at sp h t)) (s_cur s) (s_ninst s) (s_out s) (s_outs s)
                      (t :: s_cycles s) (s_err s)).
Proof. reflexivity. Qed.

Lemma spec_eval_err sp t s : s_err (spec_eval sp t s) = s_err s.
Proof.
  unfold spec_eval. destruct (s_cur s) as [[k i]|]; auto. destruct (alone_cycle sp t (s_srcs s) i). reflexivity.
Qed.

Lemma spec_rec_err sp t s : s_err (spec_rec sp t s) = s_err s.
Proof. unfold spec_rec. destruct (o_lmt (s_out s) =? t); reflexivity. Qed.

Lemma view_tick t samp s tk :
  snd s < t -> samp < t ->
  v_valid (view_of t samp (apply_tick t s tk)) && v_mod (view_of t samp (apply_tick t s tk)) = is_some tk.
Proof.
  intros Hs Hsamp. unfold view_of. destruct tk as [v|]; cbn.
  - rewrite Z.eqb_refl. apply Bool.orb_true_r.
  - destruct s as [[v|] lm]; cbn in *; [|reflexivity].
    replace (samp =? t) with false by lia. replace (lm =? t) with false by lia. reflexivity.
Qed.

Lemma views_ticked sp t s0 s1 s2 k0 k1 k2 i :
  (s_nts sp <= 2)%nat -> snd s0 < t -> snd s1 < t -> snd s2 < t -> i_samp i < t ->
  existsb (fun v => v_valid v && v_mod v) (views sp t (apply_ticks t [s0; s1; s2] [k0; k1; k2]) i) =
  bound_ticked sp (i_br i) [k0; k1; k2].
Proof.
  intros Hn H0 H1 H2 Hs. unfold views, bound_srcs, bound_ticked. cbn [apply_ticks].
  destruct (s_nts sp) as [|[|[|]]]; [| | |lia]; destruct (br_usekey (i_br i));
    cbn [firstn skipn app map existsb]; rewrite ?view_tick by assumption; reflexivity.
Qed.

Lemma tick_seen sp h k t v :
  (s_nts sp <= 2)%nat -> wired sp k = true -> In (k, t, v) h -> existsb is_some (ticks_at sp h t) = true.
Proof.
  intros Hn Hw Hin.
  assert (Hs : is_some (tick_of sp h k t) = true).
  { unfold tick_of. rewrite Hw. destruct (find _ h) eqn:E; [reflexivity|].
    pose proof (find_none _ _ E _ Hin) as Hf. cbn in Hf. lia. }
  assert (Hk : k = 0 \/ k = 1 \/ k = 2) by (unfold wired in Hw; lia).
  unfold ticks_at. cbn [existsb]. destruct Hk as [->|[->| ->]]; rewrite Hs, ?Bool.orb_true_r; reflexivity.
Qed.

Definition tick_step (sp : swspec) (now : Z) (acc : Z) (e : Z * Z * Z) : Z :=
  let t := snd (fst e) in
  if wired sp (fst (fst e)) && (now <? t) && (t <? acc) then t else acc.

Lemma next_tick_spec sp h now :
  (s_nts sp <= 2)%nat ->
  next_tick sp h now = MAX_DT \/
  (now < next_tick sp h now < MAX_DT /\ existsb is_some (ticks_at sp h (next_tick sp h now)) = true).
Proof.
  intros Hn. change (next_tick sp h now) with (fold_left (tick_step sp now) h MAX_DT).
  apply (fold_left_ind (tick_step sp now)
           (fun r => r = MAX_DT \/ (now < r < MAX_DT /\ existsb is_some (ticks_at sp h r) = true)));
    [|left; reflexivity].
  intros acc [[k t] v] Hin Hacc.
  unfold tick_step. cbn [fst snd]. destruct (wired sp k && (now <? t) && (t <? acc)) eqn:E; [right|exact Hacc].
  split; [destruct Hacc as [->|[? _]]; lia|]. apply (tick_seen sp h k t v Hn); [lia|exact Hin].
Qed.

Lemma good_wake D m :
  Good D m ->
  let pw := if m_now m <? m_pslot m then m_pslot m else MAX_DT in
  pw = match s_cur (abs m) with Some (_, i) => inst_wake (m_now m) i | None => MAX_DT end /\
  (pw = MAX_DT \/ (m_now m < pw < MAX_DT /\ pw = m_pslot m)).
Proof.
  intros (_ & _ & _ & _ & Hact) pw. unfold pw, abs, inst_wake. cbn [s_cur].
  destruct (w_active (m_w m)) as [a|].
  - destruct Hact as (c & k & Hg & Hk & (_ & _ & _ & Iwf & Iev) & _). rewrite Hk, Hg. cbv iota.
    pose proof (wf_hd _ _ Iwf) as Hh.
    destruct (events (i_sch (c_inst c))) as [|e r0].
    + replace (m_now m <? m_pslot m) with false by lia. auto.
    + destruct Iev as [-> _]. specialize (Hh _ eq_refl). replace (m_now m <? fst e) with true by lia.
      split; [reflexivity|right; lia].
  - destruct Hact as (_ & Hp & _). replace (m_now m <? m_pslot m) with false by lia. auto.
Qed.

Lemma next_agree sp h D m : Good D m -> mirror_next sp h m = spec_next sp h (abs m).
Proof. intros G. unfold mirror_next, spec_next. rewrite (proj1 (good_wake D m G)). reflexivity. Qed.

Lemma next_ok sp h D m :
  (s_nts sp <= 2)%nat -> Good D m ->
  let t := mirror_next sp h m in
  t <> MAX_DT ->
  m_now m < t < MAX_DT /\
  (existsb is_some (ticks_at sp h t) = true \/ m_pslot m = t) /\
  (m_now m < m_pslot m -> t <= m_pslot m).
Proof.
  intros Hn G t Ht. unfold t, mirror_next in *.
  destruct (good_wake D m G) as (_ & Hpw). destruct (next_tick_spec sp h (m_now m) Hn) as [Hnt|[Hnt Htk]].
  all: set (nt := next_tick sp h (m_now m)) in *; set (pw := if m_now m <? m_pslot m then m_pslot m else MAX_DT) in *.
  all: split; [lia|]; split; [|intros Hs; unfold pw; replace (m_now m <? m_pslot m) with true by lia; lia].
  - right. lia.
  - destruct (Z_le_gt_dec nt pw); [left; replace (Z.min nt pw) with nt by lia; exact Htk|right; lia].
Qed.

(* mirror_loop's error test, stop test and cycle, iterated without fuel (the cycle applied after
   the recursive call, in mirror_loop before).  No lemma relates the two iterations: [refines] is
   about mirror_loop / mirror_run, [reach_inv] and what follows from it about [steps] / [reach] *)
Fixpoint steps (sp : swspec) (h : hist) (end_ : Z) (n : nat) (m : mst) : mst :=
  match n with
  | O => m
  | S k =>
      let m1 := steps sp h end_ k m in
      if negb (m_err m1 =? 0) then m1 else
      let t := mirror_next sp h m1 in
      if (t =? MAX_DT) || (end_ <=? t) then m1 else mirror_cycle sp h t m1
  end.

(* from here on, and in Props/C12.v, this [reach] hides Sched.reach (the operation sequences
   of one scheduler) *)
Definition reach (sp : swspec) (h : hist) (start end_ : Z) (n : nat) : mst :=
  steps sp h end_ n (mirror_init start).

Definition cycle_due (sp : swspec) (h : hist) (end_ : Z) (m : mst) : Prop :=
  m_err m = 0 /\ mirror_next sp h m <> MAX_DT /\ mirror_next sp h m < end_.

Lemma good_init D start : 1 <= start -> Good D (mirror_init start).
Proof.
  intros Hs. unfold Good, mirror_init, out0, MIN_DT. cbn.
  split; [lia|]. split; [reflexivity|]. split; [|repeat split; lia].
  exists no_src, no_src, no_src. cbn. unfold MIN_DT. repeat split; lia.
Qed.

Section Run.
  Variables (sp : swspec) (h : hist) (D end_ : Z).
  Hypothesis Hn : (s_nts sp <= 2)%nat.
  Hypothesis Hsp : sp_bounded D sp.
  Hypothesis HeD : end_ + D <= MAX_DT.

  Lemma cycle_refines m :
    Good D m -> cycle_due sp h end_ m ->
    let t := mirror_next sp h m in
    let m' := mirror_cycle sp h t m in
    abs m' = spec_cycle sp h t (abs m) /\ (m_err m' = 0 -> Good D m') /\ (m_err m' = 0 \/ m_err m' = 2).
  Proof.
    intros HG (_ & Hne & Hend) t m'. destruct (next_ok sp h D m Hn HG Hne) as (Hlt & Hwhy & Hslot).
    fold t in Hlt, Hwhy, Hslot, Hend. clearbody t. assert (HD : t + D < MAX_DT) by lia.
    destruct m as [now srcs w pslot n o lg err].
    destruct HG as (Hnow & Herr & (s0 & s1 & s2 & Es & L0 & L1 & L2) & Hout & Hact).
    cbn [m_now m_err m_srcs m_out m_w m_pslot] in *. subst err srcs.
    rewrite spec_cycle_se. unfold m', mirror_cycle, ticks_at in *. proj.
    set (tks := [tick_of sp h 0 t; tick_of sp h 1 t; tick_of sp h 2 t]) in *.
    set (srcs' := apply_ticks t [s0; s1; s2] tks).
    assert (Hsrcs' : srcs_ok t srcs').
    { assert (Hat : forall s tk, snd s <= now -> snd (apply_tick t s tk) <= t) by (intros s [v|] Hs; cbn; lia).
      eexists _, _, _. split; [reflexivity|auto]. }
    (* whether or not a source ticked, the parent's slot says t when the notifications start:
       parent_schedule sets it, or the cycle happens because the slot was t (next_ok) *)
    replace (if existsb is_some tks then parent_schedule t _ else _) with (mkM t srcs' w t n o ([10; t] :: lg) 0)
      by (destruct (existsb is_some tks);
          [symmetry; apply parent_schedule_now|destruct Hwhy as [Hx| ->]; [discriminate|reflexivity]]).
    assert (Ht : 0 < t < MAX_DT) by lia.
    assert (Ho : o_lmt o < t) by lia.
    destruct (w_active w) as [a|] eqn:Ha.
    - destruct Hact as (c & k & Hg & Hk & Hidle & Hoth & Hb). pose proof (proj1 (proj2 (proj2 Hidle))) as Isamp.
      destruct (notify_phase sp t tks srcs' w n o ([10; t] :: lg) a c now pslot Hg Hoth Hidle (proj1 Hlt) Hslot)
        as (c2 & -> & I2 & T2 & Hpre).
      proj. rewrite !Z.eqb_refl. unfold add_log. proj. cbn [rev app].
      destruct (switch_refines sp D t srcs' (setg a (Some c2) w) n o ([11; t] :: [10; t] :: lg) Ht HD Hsp Hsrcs' Ho)
        as (Eabs & HGood).
      { rewrite active_setg, Ha. exists c2, k. rewrite getg_setg, akey_setg, I2.
        split; [reflexivity|]. split; [exact Hk|]. split; [apply other_ok_setg; exact Hoth|]. split; [lia|].
        split; [|split; [lia|exact Hb]].
        unfold due, srcs', tks. rewrite views_ticked by (auto; lia). exact Hpre. }
      split; [|exact HGood]. etransitivity; [exact Eabs|]. f_equal.
      unfold abs. proj.
      rewrite active_setg, akey_setg, Ha, Hk. cbv iota. rewrite getg_setg, Hg, I2. reflexivity.
    - destruct Hact as (-> & Hps & Hkey & ->).
      unfold notify_child. cbn [m_w getg empty_w w_g0 w_g1 m_err Z.eqb negb m_pslot]. rewrite Z.eqb_refl.
      unfold add_log. proj. cbn [rev app].
      apply (switch_refines sp D t srcs' empty_w n out0 ([11; t] :: [10; t] :: lg) Ht HD Hsp Hsrcs' Ho).
      split; [reflexivity|]. split; [|reflexivity]. intros kk lm r [= Hh _]. unfold apply_tick in Hh.
      destruct (tick_of sp h 0 t); [injection Hh as _ <-; reflexivity|].
      cbn in Hkey. rewrite Hh in Hkey. discriminate.
  Qed.

  Lemma loop_refines fuel m :
    (m_err m = 0 -> Good D m) -> abs (mirror_loop sp h end_ fuel m) = spec_loop sp h end_ fuel (abs m).
  Proof.
    revert m. induction fuel as [|f IH]; intros m HG; [reflexivity|].
    cbn [mirror_loop spec_loop]. change (s_err (abs m)) with (m_err m).
    destruct (m_err m =? 0) eqn:Eerr; cbn [negb]; [|reflexivity].
    assert (G : Good D m) by (apply HG; lia).
    rewrite <- (next_agree sp h D m G).
    destruct ((mirror_next sp h m =? MAX_DT) || (end_ <=? mirror_next sp h m)) eqn:Estop; [reflexivity|].
    destruct (cycle_refines m G) as (Eabs & HG' & _); [repeat split; lia|].
    rewrite <- Eabs. apply IH. exact HG'.
  Qed.

  Variable start : Z.
  Hypothesis Hs : 1 <= start.

  Theorem refines fuel : abs (mirror_run sp h start end_ fuel) = spec_run sp h start end_ fuel.
  Proof. apply loop_refines. intros _. apply good_init. exact Hs. Qed.

  Lemma reach_inv (P : mst -> Prop) :
    P (mirror_init start) ->
    (forall m, Good D m -> cycle_due sp h end_ m -> P m -> P (mirror_cycle sp h (mirror_next sp h m) m)) ->
    forall n, let m := reach sp h start end_ n in
    P m /\ (m_err m = 0 -> Good D m) /\ (m_err m = 0 \/ m_err m = 2).
  Proof.
    intros P0 Pstep. unfold reach. induction n as [|k (IP & IG & IE)]; cbn [steps].
    - pose proof (good_init D start Hs) as G. split; [exact P0|]. split; [intros _; exact G|left; apply G].
    - set (m := steps sp h end_ k (mirror_init start)) in *.
      destruct (m_err m =? 0) eqn:E; cbn [negb]; [|auto].
      destruct ((mirror_next sp h m =? MAX_DT) || (end_ <=? mirror_next sp h m)) eqn:Es; [auto|].
      assert (Hd : cycle_due sp h end_ m) by (repeat split; lia).
      assert (G : Good D m) by (apply IG; lia).
      split; [apply Pstep; assumption|apply (cycle_refines m G Hd)].
  Qed.

  Lemma reach_good n :
    (m_err (reach sp h start end_ n) = 0 -> Good D (reach sp h start end_ n)) /\
    (m_err (reach sp h start end_ n) = 0 \/ m_err (reach sp h start end_ n) = 2).
  Proof. apply (reach_inv (fun _ => True)); auto. Qed.

  Lemma reach_due_good n : cycle_due sp h end_ (reach sp h start end_ n) -> Good D (reach sp h start end_ n).
  Proof. intros Hd. apply reach_good, Hd. Qed.

  (* [cycle_refines] with the specification's state written out, and the two facts by which
     C12 reads the selection off it *)
  Lemma cycle_start m :
    Good D m -> cycle_due sp h end_ m ->
    let t := mirror_next sp h m in
    let s0 := mkS t (apply_ticks t (m_srcs m) (ticks_at sp h t)) (active_inst m) (m_ninst m) (m_out m)
                  (outs_of (m_log m)) (t :: cycles_of (m_log m)) 0 in
    abs (mirror_cycle sp h t m) = spec_se sp t s0 /\ key_tick (s_srcs s0) t = tick_of sp h 0 t /\
    option_map fst (active_inst m) = w_akey (m_w m) /\ m_now m < t.
  Proof.
    intros G Hdue t s0. destruct (cycle_refines m G Hdue) as (Eabs & _).
    destruct (next_ok sp h D m Hn G (proj1 (proj2 Hdue))) as ((Hlt & _) & _).
    pose proof (proj1 (good_active D m G)) as Hak.
    destruct G as (_ & Herr & (s1 & s2 & s3 & Es & L1 & _) & _). fold t in Eabs, Hlt.
    split; [rewrite Eabs, spec_cycle_se; unfold s0; cbn [abs s_err]; rewrite Herr; reflexivity|].
    split; [|split; [exact Hak|exact Hlt]].
    unfold s0, ticks_at. cbn [s_srcs]. rewrite Es. cbn [apply_ticks key_tick]. unfold apply_tick.
    destruct (tick_of sp h 0 t); [rewrite Z.eqb_refl; reflexivity|].
    destruct s1 as [[v|] lm]; [|reflexivity]. cbn in L1. replace (lm =? t) with false by lia. reflexivity.
  Qed.

  (* the counter is the id the next selection gives *)
  Definition sid_ok (s : sst) : Prop :=
    match s_cur s with Some (_, i) => i_id i < s_ninst s | None => True end.

  Lemma alone_cycle_id t srcs i : i_id (fst (alone_cycle sp t srcs i)) = i_id i.
  Proof. unfold alone_cycle. destruct (due t _ i); [apply node_eval_frame|reflexivity]. Qed.

  Lemma spec_cycle_id t s : sid_ok s -> sid_ok (spec_cycle sp h t s).
  Proof.
    intros H. rewrite spec_cycle_se. unfold spec_se. set (s0 := mkS t _ _ _ _ _ _ _). change (sid_ok s0) in H.
    assert (H1 : sid_ok (spec_switch sp t s0)).
    { unfold spec_switch. destruct (key_tick (s_srcs s0) t) as [k|]; auto.
      destruct (need_switch sp (option_map fst (s_cur s0)) k); auto.
      destruct (select_branch sp k) as [br|]; auto.
      unfold sid_ok. cbn [s_cur s_ninst]. rewrite (proj1 (proj2 (inst_start_frame t _))). cbn. lia. }
    destruct (negb (s_err (spec_switch sp t s0) =? 0)); [exact H1|].
    assert (H2 : sid_ok (spec_eval sp t (spec_switch sp t s0))).
    { unfold spec_eval, sid_ok in *.
      destruct (s_cur (spec_switch sp t s0)) as [[k i]|] eqn:Ec; [|rewrite Ec; exact I].
      pose proof (alone_cycle_id t (s_srcs (spec_switch sp t s0)) i) as Hi.
      destruct (alone_cycle sp t _ i). cbn in *. lia. }
    unfold spec_rec. destruct (_ =? t); exact H2.
  Qed.

  Lemma reach_id_ok n : sid_ok (abs (reach sp h start end_ n)).
  Proof.
    apply (reach_inv (fun m => sid_ok (abs m))); [exact I|]. intros m G Hd IH.
    rewrite (proj1 (cycle_refines m G Hd)). apply spec_cycle_id. exact IH.
  Qed.
End Run.

(* what the slot theorems of C12 say of the storage; the second part is [other_ok] written out *)
Definition slots_ok (w : swst) : Prop :=
  match w_active w with
  | None => w = empty_w
  | Some a =>
      (exists c, getg a w = Some c /\ c_started c = true) /\
      match getg (negb a) w with
      | None => w_prev w = None
      | Some c' => c_started c' = false /\ w_prev w = Some (negb a)
      end
  end.

Lemma good_slots D m : Good D m -> slots_ok (m_w m).
Proof.
  intros (_ & _ & _ & _ & H). unfold slots_ok. destruct (w_active (m_w m)) as [a|].
  - destruct H as (c & k & Hg & _ & (Ist & _) & Ho & _). split; [exists c; auto|exact Ho].
  - apply H.
Qed.

Lemma child_evaluate_stopped t ivs c :
  c_started c = false -> cr_err (child_evaluate t ivs c) = 5 /\ cr_emit (child_evaluate t ivs c) = None.
Proof. intros H. unfold child_evaluate. rewrite H. auto. Qed.

Lemma eval_phase_other sp t m a :
  w_active (m_w m) = Some a -> getg (negb a) (m_w (eval_phase sp t m)) = getg (negb a) (m_w m).
Proof.
  intros Ha. unfold eval_phase. rewrite Ha. destruct (getg a (m_w m)) as [c|]; [|reflexivity].
  set (r := child_evaluate t _ c). rewrite <- (getg_setg_other a (Some (cr_child r)) (m_w m)). f_equal.
  destruct (negb (cr_err r =? 0)), (cr_emit r), (cr_push r) as [p|]; try reflexivity;
    unfold parent_schedule_opt, parent_schedule; cbn [m_now m_pslot add_log set_w set_out];
    destruct (p <? m_now m); try reflexivity; destruct (_ || _); reflexivity.
Qed.

Lemma table_bounded D p : p_d p <= D -> 0 <= p_sd p <= D -> body_bounded D (table_body p).
Proof.
  intros H Hsd. split; [exact Hsd|]. intros st wk ivs. unfold table_body, table_step. cbn [b_step snd].
  match goal with |- context [if ?b then Some (p_d p) else None] => destruct b end; auto.
Qed.

Lemma sp_bounded_intro D sp :
  Forall (fun kb => body_bounded D (br_body (snd kb))) (s_cases sp) ->
  match s_default sp with Some b => body_bounded D (br_body b) | None => True end ->
  sp_bounded D sp.
Proof.
  intros Hc Hd k br H. unfold select_branch in H.
  destruct (find_case k (s_cases sp)) as [b|] eqn:E.
  - injection H as <-. rewrite Forall_forall in Hc. apply (Hc _ (find_case_some k _ b E)).
  - rewrite H in Hd. exact Hd.
Qed.
