(* TsdValueFacts.v — one engine cycle of the TSD storage: the invariant every operation keeps, and the step
   theorems about keys, values and modification marks that follow from it. *)
Require Import Base Coll CollFacts TsdFacts.
From Coq Require Import Arith.
Local Open Scope Z_scope.

(* between cycles: nothing is stamped later than the delta window *)
Definition CLb (s : tsd) : Prop :=
  d_lmt s <= d_dt s /\ forall i, constructed (dst s i) = true -> c_lmt (child_at s i) <= d_dt s.

(* The invariant of a cycle, against the state [a] it started from (values are compared, so the membership [V0] of the
   TSS invariant in CollFacts is not enough): [Closed] before the first mutation reaches the storage ([Fresh] there),
   [Open] after the delta window was rolled to [t] ([Mid] there).  There is no [Rolled]: an operation need not stamp
   the dictionary ([DCreate] of a live key only rolls the window).  FixedFacts.FInv is the one-phase case: a bundle
   has no window to roll. *)
Definition Closed (a s : tsd) : Prop :=
  DInv s /\ d_dt s = d_dt a /\ d_lmt s = d_lmt a /\
  forall i, dst s i = dst a i /\ dp s i = dp a i /\ child_at s i = child_at a i.

(* [vi], the value invariant of a constructed slot after the roll to [t]: its child was written in this cycle - then
   the dictionary is stamped too and a live published key is marked modified - or it is untouched and unmarked: never
   written, or the child the key had when the cycle started.  Over the values of a row, so that [open_put] can ask it
   of what a [row_put] names. *)
Definition vi (a : tsd) (t lmt : Z) (x : sstate) (k : Z) (m p : bool) (c : child) : Prop :=
    (c_lmt c = t /\ lmt = t /\ (x = SLive -> p = true -> m = true))
 \/ (c_lmt c < t /\ m = false /\ (c_valid c = false \/ exists j, dst a j = mkSlot SLive k /\ child_at a j = c)).
Definition vi_row (a : tsd) (t : Z) (s : tsd) (i : nat) : Prop :=
  forall k x, dst s i = mkSlot x k -> x <> SFree -> vi a t (d_lmt s) x k (dm s i) (dp s i) (child_at s i).

Definition Open (a : tsd) (t : Z) (s : tsd) : Prop :=
  DInv s /\ d_dt s = t /\ (forall k, inDOld s k <-> inP a k) /\ d_lmt s <= t /\ forall i, vi_row a t s i.

Definition Cyc (a : tsd) (t : Z) (s : tsd) : Prop := Closed a s \/ Open a t s.

Lemma cyc_inv a t s : Cyc a t s -> DInv s.
Proof. intros [C|O]; [apply C|apply O]. Qed.

Lemma open_step a t s s' :
  Open a t s -> DInv s' -> d_dt s' = d_dt s -> (forall k, inDOld s' k <-> inDOld s k) -> d_lmt s <= d_lmt s' <= t ->
  (forall j, drow s' j = drow s j \/ vi_row a t s' j) ->
  Open a t s'.
Proof.
  intros [T [D [O [M V]]]] T' D' O' M' R.
  split; [exact T'|]. split; [congruence|]. split; [intros k; rewrite O'; apply O|]. split; [lia|].
  intros j. destruct (R j) as [R1|R1]; [|exact R1]. unfold drow in R1. injection R1 as R1 _ _ R2 R3 R4.
  intros k x Q NF. rewrite R1 in Q. rewrite R2, R3, R4.
  destruct (V j k x Q NF) as [[A1 [A2 A3]]|B]; [left; repeat split; auto; lia|right; exact B].
Qed.

Lemma open_put a t s s' i x k m p c :
  Open a t s -> row_put s s' i x k m p c -> d_lmt s <= d_lmt s' <= t -> vi a t (d_lmt s') x k m p c -> Open a t s'.
Proof.
  intros O [T' [D' [O' [OTH [SI [<- [<- <-]]]]]]] L V. apply (open_step a t s); auto.
  intros j. destruct (Nat.eq_dec j i) as [->|E]; [right|left; apply OTH, E].
  intros k' x' Q NF. rewrite SI in Q. injection Q as <- <-. exact V.
Qed.

Lemma open_fields a t s lmt kl :
  Open a t s -> d_lmt s <= lmt <= t ->
  Open a t (mkD (d_ks s) (d_ch s) (d_add s) (d_rem s) (d_mod s) (d_pub s) (d_dt s) lmt kl).
Proof.
  intros O L. apply (open_step a t s); auto; try reflexivity.
  destruct O as [[] _]. constructor; auto.
Qed.

Lemma open_mark a t s : Open a t s -> Open a t (d_mark t s).
Proof.
  intros O. apply open_fields; auto. unfold rec_mod. destruct O as [_ [_ [_ [M _]]]].
  destruct (Z.leb_spec t (d_lmt s)); lia.
Qed.

Section Cycle.
  Variables (a : tsd) (t : Z).
  Hypothesis PT : 0 < t.
  Hypothesis CA : CLb a.
  Hypothesis DA : d_dt a < t.

  Lemma cyc_prepare s : Cyc a t s -> Open a t (d_prepare t s).
  Proof.
    intros [[T [D [L E]]]|O]; [|rewrite d_prepare_same; [exact O|apply O|destruct O as [_ [D _]]; lia]].
    destruct (d_prepare_roll t s T ltac:(lia)) as [T1 [D1 [L1 [B1 S1]]]]. destruct CA as [CL CC].
    split; [exact T1|]. split; [exact D1|]. split; [|split; [lia|]].
    - intros k. split.
      + intros [i [[Q1 [Q2 Q3]]|[Q1 Q2]]]; destruct (B1 i) as [_ [R [_ [P _]]]]; [|congruence].
        exists i. destruct (E i) as [E1 [E2 _]]. rewrite <- E1, <- E2, <- P. rewrite S1 in Q1.
        destruct (pend (dst s i)); [discriminate|auto].
      + intros [i [Q1 Q2]]. exists i. left. destruct (E i) as [E1 [E2 _]]. destruct (B1 i) as [A [_ [_ [P _]]]].
        rewrite S1, E1, Q1, P, E2. auto.
    - intros i k x Q NF. destruct (B1 i) as [_ [_ [M [_ C]]]]. destruct (E i) as [E1 [_ E3]].
      rewrite S1 in Q. destruct (pend (dst s i)) eqn:P; [inversion Q; congruence|].
      assert (XL : x = SLive) by (destruct x; auto; [congruence|rewrite Q in P; discriminate]). subst x.
      right. rewrite C, E3, M. rewrite E1 in Q. split; [|split; [reflexivity|right; exists i; auto]].
      assert (c_lmt (child_at a i) <= d_dt a); [|lia]. apply CC. rewrite Q. reflexivity.
  Qed.

  Lemma cyc_touch_mark s : Cyc a t s -> Open a t (d_touch_mark t s).
  Proof.
    intros C. pose proof (cyc_prepare s C) as O. unfold d_touch_mark, d_touch.
    destruct (negb (d_lmt (d_prepare t s) =? t)); [apply open_mark|]; exact O.
  Qed.

  Lemma cyc_at k s i s' : Cyc a t s -> tsd_at t k s = (i, s') -> Open a t s' /\ dst s' i = mkSlot SLive k.
  Proof.
    intros C. pose proof (cyc_prepare s C) as O. unfold tsd_at. (* in the goal: see [TsdFacts.zeta1] *)
    destruct (d_insert_key t k s) as [[j c] s1] eqn:IK. intros A. injection A as -> <-.
    destruct (d_insert_key_spec t k s i c s1 (proj1 O) IK) as [m p c0 R L1 AT].
    split; [|destruct c; apply R].
    assert (O2 : Open a t s1); [|destruct c; [apply open_mark|]; exact O2].
    pose proof O as [_ [_ [_ [M V]]]]. apply (open_put a t _ _ _ _ _ _ _ _ O R); [lia|]. rewrite L1.
    destruct (s_st (dst (d_prepare t s) i)) eqn:X.
    - destruct AT as [-> ->]. right. cbn. unfold MIN_DT. auto with zarith.
    - destruct AT as [A0 [-> [-> ->]]]. apply (V i k SLive A0). discriminate.
    - destruct AT as [A0 [-> A4]].
      destruct (V i k SPend A0 ltac:(discriminate)) as [[B1 [B2 _]]|[B1 [_ B3]]]; [left|right].
      + split; [exact B1|]. split; [exact B2|]. intros _ P. apply A4. auto.
      + split; [exact B1|]. split; [|exact B3]. destruct m; auto. destruct (proj1 A4 eq_refl). lia.
  Qed.

  Lemma closed_stamp s i k : Closed a s -> dst s i = mkSlot SLive k -> c_lmt (child_at s i) < t.
  Proof.
    intros [_ [_ [_ E]]] LV. destruct (E i) as [E1 [_ E3]]. destruct CA as [_ CC].
    assert (c_lmt (child_at a i) <= d_dt a); [|rewrite E3; lia]. apply CC. rewrite <- E1, LV. reflexivity.
  Qed.

  Lemma cyc_child_write i v k s :
    Cyc a t s -> dst s i = mkSlot SLive k -> Open a t (tsd_child_write t i v s).
  Proof.
    intros C LV. pose proof (cyc_inv _ _ _ C) as T. destruct (Z.lt_ge_cases (c_lmt (child_at s i)) t) as [LT|GE].
    - pose proof (cyc_prepare s C) as O. pose proof O as [_ [_ [_ [M _]]]].
      destruct (tsd_child_write_first_spec t i v k s T LV PT LT) as [L [p R]].
      assert (RM : rec_mod t (d_lmt (d_prepare t s)) = t) by (unfold rec_mod; destruct (Z.leb_spec t (d_lmt (d_prepare t s))); lia).
      apply (open_put a t _ _ _ _ _ _ _ _ O R); rewrite L, RM; [lia|]. left. auto.
    - (* a child that carries this cycle's stamp was written after the roll *)
      destruct C as [C|O]; [pose proof (closed_stamp s i k C LV); lia|]. pose proof O as [_ [_ [_ [M V]]]].
      destruct (tsd_child_write_again_spec t i v k s T LV GE) as [L R].
      apply (open_put a t _ _ _ _ _ _ _ _ O R); rewrite L; [lia|].
      destruct (V i k SLive LV ltac:(discriminate)) as [B|[B1 _]]; [left; exact B|lia].
  Qed.

  Lemma cyc_set k v s : Cyc a t s -> Open a t (tsd_set t k v s).
  Proof.
    intros C. unfold tsd_set. destruct (tsd_at t k s) as [i s1] eqn:A.
    destruct (cyc_at k s i s1 C A) as [O S]. apply (cyc_child_write i v k s1 (or_intror O) S).
  Qed.

  Lemma cyc_erase k s c s' : Cyc a t s -> tsd_erase t k s = (c, s') -> Open a t s'.
  Proof.
    intros C A. pose proof (cyc_prepare s C) as O. unfold tsd_erase in A.
    destruct (d_remove_key t k s) as [c1 s1] eqn:RK. injection A as _ <-.
    assert (O2 : Open a t s1); [|destruct c1; [apply open_mark; exact O2|apply cyc_touch_mark; right; exact O2]].
    destruct (d_remove_key_spec t k s c1 s1 (proj1 O) RK) as [|i p s1 LV L1 R]; [exact O|].
    pose proof O as [_ [_ [_ [M V]]]]. apply (open_put a t _ _ _ _ _ _ _ _ O R); [lia|]. rewrite L1.
    destruct (V i k SLive LV ltac:(discriminate)) as [[B1 [B2 _]]|[B1 [_ B3]]]; [left|right]; repeat split; auto. discriminate.
  Qed.

  Lemma cyc_clear s : Cyc a t s -> Open a t (tsd_clear t s).
  Proof.
    intros C. unfold tsd_clear, d_touch. pose proof (cyc_prepare s C) as O.
    assert (F : Open a t (fold_left (fun st k => snd (tsd_erase t k st)) (live_keys (d_ks s)) (d_prepare t s))).
    { apply fold_left_ind; [|exact O]. intros s0 k _ O0.
      destruct (tsd_erase t k s0) as [c s1] eqn:E. apply (cyc_erase k s0 c s1 (or_intror O0) E). }
    destruct (negb (d_lmt (d_prepare t s) =? t)); [apply open_mark|]; exact F.
  Qed.

  Lemma cyc_touch s : Cyc a t s -> Open a t (tsd_touch t s).
  Proof.
    intros C. pose proof (cyc_touch_mark s C) as O. unfold tsd_touch.
    destruct (d_kslmt (d_touch_mark t s) =? MIN_DT); [apply open_fields; [exact O|split; [lia|apply O]]|exact O].
  Qed.

  Lemma cyc_reserve c s : Cyc a t s -> Cyc a t (tsd_reserve c s).
  Proof.
    intros C. destruct (tsd_reserve_spec c s (cyc_inv _ _ _ C)) as [T' [D' [L' R]]].
    destruct C as [[T [D [L E]]]|O]; [left|right].
    - split; [exact T'|]. split; [congruence|]. split; [congruence|].
      intros i. pose proof (R i) as Ri. unfold drow in Ri. injection Ri as -> _ _ _ -> ->. apply E.
    - apply (open_step a t s); auto; [apply inDOld_ext, R|destruct O as [_ [_ [_ [M _]]]]; lia].
  Qed.

  Lemma cyc_write k v s : Cyc a t s -> Cyc a t (snd (tsd_write t k v s)).
  Proof.
    intros C. unfold tsd_write. destruct (find_live (d_ks s) k) as [i|] eqn:F; cbn [snd]; [|exact C].
    right. apply (cyc_child_write i v k s C), find_live_some, F.
  Qed.

  Lemma cyc_op o s : Cyc a t s -> Cyc a t (snd (tsd_op t o s)).
  Proof.
    intros C. destruct o as [k v|k| |c| |k|k v|]; cbn [tsd_op snd].
    - right. apply cyc_set, C.
    - destruct (tsd_erase t k s) as [b s'] eqn:E. right. apply (cyc_erase k s b s' C E).
    - right. apply cyc_clear, C.
    - apply cyc_reserve, C.
    - right. apply cyc_touch, C.
    - destruct (tsd_at t k s) as [i s'] eqn:E. right. apply (cyc_at k s i s' C E).
    - apply cyc_write, C.
    - exact C.
  Qed.

  Lemma cyc_cycle ops : forall s, Cyc a t s -> Cyc a t (tsd_cycle t ops s).
  Proof. apply fold_left_ind. intros s o _. apply cyc_op. Qed.

  Lemma cyc_keys s :
    Cyc a t s ->
    (forall k, In k (tsd_added t s) <-> inP s k /\ ~ inP a k) /\
    (forall k, In k (tsd_removed t s) <-> inP a k /\ ~ inP s k) /\
    (tsd_struct_current t s = false -> forall k, inP s k <-> inP a k).
  Proof.
    intros [[T [D [_ E]]]|[T [D [O _]]]].
    - assert (F : tsd_struct_current t s = false).
      { unfold tsd_struct_current. destruct (Z.eqb_spec (d_dt s) t); [lia|]. apply andb_false_r. }
      assert (V : forall k, inP s k <-> inP a k).
      { intros k. split; intros [i Q]; exists i; destruct (E i) as [E1 [E2 _]]; [rewrite <- E1, <- E2|rewrite E1, E2]; exact Q. }
      unfold tsd_added, tsd_removed. rewrite F. simpl.
      split; [|split; [|auto]]; intros k; rewrite V; tauto.
    - assert (F : tsd_struct_current t s = true).
      { unfold tsd_struct_current, MIN_DT. rewrite D, Z.eqb_refl. destruct (Z.eqb_spec t 0); [lia|reflexivity]. }
      unfold tsd_added, tsd_removed. rewrite F.
      split; [|split; [|discriminate]]; intros k.
      + rewrite (tsd_raw_added_in s k T), (inDA_iff s k T), O. reflexivity.
      + rewrite (tsd_raw_removed_in s k T), (inDR_iff s k T), O. reflexivity.
  Qed.

  Lemma cyc_clb s : Cyc a t s -> CLb s /\ d_dt s <= t.
  Proof.
    destruct CA as [C1 C2]. intros [[T [D [L E]]]|[T [D [_ [M V]]]]]; (split; [split|]); try lia.
    - intros i Ci. destruct (E i) as [E1 [_ E3]]. rewrite E3, D. apply C2. rewrite <- E1. exact Ci.
    - intros i Ci. rewrite D. destruct (dst s i) as [x k] eqn:Q.
      destruct (V i k x Q ltac:(apply constructed_iff in Ci; exact Ci)) as [[B _]|[B _]]; lia.
  Qed.
End Cycle.

Lemma clb_empty : CLb tsd_empty.
Proof.
  split; [cbn; lia|]. intros i Ci. unfold dst, slot_at in Ci. simpl in Ci. destruct i; discriminate.
Qed.

Lemma trace_cyc h : forall s t0,
  DInv s -> CLb s -> d_dt s <= t0 -> 0 <= t0 -> dincreasing t0 h ->
  forall a t ops b, In (a, t, ops, b) (tsd_trace s h) -> 0 < t /\ DInv a /\ CLb a /\ d_dt a < t /\ Cyc a t b.
Proof.
  induction h as [|[t1 ops1] r IH]; intros s t0 T CL DD P I a t ops b H; simpl in H; [contradiction|]. destruct I as [I1 I2].
  assert (C : Cyc s t1 (tsd_cycle t1 ops1 s)).
  { apply cyc_cycle; auto; try lia. left. split; [exact T|]. auto. }
  destruct H as [H|H].
  - inversion H; subst a t ops b. split; [lia|]. split; [exact T|]. split; [exact CL|]. split; [lia|exact C].
  - assert (CL1 : CLb (tsd_cycle t1 ops1 s) /\ d_dt (tsd_cycle t1 ops1 s) <= t1) by (eapply cyc_clb; eauto; lia).
    destruct CL1 as [CL1 DD1].
    apply (IH _ t1 (cyc_inv _ _ _ C) CL1 DD1 ltac:(lia) I2 a t ops b H).
Qed.

Lemma tsd_get_some s k i :
  DInv s -> dst s i = mkSlot SLive k ->
  tsd_get s k = if c_valid (child_at s i) then Some (c_val (child_at s i)) else None.
Proof.
  intros T Q. unfold tsd_get, find_live.
  rewrite (find_stored_uniq (d_ks s) k i (di_k s T)); fold (dst s i); rewrite Q; reflexivity.
Qed.

Lemma tsd_get_none s k : DInv s -> (forall i, dst s i <> mkSlot SLive k) -> tsd_get s k = None.
Proof.
  intros T N. unfold tsd_get. destruct (find_live (d_ks s) k) as [i|] eqn:F; [|reflexivity].
  exfalso. apply (N i). apply find_live_some. exact F.
Qed.

Lemma tsd_get_inP s k v :
  DInv s -> (tsd_get s k = Some v <-> exists i, dst s i = mkSlot SLive k /\ dp s i = true /\ c_val (child_at s i) = v).
Proof.
  intros T. split.
  - intros G. unfold tsd_get in G. destruct (find_live (d_ks s) k) as [i|] eqn:F; [|discriminate].
    pose proof (find_live_some _ _ _ F) as Q. fold (dst s i) in Q. exists i. split; [exact Q|].
    pose proof (di_bits s T i) as B. rewrite Q in B. destruct B as [_ [_ [_ B]]]. rewrite B. unfold dv.
    destruct (c_valid (child_at s i)); [split; congruence|discriminate].
  - intros [i [Q [P V]]]. rewrite (tsd_get_some s k i T Q).
    pose proof (di_bits s T i) as B. rewrite Q in B. destruct B as [_ [_ [_ B]]]. unfold dv in B. rewrite <- B, P, V. reflexivity.
Qed.

Section TsdTheorems.
  Variable h : list (Z * list dop).
  Hypothesis Hinc : dincreasing MIN_DT h.
  Variables (a : tsd) (t : Z) (ops : list dop) (b : tsd).
  Hypothesis Hin : In (a, t, ops, b) (tsd_trace tsd_empty h).

  Lemma trace_facts : 0 < t /\ DInv a /\ DInv b /\ CLb a /\ d_dt a < t /\ Cyc a t b.
  Proof.
    destruct (trace_cyc h tsd_empty MIN_DT dinv_empty clb_empty ltac:(cbn; lia) ltac:(unfold MIN_DT; lia) Hinc a t ops b Hin)
      as [PT [TA [CA [DA C]]]].
    pose proof (cyc_inv _ _ _ C). auto 10.
  Qed.

  Lemma modified_now : 0 < t -> d_lmt b = t -> tsd_modified t b = true.
  Proof.
    intros PT L. unfold tsd_modified, MIN_DT. rewrite L, Z.eqb_refl. destruct (Z.eqb_spec t 0); [lia|reflexivity].
  Qed.

  Lemma value_kept i k :
    dst b i = mkSlot SLive k -> dp b i = true -> ~ In k (tsd_modified_keys t b) ->
    tsd_get a k = Some (c_val (child_at b i)).
  Proof.
    destruct trace_facts as [PT [TA [TB [CA [DA C]]]]]. intros Q P NM.
    destruct C as [[_ [_ [_ E]]]|[_ [_ [_ [M V]]]]].
    - destruct (E i) as [E1 [E2 E3]]. apply (tsd_get_inP a k _ TA). exists i. rewrite <- E1, <- E2, <- E3. auto.
    - pose proof (di_bits b TB i) as B. rewrite Q in B. destruct B as [_ [_ [_ B]]]. unfold dv in B.
      destruct (V i k SLive Q ltac:(discriminate)) as [[B1 [B2 B3]]|[B1 [_ [B2|[j [J1 J2]]]]]].
      + destruct NM. unfold tsd_modified_keys. rewrite (modified_now PT B2). apply tsd_raw_modified_in. exists i. auto.
      + congruence.
      + rewrite (tsd_get_some a k j TA J1), J2, <- B, P. reflexivity.
  Qed.

  Lemma tsd_value_step_l : tsd_apply_delta_ok a t b.
  Proof.
    destruct trace_facts as [PT [TA [TB [CA [DA C]]]]].
    destruct (cyc_keys a t PT DA b C) as [_ [R _]]. intros k NR NM.
    destruct (tsd_get b k) as [v|] eqn:GB.
    - apply (tsd_get_inP b k v TB) in GB. destruct GB as [i [Q [P <-]]]. symmetry. apply (value_kept i k Q P NM).
    - destruct (tsd_get a k) as [v|] eqn:GA; [|reflexivity].
      apply (tsd_get_inP a k v TA) in GA. destruct GA as [j [J1 [J2 _]]].
      destruct (in_dec Z.eq_dec k (tsd_valid_keys b)) as [Y|N].
      + apply (tsd_valid_keys_in b k TB) in Y. destruct Y as [i [Q P]].
        assert (tsd_get b k = Some (c_val (child_at b i))) by (apply (tsd_get_inP b k _ TB); exists i; auto). congruence.
      + destruct NR. apply R. split; [exists j; auto|]. intros Y. apply N, (tsd_valid_keys_in b k TB), Y.
  Qed.

  Lemma tsd_modified_written_l k :
    In k (tsd_modified_keys t b) ->
    exists i, dst b i = mkSlot SLive k /\ c_lmt (child_at b i) = t /\ tsd_get b k = Some (c_val (child_at b i)).
  Proof.
    destruct trace_facts as [PT [TA [TB [[CL _] [DA C]]]]]. intros Hk.
    unfold tsd_modified_keys in Hk. destruct (tsd_modified t b) eqn:M; [|contradiction].
    unfold tsd_modified in M. apply andb_true_iff in M. destruct M as [_ M]. apply Z.eqb_eq in M.
    apply tsd_raw_modified_in in Hk. destruct Hk as [i [Q QM]]. exists i. split; [exact Q|].
    destruct C as [[_ [_ [L _]]]|[_ [_ [_ [_ V]]]]]; [lia|].
    destruct (V i k SLive Q ltac:(discriminate)) as [[B1 _]|[_ [B2 _]]]; [|congruence].
    split; [exact B1|]. rewrite (tsd_get_some b k i TB Q). unfold c_valid, MIN_DT. rewrite B1.
    destruct (Z.eqb_spec t 0); [lia|reflexivity].
  Qed.

  Lemma tsd_written_modified_l i k :
    dst b i = mkSlot SLive k -> c_lmt (child_at b i) = t -> In k (tsd_modified_keys t b).
  Proof.
    destruct trace_facts as [PT [TA [TB [CA [DA C]]]]]. intros Q ST.
    destruct C as [C|[_ [_ [_ [_ V]]]]]; [pose proof (closed_stamp a t CA DA b i k C Q); lia|].
    destruct (V i k SLive Q ltac:(discriminate)) as [[_ [B2 B3]]|[B1 _]]; [|lia].
    unfold tsd_modified_keys. rewrite (modified_now PT B2).
    apply tsd_raw_modified_in. exists i. split; [exact Q|]. apply B3; [reflexivity|].
    pose proof (di_bits b TB i) as B. rewrite Q in B. destruct B as [_ [_ [_ B]]]. rewrite B.
    unfold dv, c_valid, MIN_DT. rewrite ST. destruct (Z.eqb_spec t 0); [lia|reflexivity].
  Qed.
End TsdTheorems.
