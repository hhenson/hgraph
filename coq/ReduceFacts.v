(* Lemmas about the mirror model of Reduce.v (property C11).  Heap positions are read in coordinates
   (height j, offset u); resolve_aggregate, the leaf-to-root paths and "a combiner is needed here"
   are characterised once in those terms.  The invariant [tree_inv] says that a combiner is present
   exactly where it is needed and holds the fold of its interval; the structural pass and the
   evaluation pass restore it ([cycle_partial], [cycle_full]), for the model's own cycle in
   [reduce_cycle_correct]. *)
Require Import Base Reduce.
From Coq Require Import PeanoNat Lia List Bool.
Local Open Scope nat_scope.

Lemma pow2_pos n : 1 <= 2 ^ n.
Proof. induction n; simpl; lia. Qed.

Lemma pow2_S n : 2 ^ S n = 2 * 2 ^ n.
Proof. reflexivity. Qed.

Lemma pow2_ge2 n : 1 <= n -> 2 <= 2 ^ n.
Proof. destruct n; [lia|]. intros _. rewrite pow2_S. pose proof (pow2_pos n). lia. Qed.

Lemma pow2_lt_lin n : n < 2 ^ n.
Proof. induction n; simpl; lia. Qed.

Lemma pow2_half j : 1 <= j -> 2 ^ j = 2 * 2 ^ (j - 1).
Proof. destruct j; [lia|]. intros _. replace (S j - 1) with j by lia. reflexivity. Qed.

Lemma pow2_div2 j : 1 <= j -> 2 ^ j / 2 = 2 ^ (j - 1).
Proof. intros H. rewrite (pow2_half j H), Nat.mul_comm. apply Nat.div_mul. lia. Qed.

Lemma pow2_split k j : j <= k -> 2 ^ k = 2 ^ j * 2 ^ (k - j).
Proof. intros H. rewrite <- Nat.pow_add_r. f_equal. lia. Qed.

(* the heap position of the node of height j (its subtree spans 2^j leaves) and
   offset u within its level, in a tree of capacity 2^k *)
Definition pos (k j u : nat) : nat := 2 ^ (k - j) - 1 + u.

(* the last two equations: the intervals of the children are the halves of that of (j, u) *)
Lemma children k j u : 1 <= j -> j <= k -> u < 2 ^ (k - j) ->
  2 * pos k j u + 1 = pos k (j - 1) (2 * u) /\ 2 * pos k j u + 2 = pos k (j - 1) (2 * u + 1) /\
  2 * u + 1 < 2 ^ (k - (j - 1)) /\
  2 * u * 2 ^ (j - 1) = u * 2 ^ j /\ (2 * u + 1) * 2 ^ (j - 1) = u * 2 ^ j + 2 ^ (j - 1).
Proof.
  intros H1 H2 H3. unfold pos. replace (k - (j - 1)) with (S (k - j)) by lia.
  rewrite pow2_S, (pow2_half j H1). pose proof (pow2_pos (k - j)). lia.
Qed.

Lemma pos_log2 k j u : u < 2 ^ (k - j) -> Nat.log2 (pos k j u + 1) = k - j.
Proof.
  intros H. apply Nat.log2_unique; [lia|]. unfold pos. rewrite pow2_S.
  pose proof (pow2_pos (k - j)). lia.
Qed.

Lemma internals_pow2 k : internals (2 ^ k) = 2 ^ k - 1.
Proof.
  unfold internals. destruct (1 <? 2 ^ k) eqn:E; [reflexivity|].
  apply Nat.ltb_ge in E. pose proof (pow2_pos k). lia.
Qed.

Lemma pos_internal k j u : 1 <= j -> j <= k -> u < 2 ^ (k - j) -> pos k j u < internals (2 ^ k).
Proof.
  intros H1 H2 H3. rewrite internals_pow2. unfold pos.
  rewrite (pow2_split k j H2). pose proof (pow2_ge2 j H1). pose proof (pow2_pos (k - j)). nia.
Qed.

Lemma pos_leaf k u : pos k 0 u = internals (2 ^ k) + u.
Proof. rewrite internals_pow2. unfold pos. rewrite Nat.sub_0_r. reflexivity. Qed.

Lemma pos_coords k p : p < internals (2 ^ k) ->
  exists j u, 1 <= j /\ j <= k /\ u < 2 ^ (k - j) /\ p = pos k j u.
Proof.
  intros H. rewrite internals_pow2 in H.
  pose proof (Nat.log2_spec (p + 1) ltac:(lia)) as [L1 L2].
  set (d := Nat.log2 (p + 1)) in *.
  assert (Hd : d < k).
  { destruct (Nat.lt_ge_cases d k) as [|G]; [assumption|].
    pose proof (Nat.pow_le_mono_r 2 k d ltac:(lia) G). lia. }
  exists (k - d), (p + 1 - 2 ^ d). unfold pos. replace (k - (k - d)) with d by lia.
  rewrite pow2_S in L2. lia.
Qed.

Lemma pos_inj k j u j' u' : u < 2 ^ (k - j) -> u' < 2 ^ (k - j') -> j <= k -> j' <= k ->
  pos k j u = pos k j' u' -> j = j' /\ u = u'.
Proof.
  intros H3 H4 H1 H2 E.
  pose proof (pos_log2 k j u H3) as L1. rewrite E, (pos_log2 k j' u' H4) in L1.
  assert (j = j') by lia. subst j'. unfold pos in E. lia.
Qed.

Lemma pos_zero k j u : j <= k -> u < 2 ^ (k - j) -> pos k j u = 0 -> j = k /\ u = 0.
Proof.
  intros H2 H3 E. unfold pos in E. destruct (Nat.eq_dec j k) as [->|Hne]; [lia|].
  pose proof (pow2_ge2 (k - j) ltac:(lia)). lia.
Qed.

Lemma pos_deeper k j u j' u' : j' < j -> j <= k -> u < 2 ^ (k - j) -> pos k j u < pos k j' u'.
Proof.
  intros H1 H2 H3. unfold pos.
  pose proof (Nat.pow_le_mono_r 2 (S (k - j)) (k - j') ltac:(lia) ltac:(lia)) as Hm.
  rewrite pow2_S in Hm. pose proof (pow2_pos (k - j)). lia.
Qed.

Lemma interval_bound k j u : j <= k -> u < 2 ^ (k - j) -> (u + 1) * 2 ^ j <= 2 ^ k.
Proof.
  intros H1 H2. rewrite (pow2_split k j H1), (Nat.mul_comm (2 ^ j)). apply Nat.mul_le_mono_r. lia.
Qed.

(* The model runs [descend] with the capacity 2^k as fuel; a descent from height j takes at most
   j <= k < 2^k steps, which is all that [j <= f] asks. *)
Lemma descend_step : forall f j p lis, 1 <= j -> j <= f -> 2 <= lis -> lis <= 2 ^ j ->
  descend f p (2 ^ j) lis = if lis <=? 2 ^ (j - 1) then descend f (2 * p + 1) (2 ^ (j - 1)) lis else p.
Proof.
  induction f as [|f IH]; intros j p lis H1 H2 H3 H4; [lia|].
  cbn [descend]. rewrite (pow2_div2 j H1).
  destruct (lis <=? 2 ^ (j - 1)) eqn:E; [|reflexivity]. apply Nat.leb_le in E.
  (* one more unit of fuel than the left child needs changes nothing *)
  destruct (Nat.eq_dec j 1) as [->|Hj]; [simpl in E; lia|].
  rewrite (IH (j - 1)) by lia. cbn [descend]. rewrite (pow2_div2 (j - 1)) by lia. reflexivity.
Qed.

Lemma resolve_unfold k j u live : 1 <= j -> j <= k -> u < 2 ^ (k - j) ->
  resolve (2 ^ k) live (pos k j u) =
    if live <=? u * 2 ^ j then AEmpty
    else let lis := Nat.min (2 ^ j) (live - u * 2 ^ j) in
         if lis =? 1 then ALeaf (u * 2 ^ j) else ANode (descend (2 ^ k) (pos k j u) (2 ^ j) lis).
Proof.
  intros H1 H2 H3. unfold resolve.
  pose proof (pos_internal k j u H1 H2 H3) as Hi. apply Nat.leb_gt in Hi. rewrite Hi.
  rewrite (pos_log2 k j u H3), (pow2_split k j H2), Nat.div_mul by (pose proof (pow2_pos (k - j)); lia).
  replace (pos k j u + 1 - 2 ^ (k - j)) with u by (unfold pos; pose proof (pow2_pos (k - j)); lia).
  reflexivity.
Qed.

Lemma resolve_leaf_level k u live : resolve (2 ^ k) live (pos k 0 u) = if u <? live then ALeaf u else AEmpty.
Proof.
  unfold resolve. rewrite pos_leaf.
  destruct (Nat.leb_spec (internals (2 ^ k)) (internals (2 ^ k) + u)); [|lia].
  replace (internals (2 ^ k) + u - internals (2 ^ k)) with u by lia. reflexivity.
Qed.

Lemma resolve_rec k j u live : 1 <= j -> j <= k -> u < 2 ^ (k - j) ->
  resolve (2 ^ k) live (pos k j u) =
    if live <=? u * 2 ^ j then AEmpty
    else if live =? u * 2 ^ j + 1 then ALeaf (u * 2 ^ j)
    else if live <=? u * 2 ^ j + 2 ^ (j - 1) then resolve (2 ^ k) live (pos k (j - 1) (2 * u))
    else ANode (pos k j u).
Proof.
  intros H1 H2 H3. rewrite (resolve_unfold k j u live H1 H2 H3).
  destruct (children k j u H1 H2 H3) as (El & _ & Hu & Ha & _).
  pose proof (pow2_half j H1) as Hh. pose proof (pow2_pos (j - 1)). pose proof (pow2_lt_lin k).
  set (a := u * 2 ^ j) in *. cbv zeta.
  destruct (Nat.leb_spec live a); [reflexivity|].
  destruct (Nat.eqb_spec live (a + 1)) as [->|].
  { replace (Nat.min (2 ^ j) (a + 1 - a)) with 1 by lia. reflexivity. }
  destruct (Nat.eqb_spec (Nat.min (2 ^ j) (live - a)) 1); [lia|].
  rewrite descend_step by lia.
  destruct (Nat.leb_spec live (a + 2 ^ (j - 1))).
  - replace (Nat.min (2 ^ j) (live - a)) with (live - a) by lia.
    destruct (Nat.leb_spec (live - a) (2 ^ (j - 1))); [|lia].
    (* the left child is itself internal, since it holds at least two leaves *)
    assert (2 <= j) by (destruct j as [|[|j]]; simpl in *; lia).
    rewrite El, (resolve_unfold k (j - 1) (2 * u) live), Ha by lia. fold a. cbv zeta.
    destruct (Nat.leb_spec live a); [lia|].
    replace (Nat.min (2 ^ (j - 1)) (live - a)) with (live - a) by lia.
    destruct (Nat.eqb_spec (live - a) 1); [lia|reflexivity].
  - destruct (Nat.leb_spec (Nat.min (2 ^ j) (live - a)) (2 ^ (j - 1))); [lia|reflexivity].
Qed.

Lemma resolve_empty j k u live : j <= k -> u < 2 ^ (k - j) ->
  agg_empty (resolve (2 ^ k) live (pos k j u)) = (live <=? u * 2 ^ j).
Proof.
  intros H2 H3. destruct j as [|j].
  - rewrite resolve_leaf_level. change (2 ^ 0) with 1.
    destruct (Nat.ltb_spec u live), (Nat.leb_spec live (u * 1)); simpl; lia || reflexivity.
  - rewrite resolve_unfold by lia. cbv zeta.
    destruct (live <=? u * 2 ^ S j); [reflexivity|]. destruct (_ =? 1); reflexivity.
Qed.

Lemma needed_iff cf k live j u : 1 <= j -> j <= k -> u < 2 ^ (k - j) ->
  (needed cf (2 ^ k) live (pos k j u) = true <->
   (pos k j u = 0 /\ c_has_zero cf = true /\ live = 1) \/ u * 2 ^ j + 2 ^ (j - 1) < live).
Proof.
  intros H1 H2 H3. destruct (children k j u H1 H2 H3) as (El & Er & Hu & Ha0 & Ha1).
  unfold needed. rewrite El, Er, !resolve_empty, Ha0, Ha1 by lia.
  rewrite orb_true_iff, !andb_true_iff, !negb_true_iff, !Nat.eqb_eq, !Nat.leb_gt.
  pose proof (pow2_pos (j - 1)). intuition lia.
Qed.

Lemma pos_parent k j u : j < k -> u < 2 ^ (k - j) ->
  pos k j u <> 0 /\ (pos k j u - 1) / 2 = pos k (S j) (u / 2).
Proof.
  intros H1 H2. unfold pos.
  replace (k - j) with (S (k - S j)) in * by lia. rewrite pow2_S in *.
  pose proof (pow2_pos (k - S j)) as Hp. split; [lia|].
  replace (2 * 2 ^ (k - S j) - 1 + u - 1) with ((2 ^ (k - S j) - 1) * 2 + u) by lia.
  apply Nat.div_add_l. lia.
Qed.

Lemma path_up_lt n : forall fuel p q, In q (path_up fuel p n) -> q < n.
Proof.
  induction fuel as [|fuel IH]; intros p q H; [destruct H|]. cbn [path_up] in H.
  destruct p; [destruct H|]. apply in_app_iff in H. destruct H as [H|H]; [|exact (IH _ _ H)].
  destruct (Nat.ltb_spec ((S p - 1) / 2) n); [|destruct H]. destruct H as [<-|[]]. assumption.
Qed.

(* the right-hand side: (j', u') lies above (j, u) and its interval contains that of (j, u) *)
Lemma in_path_up k j' u' : 1 <= j' -> j' <= k -> u' < 2 ^ (k - j') ->
  forall fuel j u, j <= k -> u < 2 ^ (k - j) -> k - j < fuel ->
  (In (pos k j' u') (path_up fuel (pos k j u) (internals (2 ^ k))) <->
   j < j' /\ u' * 2 ^ (j' - j) <= u /\ u < (u' + 1) * 2 ^ (j' - j)).
Proof.
  intros B1 B2 B3. induction fuel as [|fuel IH]; intros j u H1 H3 H4; [lia|]. cbn [path_up].
  destruct (Nat.eq_dec j k) as [->|Hjk].
  - rewrite Nat.sub_diag in H3. simpl in H3. replace u with 0 by lia. unfold pos at 2. rewrite Nat.sub_diag. simpl. lia.
  - destruct (pos_parent k j u ltac:(lia) H3) as [Hnz Hpar]. destruct (pos k j u); [lia|]. rewrite Hpar.
    pose proof (Nat.div_mod u 2 ltac:(lia)) as Hd. pose proof (Nat.mod_upper_bound u 2 ltac:(lia)) as Hm.
    assert (Hu2 : u / 2 < 2 ^ (k - S j)).
    { replace (k - j) with (S (k - S j)) in H3 by lia. rewrite pow2_S in H3. lia. }
    pose proof (pos_internal k (S j) (u / 2) ltac:(lia) ltac:(lia) Hu2) as Hint.
    apply Nat.ltb_lt in Hint. rewrite Hint. cbn [app In]. rewrite (IH (S j) (u / 2)) by lia.
    destruct (Nat.lt_trichotomy (S j) j') as [Hlt|[<-|Hgt]].
    + replace (j' - j) with (S (j' - S j)) by lia. rewrite pow2_S.
      split; [intros [E|?]; [apply pos_inj in E; lia|lia]|lia].
    + replace (S j - j) with 1 by lia. change (2 ^ 1) with 2.
      split; [intros [E|?]; [apply pos_inj in E; try lia|lia]|intros ?; left; f_equal; lia].
    + split; [intros [E|?]; [apply pos_inj in E; lia|lia]|lia].
Qed.

Lemma leaf_path_iff k i j u : i < 2 ^ k -> 1 <= j -> j <= k -> u < 2 ^ (k - j) ->
  (In (pos k j u) (leaf_path (2 ^ k) (internals (2 ^ k)) i) <-> u * 2 ^ j <= i /\ i < (u + 1) * 2 ^ j).
Proof.
  intros Hi H1 H2 H3. unfold leaf_path.
  rewrite <- pos_leaf, (in_path_up k j u H1 H2 H3 _ 0 i), Nat.sub_0_r;
    rewrite ?Nat.sub_0_r, ?pos_leaf, ?internals_pow2; try (pose proof (pow2_lt_lin k); lia).
Qed.

Lemma leaf_path_internal k i q : i < 2 ^ k -> In q (leaf_path (2 ^ k) (internals (2 ^ k)) i) -> q < internals (2 ^ k).
Proof. intros _. apply path_up_lt. Qed.

Lemma under_interval k j u (P : nat -> Prop) : 1 <= j -> j <= k -> u < 2 ^ (k - j) ->
  (forall i, i < 2 ^ k -> In (pos k j u) (leaf_path (2 ^ k) (internals (2 ^ k)) i) -> P i) ->
  forall i, u * 2 ^ j <= i -> i < (u + 1) * 2 ^ j -> P i.
Proof.
  intros H1 H2 H3 H i A1 A2. pose proof (interval_bound k j u H2 H3).
  apply H; [lia|]. apply leaf_path_iff; auto; lia.
Qed.

Lemma needed_same cf k live live' p : p < internals (2 ^ k) ->
  (forall i, i < 2 ^ k -> In p (leaf_path (2 ^ k) (internals (2 ^ k)) i) -> (i < live' <-> i < live)) ->
  needed cf (2 ^ k) live' p = needed cf (2 ^ k) live p.
Proof.
  intros Hp Hsame. destruct (pos_coords k p Hp) as (j & u & H1 & H2 & H3 & ->).
  pose proof (under_interval k j u _ H1 H2 H3 Hsame) as Hs. cbv beta in Hs.
  pose proof (pow2_half j H1) as Hh. pose proof (pow2_pos (j - 1)).
  apply eq_true_iff_eq. rewrite !needed_iff by assumption.
  pose proof (Hs (u * 2 ^ j + 2 ^ (j - 1)) ltac:(lia) ltac:(lia)).
  assert (pos k j u = 0 -> (live' = 1 <-> live = 1)); [|tauto].
  intros E. destruct (pos_zero k j u H2 H3 E) as [-> ->].
  pose proof (pow2_ge2 k H1). pose proof (Hs 0). pose proof (Hs 1). lia.
Qed.

Lemma nth_opt_error {A} (l : list A) i : nth_opt i l = nth_error l i.
Proof. revert i. induction l as [|x r IH]; intros [|i]; simpl; auto. Qed.

Lemma nth_opt_length {A} (l : list A) i : i < length l <-> nth_opt i l <> None.
Proof. rewrite nth_opt_error. symmetry. apply nth_error_Some. Qed.

Lemma nth_opt_none {A} (l : list A) i : length l <= i <-> nth_opt i l = None.
Proof. rewrite nth_opt_error. symmetry. apply nth_error_None. Qed.

Lemma nth_opt_app_l {A} (l r : list A) i : i < length l -> nth_opt i (l ++ r) = nth_opt i l.
Proof. rewrite !nth_opt_error. apply nth_error_app1. Qed.

Lemma nth_opt_app_r {A} (l r : list A) i : length l <= i -> nth_opt i (l ++ r) = nth_opt (i - length l) r.
Proof. rewrite !nth_opt_error. apply nth_error_app2. Qed.

Lemma nth_opt_repeat {A} (v : A) n p : p < n -> nth_opt p (repeat v n) = Some v.
Proof. rewrite nth_opt_error. apply nth_error_repeat. Qed.

Lemma nth_opt_snoc_other {A} (l : list A) x j : j <> length l -> nth_opt j (l ++ [x]) = nth_opt j l.
Proof.
  intros H. destruct (Nat.lt_ge_cases j (length l)) as [Hlt|Hge]; [apply nth_opt_app_l, Hlt|].
  rewrite (proj1 (nth_opt_none l j) Hge). apply nth_opt_none. rewrite app_length. simpl. lia.
Qed.

Lemma nth_opt_set_nth_same {A} (l : list A) i v : i < length l -> nth_opt i (set_nth i v l) = Some v.
Proof.
  intros H. apply nth_opt_length in H. rewrite nth_opt_error in *.
  destruct (nth_error l i) as [x|] eqn:E; [exact (nth_error_update_same i _ l x E)|congruence].
Qed.

Lemma nth_opt_set_nth_other {A} (l : list A) i j v : i <> j -> nth_opt j (set_nth i v l) = nth_opt j l.
Proof. intros H. rewrite !nth_opt_error. apply nth_error_update_other, H. Qed.

Lemma in_concat_map {A B} (g : A -> list B) l y : In y (concat (map g l)) <-> exists x, In x l /\ In y (g x).
Proof. rewrite <- flat_map_concat_map. apply in_flat_map. Qed.

Definition seg {A} (l : list A) (a m : nat) : list A := firstn m (skipn a l).

Lemma seg_S {A} (l : list A) a s :
  seg l a (S s) = match nth_opt a l with Some x => x :: seg l (S a) s | None => [] end.
Proof.
  unfold seg. revert a. induction l as [|x r IH]; intros [|a]; simpl; try reflexivity. apply IH.
Qed.

Lemma seg_split {A} (l : list A) a m1 m2 : seg l a (m1 + m2) = seg l a m1 ++ seg l (a + m1) m2.
Proof.
  unfold seg. replace (skipn (a + m1) l) with (skipn m1 (skipn a l)).
  - generalize (skipn a l) as r. induction m1 as [|m IH]; intros [|x r]; simpl; try reflexivity.
    + destruct m2; reflexivity.
    + f_equal. apply IH.
  - revert l. induction a as [|a IH]; intros [|x l]; simpl; try reflexivity; [destruct m1; reflexivity|apply IH].
Qed.

Lemma seg_ext {A} (l l' : list A) : forall s a,
  (forall i, a <= i -> i < a + s -> nth_opt i l = nth_opt i l') -> seg l a s = seg l' a s.
Proof.
  induction s as [|s IH]; intros a H; [reflexivity|].
  rewrite !seg_S, <- (H a) by lia. destruct (nth_opt a l); [|reflexivity].
  f_equal. apply IH. intros i H1 H2. apply H; lia.
Qed.

Lemma seg_min {A} (l : list A) a s : seg l a (Nat.min s (length l - a)) = seg l a s.
Proof. unfold seg. rewrite <- skipn_length, <- firstn_firstn. f_equal. apply firstn_all. Qed.

Lemma insert_desc_in x l y : In y (insert_desc x l) <-> y = x \/ In y l.
Proof.
  induction l as [|z r IH]; simpl; [intuition|].
  destruct (z <? x); [simpl; intuition|].
  destruct (Nat.eqb_spec z x); simpl; [|rewrite IH]; intuition.
Qed.

Inductive desc_sorted : list nat -> Prop :=
| ds_nil : desc_sorted []
| ds_cons : forall x l, (forall y, In y l -> y < x) -> desc_sorted l -> desc_sorted (x :: l).

Lemma insert_desc_sorted x l : desc_sorted l -> desc_sorted (insert_desc x l).
Proof.
  induction 1 as [|z r Hz Hr IH]; simpl.
  - constructor; [intros y []|constructor].
  - destruct (Nat.ltb_spec z x).
    + constructor; [|constructor; assumption].
      intros y [->|Hy]; [assumption|]. specialize (Hz y Hy). lia.
    + destruct (Nat.eqb_spec z x); constructor; try assumption.
      intros y Hy. apply insert_desc_in in Hy. destruct Hy as [->|Hy]; [lia|auto].
Qed.

Lemma sort_desc_unique_in l y : In y (sort_desc_unique l) <-> In y l.
Proof.
  unfold sort_desc_unique. induction l as [|x r IH]; simpl; [tauto|].
  rewrite insert_desc_in, IH. intuition.
Qed.

Lemma sort_desc_unique_sorted l : desc_sorted (sort_desc_unique l).
Proof. unfold sort_desc_unique. induction l; simpl; [constructor|apply insert_desc_sorted; assumption]. Qed.

Lemma down_from_in n y : In y (down_from n) <-> y < n.
Proof. induction n; simpl; [lia|]. rewrite IHn. lia. Qed.

Lemma down_from_sorted n : desc_sorted (down_from n).
Proof. induction n; simpl; constructor; [|assumption]. intros y Hy. apply down_from_in in Hy. exact Hy. Qed.

Lemma desc_sorted_filter g l : desc_sorted l -> desc_sorted (filter g l).
Proof.
  induction 1 as [|x r Hx Hr IH]; simpl; [constructor|].
  destruct (g x); [|assumption]. constructor; [|assumption].
  intros y Hy. apply filter_In in Hy. apply Hx. tauto.
Qed.

Section Phase1.
Variable cf : cfg.

Definition fresh_comb : comb := mkComb SNone SNone None false.

Lemma phase1_at_spec C live combs cr rt q :
  exists combs' cr' rt', phase1_at cf C live (combs, cr, rt) q = (combs', cr', rt') /\
    length combs' = length combs /\
    (forall p, p <> q -> nth_opt p combs' = nth_opt p combs) /\
    (q < length combs -> present combs' q = needed cf C live q) /\
    (forall c, nth_opt q combs' = Some (Some c) -> nth_opt q combs = Some (Some c) \/ c = fresh_comb).
Proof.
  pose proof (proj2 (nth_opt_length combs q)) as Hq. unfold phase1_at, present, fresh_comb.
  destruct (nth_opt q combs) as [[c|]|] eqn:Eq; destruct (needed cf C live q) eqn:En;
    (eexists _, _, _; split; [reflexivity|]);
    rewrite ?set_nth_length, ?nth_opt_set_nth_same, ?Eq by (apply Hq; discriminate);
    repeat split; auto using nth_opt_set_nth_other; try congruence.
  - intros c0 [= <-]. auto.
  - intros H. apply nth_opt_none in Eq. lia.
Qed.

Lemma phase1_spec C live : forall positions combs cr rt combs1 cr1 rt1,
  fold_left (phase1_at cf C live) positions (combs, cr, rt) = (combs1, cr1, rt1) ->
  length combs1 = length combs /\
  (forall p, ~ In p positions -> nth_opt p combs1 = nth_opt p combs) /\
  (forall p, In p positions -> p < length combs -> present combs1 p = needed cf C live p) /\
  (forall p c, nth_opt p combs1 = Some (Some c) -> nth_opt p combs = Some (Some c) \/ (c = fresh_comb /\ In p positions)).
Proof.
  induction positions as [|q r IH]; intros combs cr rt combs1 cr1 rt1 E.
  - simpl in E. injection E as <- <- <-. repeat split; auto. intros p [].
  - cbn [fold_left] in E.
    destruct (phase1_at_spec C live combs cr rt q) as (combs' & cr' & rt' & Es & Hl & Ho & Hq & Hc).
    rewrite Es in E. destruct (IH combs' cr' rt' combs1 cr1 rt1 E) as (I1 & I2 & I3 & I4).
    split; [lia|]. split; [|split].
    + intros p Hp. simpl in Hp. rewrite I2 by tauto. apply Ho. intros ->. tauto.
    + intros p Hp Hlen. destruct (in_dec Nat.eq_dec p r) as [Hin|Hnin].
      * apply I3; [assumption|lia].
      * destruct Hp as [->|Hp]; [|contradiction].
        unfold present. rewrite I2 by assumption. apply Hq, Hlen.
    + intros p c Hpc. destruct (I4 p c Hpc) as [Hc1|[Hc1 Hc2]]; [|simpl; auto].
      destruct (Nat.eq_dec p q) as [->|Hne].
      * destruct (Hc c Hc1); simpl; auto.
      * left. rewrite <- Ho by assumption. exact Hc1.
Qed.

End Phase1.

Section Values.
Variable f : Z -> Z -> Z.
Variable cf : cfg.
Hypothesis f_assoc : forall a b c, f (f a b) c = f a (f b c).

Definition fold1 (l : list Z) : option Z :=
  match l with [] => None | x :: r => Some (fold_left f r x) end.

Lemma fold_left_assoc r a y : fold_left f r (f a y) = f a (fold_left f r y).
Proof. revert y. induction r as [|z r IH]; intros y; simpl; [reflexivity|]. rewrite f_assoc. apply IH. Qed.

Lemma fold1_app l1 l2 x y : fold1 l1 = Some x -> fold1 l2 = Some y -> fold1 (l1 ++ l2) = Some (f x y).
Proof.
  destruct l1 as [|a r1]; [discriminate|]. destruct l2 as [|b r2]; [discriminate|].
  simpl. intros [= <-] [= <-]. f_equal. rewrite fold_left_app. simpl. apply fold_left_assoc.
Qed.

Lemma fold1_seg_app l a m1 m2 : a + m1 < length l -> 0 < m1 -> 0 < m2 ->
  exists x y, fold1 (seg l a m1) = Some x /\ fold1 (seg l (a + m1) m2) = Some y /\
              fold1 (seg l a (m1 + m2)) = Some (f x y).
Proof.
  intros Ha H1 H2.
  assert (Hne : forall b m, b < length l -> 0 < m -> exists x, fold1 (seg l b m) = Some x).
  { intros b [|m] Hb Hm; [lia|]. rewrite seg_S. apply nth_opt_length in Hb.
    destruct (nth_opt b l); [eexists; reflexivity|congruence]. }
  destruct (Hne a m1) as [x Hx]; [lia|assumption|]. destruct (Hne (a + m1) m2) as [y Hy]; [lia|assumption|].
  exists x, y. rewrite seg_split. auto using fold1_app.
Qed.

Definition aval (st : store) (L : list leaf) (combs : list (option comb)) (a : agg) : option Z :=
  src_value cf st combs (agg_src cf L combs a).

Definition leaf_vals (st : store) (L : list leaf) (vals : list Z) : Prop :=
  length vals = length L /\
  forall i lf, nth_opt i L = Some lf -> exists v, nth_opt i vals = Some v /\ slot_value st (lf_slot lf) = Some v.

(* Local consistency.  Only the static theorem ([tree_ok_sem], and from it [reduce_eq_fold_static]
   in Props/C11.v) speaks of [comb_ok] and [tree_ok]; the cycle proofs carry [good], since an
   evaluation at p breaks [comb_ok] of an ancestor whose operand is an alias of p until the pass
   reaches that ancestor. *)
Definition comb_ok (st : store) (L : list leaf) (combs : list (option comb)) (k : nat) (p : nat) : Prop :=
  exists c x y, nth_opt p combs = Some (Some c) /\ cb_out c = Some (f x y) /\
                aval st L combs (resolve (2 ^ k) (length L) (2 * p + 1)) = Some x /\
                aval st L combs (resolve (2 ^ k) (length L) (2 * p + 2)) = Some y.

Definition tree_ok (st : store) (L : list leaf) (combs : list (option comb)) (k : nat) : Prop :=
  forall j u, 1 <= j -> j <= k -> u < 2 ^ (k - j) -> u * 2 ^ j + 2 ^ (j - 1) < length L ->
              comb_ok st L combs k (pos k j u).

Lemma leaf_vals_nil st : leaf_vals st [] [].
Proof. split; [reflexivity|]. intros [|i]; discriminate. Qed.

Lemma leaf_vals_cons st lf L v vals : slot_value st (lf_slot lf) = Some v -> leaf_vals st L vals ->
  leaf_vals st (lf :: L) (v :: vals).
Proof.
  intros Hv [Hl H]. split; [simpl; congruence|]. intros [|i] lf' E; [|exact (H i lf' E)].
  injection E as <-. exists v. auto.
Qed.

Lemma aval_leaf st L combs vals i : leaf_vals st L vals -> i < length L ->
  exists v, nth_opt i vals = Some v /\ aval st L combs (ALeaf i) = Some v.
Proof.
  intros [Hlen Hv] Hi. apply nth_opt_length in Hi. destruct (nth_opt i L) as [lf|] eqn:E; [|congruence].
  destruct (Hv i lf E) as [v [H1 H2]]. exists v. split; [exact H1|].
  unfold aval, agg_src. rewrite E. exact H2.
Qed.

End Values.

Section Eval.
Variable f : Z -> Z -> Z.
Variable cf : cfg.
Hypothesis f_assoc : forall a b c, f (f a b) c = f a (f b c).
Hypothesis Hlift : c_lifted cf = true.
(* excluded: a declared live zero that has no value yet.  There the root of a singleton cannot
   evaluate and keeps the output it had (KF-reduce-stale-singleton-live-zero-C11). *)
Hypothesis Hzv : c_has_zero cf = true -> c_zero_valid cf = true.

Variable st : store.
Variable L : list leaf.
Variable vals : list Z.
Variable k : nat.
Hypothesis Hvals : leaf_vals st L vals.

Let live := length L.

Definition sem_at (combs : list (option comb)) (j u : nat) : Prop :=
  exists c, nth_opt (pos k j u) combs = Some (Some c) /\
            cb_out c = fold1 f (seg vals (u * 2 ^ j) (Nat.min (2 ^ j) (live - u * 2 ^ j))).

Definition zero_root (combs : list (option comb)) : Prop :=
  exists c v, nth_opt 0 combs = Some (Some c) /\ nth_opt 0 vals = Some v /\ cb_out c = Some (f v (c_zero cf)).

(* Indexed by the heap position, quantifying over its coordinates, because the evaluation pass runs
   over a list of positions ([eval_loop]); [good_at] is the same in coordinates. *)
Definition good (combs : list (option comb)) (p : nat) : Prop :=
  forall j u, 1 <= j -> j <= k -> u < 2 ^ (k - j) -> p = pos k j u ->
    (u * 2 ^ j + 2 ^ (j - 1) < live -> sem_at combs j u) /\
    (c_has_zero cf = true -> live = 1 -> j = k -> zero_root combs).

Definition wf_presence (combs : list (option comb)) : Prop :=
  length combs = internals (2 ^ k) /\
  forall p, p < internals (2 ^ k) -> present combs p = needed cf (2 ^ k) live p.

Lemma good_at combs j u : 1 <= j -> j <= k -> u < 2 ^ (k - j) ->
  (u * 2 ^ j + 2 ^ (j - 1) < live -> sem_at combs j u) ->
  (c_has_zero cf = true -> live = 1 -> j = k -> zero_root combs) -> good combs (pos k j u).
Proof.
  intros H1 H2 H3 G1 G2 j' u' B1 B2 B3 E. apply pos_inj in E; try lia. destruct E as [<- <-]. auto.
Qed.

Lemma good_ext combs combs' p : nth_opt p combs' = nth_opt p combs -> good combs p -> good combs' p.
Proof.
  intros E G j u H1 H2 H3 ->. destruct (G j u H1 H2 H3 eq_refl) as [G1 G2]. split.
  - intros Hn. destruct (G1 Hn) as [c C]. exists c. rewrite E. exact C.
  - intros Z1 Z2 ->. destruct (G2 Z1 Z2 eq_refl) as (c & v & C). exists c, v.
    replace (pos k k u) with 0 in E by (unfold pos; rewrite Nat.sub_diag in *; simpl in *; lia).
    rewrite E. exact C.
Qed.

Lemma needed_present combs j u : wf_presence combs -> 1 <= j -> j <= k -> u < 2 ^ (k - j) ->
  u * 2 ^ j + 2 ^ (j - 1) < live -> present combs (pos k j u) = true.
Proof.
  intros [_ Hp] H1 H2 H3 Hn. rewrite Hp by (apply pos_internal; assumption). apply needed_iff; auto.
Qed.

(* along the recursive reading of resolve_aggregate: an alias of the left child has the same live
   leaves as its parent *)
Lemma aval_sem combs j u : j <= k -> u < 2 ^ (k - j) -> u * 2 ^ j < live ->
  (forall j' u', 1 <= j' -> j' <= j -> u' < 2 ^ (k - j') -> u' * 2 ^ j' + 2 ^ (j' - 1) < live -> sem_at combs j' u') ->
  aval cf st L combs (resolve (2 ^ k) live (pos k j u)) =
  fold1 f (seg vals (u * 2 ^ j) (Nat.min (2 ^ j) (live - u * 2 ^ j))).
Proof.
  assert (Hleaf : forall i s, i < live -> Nat.min s (live - i) = 1 ->
            aval cf st L combs (ALeaf i) = fold1 f (seg vals i (Nat.min s (live - i)))).
  { intros i s Hi ->. destruct (aval_leaf cf st L combs vals i Hvals Hi) as (v & B1 & ->). rewrite seg_S, B1. reflexivity. }
  revert u. induction j as [|j IH]; intros u H2 H3 H4 Hsem.
  - rewrite resolve_leaf_level. change (2 ^ 0) with 1 in *.
    destruct (Nat.ltb_spec u live); [|lia]. rewrite Nat.mul_1_r. apply Hleaf; lia.
  - rewrite (resolve_rec k (S j) u live) by lia. replace (S j - 1) with j by lia.
    destruct (children k (S j) u) as (_ & _ & Hu & Ha & _); try lia. replace (S j - 1) with j in * by lia.
    pose proof (pow2_pos j). rewrite pow2_S in *.
    destruct (Nat.leb_spec live (u * (2 * 2 ^ j))); [lia|].
    destruct (Nat.eqb_spec live (u * (2 * 2 ^ j) + 1)); [apply Hleaf; lia|].
    destruct (Nat.leb_spec live (u * (2 * 2 ^ j) + 2 ^ j)).
    + rewrite IH, Ha by (try lia; intros; apply Hsem; lia || assumption). do 2 f_equal. lia.
    + destruct (Hsem (S j) u) as (c & C1 & C2); try lia.
      { replace (S j - 1) with j by lia. rewrite pow2_S. lia. }
      unfold aval, agg_src. rewrite C1. cbn [src_value]. rewrite C1, C2, pow2_S. reflexivity.
Qed.

Lemma node_value combs j u : 1 <= j -> j <= k -> u < 2 ^ (k - j) -> u * 2 ^ j + 2 ^ (j - 1) < live ->
  (forall j' u', 1 <= j' -> j' < j -> u' < 2 ^ (k - j') -> u' * 2 ^ j' + 2 ^ (j' - 1) < live -> sem_at combs j' u') ->
  exists x y, aval cf st L combs (resolve (2 ^ k) live (2 * pos k j u + 1)) = Some x /\
              aval cf st L combs (resolve (2 ^ k) live (2 * pos k j u + 2)) = Some y /\
              fold1 f (seg vals (u * 2 ^ j) (Nat.min (2 ^ j) (live - u * 2 ^ j))) = Some (f x y).
Proof.
  intros H1 H2 H3 H4 Hsub. destruct (children k j u H1 H2 H3) as (El & Er & Hu & Ha0 & Ha1).
  pose proof (pow2_pos (j - 1)).
  rewrite El, Er, !aval_sem, Ha0, Ha1; try lia; try (intros; apply Hsub; assumption || lia).
  replace live with (length vals) in * by apply Hvals. set (a := u * 2 ^ j) in *.
  rewrite !seg_min, (pow2_half j H1).
  replace (2 * 2 ^ (j - 1)) with (2 ^ (j - 1) + 2 ^ (j - 1)) by lia. apply fold1_seg_app; assumption.
Qed.

Lemma eval_at_absent combs log w r : present combs r = false -> eval_at f cf st L (2 ^ k) (combs, log, w) r = (combs, log, w).
Proof. unfold present, eval_at. destruct (nth_opt r combs) as [[c|]|]; try reflexivity. discriminate. Qed.

Lemma eval_at_lifted combs log w r c x y :
  nth_opt r combs = Some (Some c) ->
  aval cf st L combs (resolve (2 ^ k) live (2 * r + 1)) = Some x ->
  aval cf st L combs (resolve (2 ^ k) live (2 * r + 2)) = Some y ->
  eval_at f cf st L (2 ^ k) (combs, log, w) r =
  (set_nth r (Some (mkComb (cb_l c) (cb_r c) (Some (f x y)) false)) combs, log ++ [(x, y)], r :: w).
Proof.
  intros Hc Hx Hy. unfold eval_at. rewrite Hc, Hlift. unfold aval in Hx, Hy. fold live.
  rewrite Hx, Hy. reflexivity.
Qed.

Lemma present_set_nth combs r c0 c1 p : nth_opt r combs = Some (Some c0) ->
  present (set_nth r (Some c1) combs) p = present combs p.
Proof.
  intros H. unfold present. destruct (Nat.eq_dec r p) as [->|Hne].
  - rewrite nth_opt_set_nth_same, H; [reflexivity|]. apply nth_opt_length. congruence.
  - rewrite nth_opt_set_nth_other by assumption. reflexivity.
Qed.

Lemma eval_step combs log w r : wf_presence combs -> r < internals (2 ^ k) -> present combs r = true ->
  (forall q, r < q -> q < internals (2 ^ k) -> present combs q = true -> good combs q) ->
  exists c1 x y,
    eval_at f cf st L (2 ^ k) (combs, log, w) r = (set_nth r (Some c1) combs, log ++ [(x, y)], r :: w) /\
    good (set_nth r (Some c1) combs) r.
Proof.
  intros Hwf Hr Hp Hdeep.
  destruct (pos_coords k r Hr) as (j & u & H1 & H2 & H3 & ->).
  pose proof (proj2 Hwf _ Hr) as Hn. rewrite Hp in Hn. symmetry in Hn. apply needed_iff in Hn; try assumption.
  unfold present in Hp. destruct (nth_opt (pos k j u) combs) as [[c|]|] eqn:Ec; try discriminate.
  assert (Hset : forall c1, nth_opt (pos k j u) (set_nth (pos k j u) (Some c1) combs) = Some (Some c1))
    by (intros; apply nth_opt_set_nth_same; rewrite (proj1 Hwf); exact Hr).
  pose proof (pow2_pos (j - 1)).
  destruct Hn as [(Hz0 & Hz1 & Hz2)|Hn].
  - (* the root of a singleton with a zero: f value zero *)
    destruct (pos_zero k j u H2 H3 Hz0) as [-> ->].
    destruct (children k k 0 H1 H2 H3) as (El & Er & Hu & _).
    destruct (aval_leaf cf st L combs vals 0 Hvals) as (v & Hv & _); [fold live; lia|].
    assert (Hx : aval cf st L combs (resolve (2 ^ k) live (2 * pos k k 0 + 1)) = Some v).
    { rewrite El, aval_sem; try lia.
      - simpl (2 * 0 * _). replace (Nat.min (2 ^ (k - 1)) (live - 0)) with 1 by lia. rewrite seg_S, Hv. reflexivity.
      - intros j' u' ? ? ? ?. pose proof (pow2_pos (j' - 1)). lia. }
    assert (Hy : aval cf st L combs (resolve (2 ^ k) live (2 * pos k k 0 + 2)) = Some (c_zero cf)).
    { rewrite Er. pose proof (resolve_empty (k - 1) k (2 * 0 + 1) live ltac:(lia) Hu) as E.
      rewrite (proj2 (Nat.leb_le _ _)) in E by lia.
      destruct (resolve (2 ^ k) live (pos k (k - 1) (2 * 0 + 1))); try discriminate.
      unfold aval, agg_src. rewrite Hz1. cbn [src_value]. rewrite Hz1, (Hzv Hz1). reflexivity. }
    exists (mkComb (cb_l c) (cb_r c) (Some (f v (c_zero cf))) false), v, (c_zero cf).
    split; [apply eval_at_lifted; assumption|].
    apply good_at; try assumption; [lia|].
    intros _ _ _. eexists _, v. rewrite <- Hz0 at 1. rewrite Hset. auto.
  - (* both halves hold a live leaf: f (fold left half) (fold right half) *)
    destruct (node_value combs j u H1 H2 H3 Hn) as (x & y & Hx & Hy & Hv).
    { intros j' u' B1 B2 B3 B4. apply (Hdeep (pos k j' u')); try apply eq_refl; try assumption; try lia.
      - apply pos_deeper; assumption.
      - apply pos_internal; assumption || lia.
      - apply needed_present; assumption || lia. }
    exists (mkComb (cb_l c) (cb_r c) (Some (f x y)) false), x, y.
    split; [apply eval_at_lifted; assumption|].
    apply good_at; try assumption; [|lia].
    intros _. eexists. rewrite Hset. split; [reflexivity|]. symmetry. exact Hv.
Qed.

(* descending order: a combine point is visited after all deeper ones, whose outputs it reads *)
Lemma eval_loop : forall R combs log w, desc_sorted R -> wf_presence combs ->
  (forall p, p < internals (2 ^ k) -> ~ In p R -> present combs p = true -> good combs p) ->
  exists combs' log' w', fold_left (eval_at f cf st L (2 ^ k)) R (combs, log, w) = (combs', log', w') /\
    wf_presence combs' /\
    (forall p, p < internals (2 ^ k) -> present combs' p = true -> good combs' p).
Proof.
  induction R as [|r R IH]; intros combs log w Hs Hwf Hgood.
  - exists combs, log, w. auto.
  - inversion Hs as [|? ? Hlt Hs']; subst. cbn [fold_left].
    destruct (present combs r) eqn:Epr.
    2:{ rewrite eval_at_absent by assumption. apply IH; try assumption.
        intros p Hp Hnin Hpp. apply Hgood; try assumption. intros [->|Hin]; [congruence|contradiction]. }
    assert (Hr : r < internals (2 ^ k)).
    { rewrite <- (proj1 Hwf). apply nth_opt_length. unfold present in Epr. destruct (nth_opt r combs); congruence. }
    destruct (eval_step combs log w r Hwf Hr Epr) as (c1 & x & y & Hev & Hg).
    { intros q Hq1 Hq2 Hq3. apply Hgood; try assumption.
      intros [->|Hin]; [lia|]. specialize (Hlt q Hin). lia. }
    rewrite Hev. unfold present in Epr.
    destruct (nth_opt r combs) as [[c0|]|] eqn:Ec; try discriminate.
    apply IH; try assumption.
    + destruct Hwf as [Hlen Hpres]. split; [rewrite set_nth_length; exact Hlen|].
      intros p Hp. rewrite (present_set_nth combs r c0 c1 p Ec). apply Hpres, Hp.
    + intros p Hp Hnin Hpp. destruct (Nat.eq_dec p r) as [->|Hne]; [exact Hg|].
      apply (good_ext combs); [apply nth_opt_set_nth_other; auto|]. apply Hgood; try assumption.
      * intros [->|Hin]; [congruence|contradiction].
      * rewrite <- (present_set_nth combs r c0 c1 p Ec). exact Hpp.
Qed.

End Eval.

Lemma tree_ok_sem f cf (f_assoc : forall a b c, f (f a b) c = f a (f b c)) st L combs vals k :
  leaf_vals st L vals -> tree_ok f cf st L combs k ->
  forall j u, 1 <= j -> j <= k -> u < 2 ^ (k - j) -> u * 2 ^ j + 2 ^ (j - 1) < length L ->
    sem_at f L vals k combs j u.
Proof.
  intros Hvals Htree j. induction j as [j IH] using lt_wf_ind. intros u H1 H2 H3 H4.
  destruct (node_value f cf f_assoc st L vals k Hvals combs j u H1 H2 H3 H4) as (x & y & Hx & Hy & Hv).
  { intros j' u' B1 B2 B3 B4. apply IH; assumption || lia. }
  destruct (Htree j u H1 H2 H3 H4) as (c & x' & y' & Hc & Hout & Hx' & Hy').
  exists c. split; [exact Hc|]. cbv zeta in *. congruence.
Qed.

(* capacity 0 (never grown) behaves like capacity 1, height 0 *)
Definition capk (c k : nat) : Prop := c = 2 ^ k \/ (c = 0 /\ k = 0).

(* what is proved of capacity 2^k holds of c: the model reads a capacity through [resolve] and
   [internals] only, which do not tell 0 from 1 *)
Lemma capk_subst (P : nat -> Prop) c k : capk c k -> (P 1 -> P 0) -> P (2 ^ k) -> P c.
Proof. intros [->|[-> ->]]; auto. Qed.

Lemma capk_inj c k k' : capk c k -> capk c k' -> k = k'.
Proof.
  pose proof (pow2_pos k). pose proof (pow2_pos k').
  intros [H1|H1] [H2|H2]; try lia. apply (Nat.pow_inj_r 2); lia.
Qed.

Lemma capk_internals c k : capk c k -> internals c = internals (2 ^ k).
Proof. intros [->|[-> ->]]; reflexivity. Qed.

Section Cycle.
Variable f : Z -> Z -> Z.
Variable cf : cfg.
Hypothesis f_assoc : forall a b c, f (f a b) c = f a (f b c).
Hypothesis Hlift : c_lifted cf = true.
Hypothesis Hzv : c_has_zero cf = true -> c_zero_valid cf = true.

Lemma good_transfer k L vals L' vals' combs combs' p :
  length vals = length L -> length vals' = length L' -> p < internals (2 ^ k) ->
  nth_opt p combs' = nth_opt p combs ->
  (forall i, i < 2 ^ k -> In p (leaf_path (2 ^ k) (internals (2 ^ k)) i) -> nth_opt i vals' = nth_opt i vals) ->
  good f cf L vals k combs p -> good f cf L' vals' k combs' p.
Proof.
  intros Hl Hl' Hp Hc Hsame G. apply (good_ext f cf L' vals' k combs); [exact Hc|].
  destruct (pos_coords k p Hp) as (j & u & H1 & H2 & H3 & ->).
  pose proof (under_interval k j u _ H1 H2 H3 Hsame) as Hs. cbv beta in Hs.
  assert (Hlen : forall i, u * 2 ^ j <= i -> i < (u + 1) * 2 ^ j -> (i < length L' <-> i < length L)).
  { intros i A1 A2. rewrite <- Hl, <- Hl', !nth_opt_length, (Hs i A1 A2). tauto. }
  destruct (G j u H1 H2 H3 eq_refl) as [G1 G2].
  pose proof (pow2_half j H1) as Hh. pose proof (pow2_pos (j - 1)) as Hp1.
  apply good_at; try assumption.
  - intros Hn. destruct G1 as (c & C1 & C2); [apply (Hlen (u * 2 ^ j + 2 ^ (j - 1))); lia|].
    exists c. split; [exact C1|]. rewrite C2, <- Hl, <- Hl', !seg_min. f_equal.
    apply seg_ext. intros i A1 A2. symmetry. apply Hs; lia.
  - intros Z1 Z2 ->. rewrite Nat.sub_diag in H3. replace u with 0 in * by (simpl in H3; lia).
    pose proof (pow2_ge2 k H1). pose proof (Hlen 0). pose proof (Hlen 1).
    destruct G2 as (c & v & C1 & C2 & C3); [assumption|lia|reflexivity|].
    exists c, v. rewrite (Hs 0) by lia. auto.
Qed.

Definition spec_result (vals : list Z) : option Z :=
  match vals with
  | [] => if c_has_zero cf then Some (c_zero cf) else None
  | [v] => if c_has_zero cf then Some (f v (c_zero cf)) else Some v
  | _ => fold1 f vals
  end.

Record tree_inv (st : store) (L : list leaf) (vals : list Z) (k : nat) (combs : list (option comb)) : Prop := {
  ti_vals : leaf_vals st L vals;
  ti_cap : length L <= 2 ^ k;
  ti_zero : c_has_zero cf = true -> 1 <= k;
  ti_pres : wf_presence cf L k combs;
  ti_good : forall p, p < internals (2 ^ k) -> present combs p = true -> good f cf L vals k combs p
}.

Lemma tree_inv_sem st L vals k combs : tree_inv st L vals k combs ->
  forall j u, 1 <= j -> j <= k -> u < 2 ^ (k - j) -> u * 2 ^ j + 2 ^ (j - 1) < length L -> sem_at f L vals k combs j u.
Proof.
  intros [_ _ _ T4 T5] j u H1 H2 H3 Hn.
  pose proof (needed_present cf L k combs j u T4 H1 H2 H3 Hn) as Hp.
  exact (proj1 (T5 _ (pos_internal k j u H1 H2 H3) Hp j u H1 H2 H3 eq_refl) Hn).
Qed.

Lemma tree_inv_result st L vals k combs : tree_inv st L vals k combs ->
  src_value cf st combs (agg_src cf L combs (root_aggregate (c_has_zero cf) (2 ^ k) (length L) (length combs)))
  = spec_result vals.
Proof.
  intros T. pose proof (tree_inv_sem _ _ _ _ _ T) as Hsem. destruct T as [Hvals Hcap Hzk Hwf Hgood].
  pose proof (proj1 Hvals) as Hlv.
  assert (Hpk : pos k k 0 = 0) by (unfold pos; rewrite Nat.sub_diag; reflexivity).
  assert (Hk3 : 0 < 2 ^ (k - k)) by (rewrite Nat.sub_diag; simpl; lia).
  assert (Hroot : 0 < length L ->
            src_value cf st combs (agg_src cf L combs (resolve (2 ^ k) (length L) 0)) = fold1 f vals).
  { intros Hpos. pose proof (aval_sem f cf st L vals k Hvals combs k 0 (Nat.le_refl k) Hk3 ltac:(lia) Hsem) as Hav.
    rewrite Hpk in Hav. unfold aval in Hav. rewrite Hav. simpl (0 * _). rewrite Nat.sub_0_r, Nat.min_r, <- Hlv by lia.
    unfold seg. simpl. rewrite firstn_all. reflexivity. }
  (* by the number of values: then the tests of root_aggregate compute *)
  unfold root_aggregate, spec_result. destruct vals as [|v0 [|v1 r]]; simpl in Hlv; rewrite <- Hlv in *; cbn [Nat.eqb andb].
  - unfold agg_src. destruct (c_has_zero cf) eqn:Ez; cbn [src_value]; rewrite ?Ez, ?(Hzv eq_refl); reflexivity.
  - destruct (c_has_zero cf) eqn:Ez; cbn [andb]; [|apply Hroot; lia].
    (* a singleton with a zero: the tree has a root, needed and so present, and right *)
    specialize (Hzk eq_refl).
    assert (H0 : 0 < internals (2 ^ k)) by (rewrite internals_pow2; pose proof (pow2_ge2 k Hzk); lia).
    rewrite (proj1 Hwf). destruct (Nat.eqb_spec (internals (2 ^ k)) 0); [lia|]. cbn [negb].
    pose proof (proj2 (needed_iff cf k (length L) k 0 Hzk (Nat.le_refl k) Hk3)) as Hn. rewrite Hpk in Hn.
    destruct (Hgood 0 H0) with (j := k) (u := 0) as [_ G2]; auto.
    { rewrite (proj2 Hwf 0 H0). auto. }
    destruct (G2 Ez (eq_sym Hlv) eq_refl) as (c & v & C1 & C2 & C3).
    unfold agg_src. rewrite C1. cbn [src_value]. rewrite C1, C3. simpl in C2. congruence.
  - rewrite andb_false_r. apply Hroot. lia.
Qed.

(* Structural and present, or present and on the path of a leaf whose value ticked, or in [extra]
   (the root on a zero tick; not filtered).  The lemmas below spell this list out with any capacity
   c for 2 ^ k; at c = 2 ^ k it is [visited] by conversion. *)
Definition visited (k : nat) (combs1 : list (option comb)) (spos : list nat) (dm : list nat) (extra : list nat) : list nat :=
  sort_desc_unique (filter (present combs1) spos ++
                    concat (map (live_path (2 ^ k) combs1) dm) ++ extra).

Lemma in_visited c combs1 spos dm extra p :
  In p (sort_desc_unique (filter (present combs1) spos ++ concat (map (live_path c combs1) dm) ++ extra)) <->
  present combs1 p = true /\ (In p spos \/ exists i, In i dm /\ In p (leaf_path c (length combs1) i)) \/ In p extra.
Proof.
  unfold live_path. rewrite sort_desc_unique_in, !in_app_iff, filter_In, in_concat_map.
  split.
  - intros [[? ?]|[(i & Hi & Hp)|?]]; auto. apply filter_In in Hp. left. split; [tauto|]. right. exists i. tauto.
  - intros [[Hp [?|(i & Hi & Hq)]]|?]; auto. right. left. exists i. rewrite filter_In. auto.
Qed.

Definition restores_inv (st' : store) (L' : list leaf) (vals' : list Z) (c k : nat)
           (combs1 : list (option comb)) (E : list nat) : Prop :=
  exists combs2 log w,
    fold_left (eval_at f cf st' L' c) E (combs1, [], []) = (combs2, log, w) /\
    tree_inv st' L' vals' k combs2 /\ (forall p, present combs2 p = present combs1 p).

Lemma eval_finish st' k L' vals' combs1 E :
  leaf_vals st' L' vals' -> length L' <= 2 ^ k -> (c_has_zero cf = true -> 1 <= k) -> desc_sorted E ->
  wf_presence cf L' k combs1 ->
  (forall p, p < internals (2 ^ k) -> present combs1 p = true -> ~ In p E -> good f cf L' vals' k combs1 p) ->
  restores_inv st' L' vals' (2 ^ k) k combs1 E.
Proof.
  intros Hvals Hcap Hz Hs Hwf Hclean.
  destruct (eval_loop f cf f_assoc Hlift Hzv st' L' vals' k Hvals E combs1 [] [] Hs Hwf)
    as (combs2 & log & w & Hev & Hwf2 & Hg2); auto.
  exists combs2, log, w. split; [exact Hev|]. split; [constructor; assumption|].
  intros p. destruct Hwf as [Hl1 Hp1], Hwf2 as [Hl2 Hp2].
  destruct (Nat.lt_ge_cases p (internals (2 ^ k))) as [Hlt|Hge].
  - rewrite Hp1, Hp2 by assumption. reflexivity.
  - unfold present. rewrite (proj1 (nth_opt_none combs1 p)), (proj1 (nth_opt_none combs2 p)) by lia. reflexivity.
Qed.

(* what was right and lies under no structural or ticked leaf stays right ([good_transfer]), and
   stays needed or not ([needed_same]) *)
Lemma cycle_partial c k (Ck : capk c k) st st' L vals L' vals' combs sleaves dm extra combs1 cr rt :
  tree_inv st L vals k combs ->
  leaf_vals st' L' vals' -> length L' <= 2 ^ k ->
  (forall i, ~ In i sleaves -> nth_opt i L' = nth_opt i L) ->
  (forall i, ~ In i sleaves -> ~ In i dm -> nth_opt i vals' = nth_opt i vals) ->
  let spos := sort_desc_unique (concat (map (leaf_path c (length combs)) sleaves)) in
  fold_left (phase1_at cf c (length L')) spos (combs, [], []) = (combs1, cr, rt) ->
  restores_inv st' L' vals' c k combs1
    (sort_desc_unique (filter (present combs1) spos ++ concat (map (live_path c combs1) dm) ++ extra)).
Proof.
  pattern c. apply (capk_subst _ c k Ck); [exact (fun H => H)|]. clear c Ck.
  intros [T1 _ T3 [Hlen Hpres] T5] Hvals' Hcap' HL Hv spos Hph.
  destruct (phase1_spec cf (2 ^ k) (length L') spos combs [] [] combs1 cr rt Hph) as (P1 & P2 & P3 & _).
  assert (Hstruct : forall p i, In p (leaf_path (2 ^ k) (internals (2 ^ k)) i) -> ~ In p spos -> ~ In i sleaves).
  { intros p i Hp Hn Hi. apply Hn, sort_desc_unique_in, in_concat_map. exists i. rewrite Hlen. auto. }
  apply eval_finish; try assumption; [apply sort_desc_unique_sorted| |].
  - split; [lia|]. intros p Hp. destruct (in_dec Nat.eq_dec p spos) as [Hin|Hnin].
    + apply P3; [exact Hin|lia].
    + unfold present. rewrite (P2 p Hnin). fold (present combs p). rewrite (Hpres p Hp).
      symmetry. apply needed_same; [exact Hp|]. intros i Hi Hpi. rewrite !nth_opt_length, HL by eauto. tauto.
  - intros p Hp Hpr Hnv. rewrite in_visited in Hnv.
    assert (Hnin : ~ In p spos) by tauto.
    apply (good_transfer k L vals L' vals' combs combs1 p (proj1 T1) (proj1 Hvals') Hp (P2 p Hnin)).
    + intros i Hi Hpi. apply Hv; [eauto|]. intros Hc. apply Hnv. left. split; [exact Hpr|].
      right. exists i. rewrite P1, Hlen. auto.
    + apply T5; [exact Hp|]. unfold present in *. rewrite <- (P2 p Hnin). exact Hpr.
Qed.

(* A full rebuild: first publication, growth into the other bank, or reconcile_leaves returns [full]
   (the collection is observed for the first time again, or was lost).  Every combine point is
   structural and is evaluated; of the old combiners only the number is used. *)
Lemma cycle_full c k (Ck : capk c k) st' L' vals' combs0 combs1 cr rt dm extra :
  leaf_vals st' L' vals' -> length L' <= 2 ^ k -> (c_has_zero cf = true -> 1 <= k) ->
  length combs0 = internals (2 ^ k) ->
  let spos := down_from (length combs0) in
  fold_left (phase1_at cf c (length L')) spos (combs0, [], []) = (combs1, cr, rt) ->
  restores_inv st' L' vals' c k combs1
    (sort_desc_unique (filter (present combs1) spos ++ concat (map (live_path c combs1) dm) ++ extra)).
Proof.
  pattern c. apply (capk_subst _ c k Ck); [exact (fun H => H)|]. clear c Ck.
  intros Hvals' Hcap' Hz Hlen spos Hph.
  destruct (phase1_spec cf (2 ^ k) (length L') spos combs0 [] [] combs1 cr rt Hph) as (P1 & _ & P3 & _).
  apply eval_finish; try assumption; [apply sort_desc_unique_sorted| |].
  - split; [lia|]. intros p Hp. apply P3; [apply down_from_in|]; lia.
  - intros p Hp Hpr Hnv. exfalso. apply Hnv, in_visited. left. split; [exact Hpr|]. left. apply down_from_in. lia.
Qed.

End Cycle.

From Coq Require Import Permutation.

Section Perm.
Variable f : Z -> Z -> Z.
Hypothesis f_assoc : forall a b c, f (f a b) c = f a (f b c).
Hypothesis f_comm : forall a b, f a b = f b a.

Lemma fold_left_perm l l' : Permutation l l' -> forall x, fold_left f l x = fold_left f l' x.
Proof.
  induction 1; intros z; simpl; auto.
  - f_equal. rewrite !f_assoc. f_equal. apply f_comm.
  - rewrite IHPermutation1. apply IHPermutation2.
Qed.

Lemma fold1_perm l l' : Permutation l l' -> fold1 f l = fold1 f l'.
Proof.
  induction 1; simpl; auto.
  - f_equal. apply fold_left_perm. assumption.
  - f_equal. f_equal. apply f_comm.
  - congruence.
Qed.

Lemma spec_result_perm cf vals vals' : Permutation vals vals' -> spec_result f cf vals = spec_result f cf vals'.
Proof.
  intros HP. pose proof (Permutation_length HP) as Hl.
  destruct vals as [|v [|v2 r]], vals' as [|w [|w2 r']]; simpl in Hl; try lia.
  - reflexivity.
  - apply Permutation_length_1 in HP. subst. reflexivity.
  - unfold spec_result. apply fold1_perm. exact HP.
Qed.

End Perm.

Lemma order_independent f cf :
  (forall a b c, f (f a b) c = f a (f b c)) -> (forall a b, f a b = f b a) -> c_lifted cf = true ->
  (c_has_zero cf = true -> c_zero_valid cf = true) ->
  forall st1 L1 vals1 k1 combs1 st2 L2 vals2 k2 combs2,
  tree_inv f cf st1 L1 vals1 k1 combs1 -> tree_inv f cf st2 L2 vals2 k2 combs2 ->
  Permutation vals1 vals2 ->
  src_value cf st1 combs1 (agg_src cf L1 combs1 (root_aggregate (c_has_zero cf) (2 ^ k1) (length L1) (length combs1))) =
  src_value cf st2 combs2 (agg_src cf L2 combs2 (root_aggregate (c_has_zero cf) (2 ^ k2) (length L2) (length combs2))).
Proof.
  intros Ha Hc Hl Hz st1 L1 vals1 k1 combs1 st2 L2 vals2 k2 combs2 T1 T2 HP.
  rewrite (tree_inv_result f cf Hz st1 L1 vals1 k1 combs1 T1), (tree_inv_result f cf Hz st2 L2 vals2 k2 combs2 T2).
  apply spec_result_perm; assumption.
Qed.

Lemma last_opt_nth {A} (l : list A) : last_opt l = nth_opt (length l - 1) l.
Proof.
  induction l as [|x [|y r] IH]; try reflexivity.
  change (last_opt (x :: y :: r)) with (last_opt (y :: r)). rewrite IH. simpl. rewrite Nat.sub_0_r. reflexivity.
Qed.

Lemma remove_last_length {A} (l : list A) : length (remove_last l) = length l - 1.
Proof.
  induction l as [|x [|y r] IH]; try reflexivity.
  change (remove_last (x :: y :: r)) with (x :: remove_last (y :: r)). simpl length in *. lia.
Qed.

Lemma remove_last_nth {A} (l : list A) j : j <> length l - 1 -> nth_opt j (remove_last l) = nth_opt j l.
Proof.
  revert j. induction l as [|x [|y r] IH]; intros j H; try reflexivity.
  - destruct j; [simpl in H; lia|destruct j; reflexivity].
  - change (remove_last (x :: y :: r)) with (x :: remove_last (y :: r)).
    destruct j; [reflexivity|]. apply IH. simpl in *. lia.
Qed.

Lemma remove_leaf_at_frame (l : list leaf) i j : j <> i -> j <> length l - 1 ->
  nth_opt j (remove_leaf_at i l) = nth_opt j l.
Proof.
  intros Hj1 Hj2. unfold remove_leaf_at. destruct (last_opt l) as [lastv|]; [|reflexivity].
  destruct (i =? length l - 1); rewrite remove_last_nth; rewrite ?set_nth_length; auto using nth_opt_set_nth_other.
Qed.

Lemma remove_leaf_at_moved (l : list leaf) i : i < length l - 1 ->
  nth_opt i (remove_leaf_at i l) = nth_opt (length l - 1) l /\ length (remove_leaf_at i l) = length l - 1.
Proof.
  intros Hi. unfold remove_leaf_at. rewrite last_opt_nth.
  destruct (nth_opt (length l - 1) l) as [lastv|] eqn:El; [|apply nth_opt_none in El; lia].
  destruct (Nat.eqb_spec i (length l - 1)); [lia|].
  rewrite remove_last_nth, remove_last_length, set_nth_length, nth_opt_set_nth_same; rewrite ?set_nth_length; auto; lia.
Qed.

Lemma key_index_lt k l i : key_index k l = Some i -> i < length l.
Proof.
  revert i. induction l as [|x r IH]; intros i H; simpl in H; [discriminate|].
  destruct (lf_key x =? k)%Z. { injection H as <-. simpl. lia. }
  destruct (key_index k r) as [i'|]; [|discriminate]. injection H as <-. simpl. specialize (IH i' eq_refl). lia.
Qed.

(* the invariant of the three reconciliation loops *)
Definition rc_frame (L : list leaf) (a : rc) : Prop :=
  let '(l, sl, stc) := a in
  (forall j, ~ In j sl -> nth_opt j l = nth_opt j L) /\ (stc = false -> l = L /\ sl = []).

Lemma rc_frame_step L l sl stc l' t : (forall j, ~ In j t -> nth_opt j l' = nth_opt j l) ->
  rc_frame L (l, sl, stc) -> rc_frame L (l', sl ++ t, true).
Proof.
  intros Ht [H1 _]. split; [|discriminate]. intros j Hj. rewrite in_app_iff in Hj. rewrite Ht, H1; intuition.
Qed.

Lemma rc_frame_remove L l sl stc i :
  rc_frame L (l, sl, stc) -> rc_frame L (remove_leaf_at i l, sl ++ removed_paths i l, true).
Proof.
  apply rc_frame_step. intros j Hj. unfold removed_paths in Hj.
  apply remove_leaf_at_frame; intros ->; apply Hj; destruct (Nat.eqb_spec i (length l - 1)); simpl; auto.
Qed.

Lemma rc_frame_append L l sl stc x : rc_frame L (l, sl, stc) -> rc_frame L (l ++ [x], sl ++ [length l], true).
Proof. apply rc_frame_step. intros j Hj. apply nth_opt_snoc_other. intros ->. apply Hj. left. reflexivity. Qed.

Lemma rc_remove_frame L k a : rc_frame L a -> rc_frame L (rc_remove k a).
Proof.
  destruct a as [[l sl] stc]. unfold rc_remove. destruct (key_index k l); eauto using rc_frame_remove.
Qed.

Lemma rc_add_frame L valid sk a : rc_frame L a -> rc_frame L (rc_add valid sk a).
Proof.
  destruct a as [[l sl] stc], sk as [s k]. unfold rc_add.
  destruct (negb (valid s)), (key_index k l); eauto using rc_frame_append.
Qed.

Lemma rc_mod_frame L live valid sk a : rc_frame L a -> rc_frame L (rc_mod live valid sk a).
Proof.
  destruct a as [[l sl] stc], sk as [s k]. unfold rc_mod.
  destruct (negb (live s)), (key_index k l) as [i|], (negb (valid s)); eauto using rc_frame_remove, rc_frame_append.
  destruct (nth_opt i l) as [lf|]; [|auto]. destruct (lf_slot lf =? s); [auto|].
  apply rc_frame_step. intros j Hj. apply nth_opt_set_nth_other. simpl in Hj. tauto.
Qed.

Lemma reconcile_sparse_frame st d L : rc_frame L (reconcile_sparse st d L).
Proof.
  unfold reconcile_sparse.
  repeat (apply (fold_left_ind _ (rc_frame L)); [auto using rc_mod_frame, rc_add_frame, rc_remove_frame|]).
  split; auto.
Qed.

Lemma reconcile_full_list_frame st L : rc_frame L (reconcile_full_list st L).
Proof.
  unfold reconcile_full_list.
  apply (fold_left_ind _ (rc_frame L)); [|split; auto].
  (* a step of this pass is [rc_add] with every slot valid *)
  intros a e _. exact (rc_add_frame L (fun _ => true) (fst e, fst (snd e)) a).
Qed.

Lemma pow2_ge_spec : forall fuel n a, n <= 2 ^ (a + fuel) ->
  exists j, pow2_ge fuel n (2 ^ a) = 2 ^ j /\ n <= 2 ^ j.
Proof.
  induction fuel as [|fuel IH]; intros n a H.
  - rewrite Nat.add_0_r in H. exists a. split; [reflexivity|exact H].
  - cbn [pow2_ge]. destruct (Nat.leb_spec n (2 ^ a)); [exists a; split; [reflexivity|assumption]|].
    change (2 * 2 ^ a) with (2 ^ S a). apply IH. rewrite <- Nat.add_succ_comm in H. exact H.
Qed.

Lemma bit_ceil_spec n : exists j, bit_ceil n = 2 ^ j /\ n <= 2 ^ j.
Proof. apply (pow2_ge_spec n n 0). pose proof (pow2_lt_lin n). simpl. lia. Qed.

Section Capacity.
Variable cf : cfg.

Lemma next_capacity_spec cap live k0 : capk cap k0 ->
  exists k, capk (next_capacity cf cap live) k /\ live <= 2 ^ k /\ (c_has_zero cf = true -> 1 <= k).
Proof.
  intros Hc. unfold next_capacity.
  set (M := if c_has_zero cf then 2 else 0). set (X := if live =? 0 then 0 else bit_ceil live).
  assert (HM : exists j, capk M j) by (unfold M; destruct (c_has_zero cf); [exists 1; left|exists 0; right]; auto).
  assert (HX : live <= X /\ exists j, capk X j).
  { unfold X. destruct (Nat.eqb_spec live 0); [split; [lia|exists 0; right; auto]|].
    destruct (bit_ceil_spec live) as (j & -> & H). split; [exact H|exists j; left; reflexivity]. }
  destruct HX as [HX1 HX2].
  assert (Hk : exists k, capk (Nat.max cap (Nat.max M X)) k).
  { destruct (Nat.max_dec cap (Nat.max M X)) as [-> | ->]; [eauto|]. destruct (Nat.max_dec M X) as [-> | ->]; assumption. }
  destruct Hk as [k Hk]. exists k. split; [exact Hk|].
  assert (HM2 : c_has_zero cf = true -> M = 2) by (intros Hz; unfold M; rewrite Hz; reflexivity).
  destruct Hk as [Hk|[Hk ->]]; (split; [simpl; lia|intros Hz; specialize (HM2 Hz)]); [|lia].
  destruct k; simpl in *; lia.
Qed.

End Capacity.

Section Step.
Variable f : Z -> Z -> Z.
Variable cf : cfg.
Hypothesis f_assoc : forall a b c, f (f a b) c = f a (f b c).
Hypothesis Hlift : c_lifted cf = true.
Hypothesis Hzv : c_has_zero cf = true -> c_zero_valid cf = true.

(* the third part: before the first publication a rebuild is always in full, so the partial case of
   [reduce_cycle_correct] has an old tree to start from *)
Lemma reconcile_leaves_spec st d coll s L' sl stc full pr :
  reconcile_leaves cf st d coll s = (L', sl, stc, full, pr) ->
  (full = false -> forall j, ~ In j sl -> nth_opt j L' = nth_opt j (r_leaves s)) /\
  (stc = false -> L' = r_leaves s /\ sl = []) /\
  (r_published s = false -> full = true).
Proof.
  unfold reconcile_leaves. intros E.
  pose proof (reconcile_full_list_frame st (r_leaves s)) as Hl.
  pose proof (reconcile_sparse_frame st d (r_leaves s)) as Hs.
  destruct (available cf st).
  - destruct (negb (r_primed s) || coll); [|injection E as <- <- <- <- <-; repeat split; auto; intros ->; reflexivity].
    destruct (negb (r_primed s)).
    + destruct (c_list cf), (reconcile_full_list st (r_leaves s)) as [[l sl0] stc0], Hl as [_ F2];
        injection E as <- <- <- <- <-; rewrite orb_true_r; intuition discriminate.
    + destruct (reconcile_sparse st d (r_leaves s)) as [[l sl0] stc0], Hs as [F1 F2].
      injection E as <- <- <- <- <-. rewrite orb_false_r. repeat split; auto; try (apply F2; assumption). intros ->. reflexivity.
  - destruct (r_primed s || negb (length (r_leaves s) =? 0));
      injection E as <- <- <- <- <-; repeat split; auto; try discriminate; intros ->; reflexivity.
Qed.

Definition pub_inv (st : store) (s : rstate) (vals : list Z) : Prop :=
  exists k, capk (r_cap s) k /\ tree_inv f cf st (r_leaves s) vals k (r_combs s) /\
            r_pub s = agg_src cf (r_leaves s) (r_combs s)
                        (root_aggregate (c_has_zero cf) (2 ^ k) (length (r_leaves s)) (length (r_combs s))).

Definition cycle_inv (st : store) (s : rstate) (vals : list Z) : Prop :=
  if r_published s then pub_inv st s vals else (r_cap s = 0 /\ r_combs s = []).

Lemma pub_inv_result st s vals : pub_inv st s vals -> result_of cf st s = spec_result f cf vals.
Proof.
  intros [k [_ [T P]]]. unfold result_of. rewrite P. apply (tree_inv_result f cf Hzv st _ vals k _ T).
Qed.

Definition ticked_leaves (d : delta) (L' : list leaf) : list nat :=
  flat_map (fun sk => match key_index (snd sk) L' with Some i => [i] | None => [] end) (d_mod d).

Definition ticked_eff (st : store) (d : delta) (coll : bool) (L' : list leaf) : list nat :=
  if coll && available cf st then ticked_leaves d L' else [].

Lemma agg_src_presence L combs combs' a :
  (forall p, present combs' p = present combs p) -> agg_src cf L combs' a = agg_src cf L combs a.
Proof.
  intros H. destruct a as [|i|p]; simpl; try reflexivity.
  specialize (H p). unfold present in H.
  destruct (nth_opt p combs') as [[c'|]|], (nth_opt p combs) as [[c|]|]; try reflexivity; discriminate.
Qed.

Definition ev_combs (e : ev) : list (option comb) := fst (fst e).

Lemma reduce_cycle_state st d coll zero s : coll || zero = true ->
  o_state (reduce_cycle f cf st d coll zero s) =
  let '(s1, spos, rebuilt) :=
    reconcile cf st d coll (set_combs (destroy_previous s) (r_combs (destroy_previous s))) in
  set_combs s1 (ev_combs (fold_left (eval_at f cf st (r_leaves s1) (r_cap s1))
                            (eval_positions cf st d coll zero rebuilt spos s1) (r_combs s1, [], []))).
Proof.
  intros Hev. unfold reduce_cycle. rewrite Hev, Hlift. cbn [negb].
  destruct (reconcile _ _ _ _ _) as [[s1 spos] rebuilt]. destruct (fold_left _ _ _) as [[combs log] w]. reflexivity.
Qed.

Lemma eval_positions_eq st d coll zero b spos s1 : coll || zero = true ->
  eval_positions cf st d coll zero b spos s1 =
  sort_desc_unique (filter (present (r_combs s1)) (if b then spos else []) ++
                    concat (map (live_path (r_cap s1) (r_combs s1)) (ticked_eff st d coll (r_leaves s1))) ++
                    (if zero && (length (r_leaves s1) =? 1) && present (r_combs s1) 0 then [0] else [])).
Proof.
  intros Hev. unfold eval_positions, ticked_eff, ticked_leaves. rewrite Hev, andb_false_r.
  assert (E : forall l, concat (map (fun sk : nat * Z => match key_index (snd sk) (r_leaves s1) with
                                                          | Some i => live_path (r_cap s1) (r_combs s1) i
                                                          | None => []
                                                          end) l) =
                        concat (map (live_path (r_cap s1) (r_combs s1))
                                    (flat_map (fun sk => match key_index (snd sk) (r_leaves s1) with Some i => [i] | None => [] end) l))).
  { induction l as [|sk r IH]; [reflexivity|]. simpl. rewrite IH. destruct (key_index (snd sk) (r_leaves s1)); reflexivity. }
  rewrite E. destruct b, (coll && available cf st); reflexivity.
Qed.

(* The state that carries the combiners of the pass satisfies [pub_inv].  The first two conjuncts
   only repeat hypotheses ([set_combs] keeps both fields): with them the conclusion is the goal of
   [reduce_cycle_correct] after [reduce_cycle_state], so that each of its branches closes by one
   [apply]. *)
Lemma pub_inv_close st s1 L' vals' k E :
  r_published s1 = true -> r_leaves s1 = L' -> capk (r_cap s1) k -> length (r_combs s1) = internals (2 ^ k) ->
  r_pub s1 = agg_src cf L' (r_combs s1) (root_aggregate (c_has_zero cf) (2 ^ k) (length L') (length (r_combs s1))) ->
  restores_inv f cf st L' vals' (r_cap s1) k (r_combs s1) E ->
  let s2 := set_combs s1 (ev_combs (fold_left (eval_at f cf st (r_leaves s1) (r_cap s1)) E (r_combs s1, [], []))) in
  r_published s2 = true /\ r_leaves s2 = L' /\ pub_inv st s2 vals'.
Proof.
  intros Hpd <- Ck Hlen Hpub (combs2 & log & w & -> & T & Hp). split; [exact Hpd|]. split; [reflexivity|].
  exists k. split; [exact Ck|]. split; [exact T|].
  cbn [set_combs r_pub r_leaves r_combs]. rewrite Hpub, Hlen.
  destruct T as [_ _ _ [<- _] _]. symmetry. apply agg_src_presence, Hp.
Qed.

(* A lemma of its own although it has one user: opening rebuild_structure inside
   [reduce_cycle_correct] rewrites the body of the model function within the cycle term, which is
   slow to check. *)
Lemma rebuild_lifted st s L' sl full :
  let c := next_capacity cf (r_cap s) (length L') in
  let grown := negb (c =? r_cap s) in
  let combs0 := if grown then repeat None (internals c) else r_combs s in
  let positions := if full || grown then down_from (length combs0)
                   else sort_desc_unique (concat (map (leaf_path c (length combs0)) sl)) in
  exists combs1 cr rt,
    fold_left (phase1_at cf c (length L')) positions (combs0, [], []) = (combs1, cr, rt) /\
    let rb := rebuild_structure cf st s L' sl full in
    r_leaves (rb_state rb) = L' /\ r_cap (rb_state rb) = c /\ r_combs (rb_state rb) = combs1 /\
    r_published (rb_state rb) = true /\
    r_pub (rb_state rb) = agg_src cf L' combs1 (root_aggregate (c_has_zero cf) c (length L') (length combs1)) /\
    rb_positions rb = positions.
Proof.
  unfold rebuild_structure. cbv zeta. rewrite Hlift.
  destruct (fold_left (phase1_at _ _ _) _ _) as [[combs1 cr] rt]. exists combs1, cr, rt. cbn. auto 7.
Qed.

Theorem reduce_cycle_correct st0 st d coll zero s vals L' sl stc full pr vals' :
  cycle_inv st0 s vals -> coll || zero = true ->
  reconcile_leaves cf st d coll s = (L', sl, stc, full, pr) ->
  leaf_vals st L' vals' ->
  (full && (stc || negb (r_published s)) = false ->
     forall i, ~ In i sl -> ~ In i (ticked_eff st d coll L') -> nth_opt i vals' = nth_opt i vals) ->
  let s2 := o_state (reduce_cycle f cf st d coll zero s) in
  r_published s2 = true /\ r_leaves s2 = L' /\ pub_inv st s2 vals' /\ result_of cf st s2 = spec_result f cf vals'.
Proof.
  intros Hinv Hev HRL Hvals' Hv.
  destruct (reconcile_leaves_spec st d coll s L' sl stc full pr HRL) as (HL & Hns & Hunp).
  cut (let s2 := o_state (reduce_cycle f cf st d coll zero s) in
       r_published s2 = true /\ r_leaves s2 = L' /\ pub_inv st s2 vals').
  { cbv zeta. intros (G1 & G2 & G3). auto using pub_inv_result. }
  rewrite reduce_cycle_state by exact Hev. unfold reconcile.
  change (reconcile_leaves cf st d coll (set_combs (destroy_previous s) (r_combs (destroy_previous s))))
    with (reconcile_leaves cf st d coll s).
  rewrite HRL. cbn [set_combs destroy_previous r_leaves r_cap r_combs r_published r_pub].
  (* what is known of the old capacity and combiner list, published or not *)
  assert (Hold : exists k0, capk (r_cap s) k0 /\ length (r_combs s) = internals (r_cap s)).
  { unfold cycle_inv in Hinv. destruct (r_published s); [|destruct Hinv as [-> ->]; exists 0; split; [right|]; auto].
    destruct Hinv as (k0 & C0 & T0 & _). exists k0. split; [exact C0|]. rewrite (capk_internals _ _ C0). apply T0. }
  destruct Hold as (k0 & Ck0 & Hlen0).
  destruct (stc || negb (r_published s)) eqn:Erb; cbv zeta iota beta.
  - (* rebuild_structure *)
    match goal with |- context [rebuild_structure cf st ?S L' sl full] =>
      destruct (rebuild_lifted st S L' sl full) as (combs1 & cr & rt & Eph & R1 & R2 & R3 & R4 & R5 & R6) end.
    cbn [r_cap r_combs] in Eph, R2, R5, R6. set (c := next_capacity cf (r_cap s) (length L')) in *.
    destruct (next_capacity_spec cf (r_cap s) (length L') k0 Ck0) as (k & Ck & Hcap & Hz). fold c in Ck.
    assert (Hlen : length (if negb (c =? r_cap s) then repeat None (internals c) else r_combs s) = internals (2 ^ k)).
    { rewrite <- (capk_internals c k Ck). destruct (Nat.eqb_spec c (r_cap s)) as [Ec|Ec]; [rewrite Ec; exact Hlen0|apply repeat_length]. }
    apply (pub_inv_close st _ L' vals' k); rewrite ?eval_positions_eq, ?R1, ?R2, ?R3, ?R5, ?R6 by exact Hev;
      [exact R4|reflexivity|exact Ck| | |].
    + destruct (phase1_spec cf c (length L') _ _ _ _ _ _ _ Eph) as [-> _]. exact Hlen.
    + destruct Ck as [->|[-> ->]]; reflexivity.
    + (* the two passes, by the cycle lemmas *)
      destruct (full || negb (c =? r_cap s)) eqn:Efull.
      * (* full: first publication, growth, or a full reconcile *)
        apply (cycle_full f cf f_assoc Hlift Hzv c k Ck st L' vals' _ combs1 cr rt); assumption.
      * (* partial: capacity unchanged, only the paths of the structural leaves; there is an old tree *)
        apply orb_false_iff in Efull. destruct Efull as [-> Ec]. apply negb_false_iff in Ec.
        rewrite Ec in Eph |- *. cbn [negb] in Eph |- *. apply Nat.eqb_eq in Ec.
        unfold cycle_inv in Hinv. destruct (r_published s); [|discriminate (Hunp eq_refl)].
        destruct Hinv as (k1 & Ck1 & T0 & _). rewrite <- Ec in Ck1. rewrite (capk_inj _ _ _ Ck1 Ck) in T0.
        apply (cycle_partial f cf f_assoc Hlift Hzv c k Ck st0 st (r_leaves s) vals L' vals' _ sl _ _ combs1 cr rt); auto.
  - (* no rebuild: nothing structural, already published: only values ticked *)
    apply orb_false_iff in Erb. destruct Erb as [-> Epub]. apply negb_false_iff in Epub.
    destruct (Hns eq_refl) as [-> ->]. unfold cycle_inv in Hinv. rewrite Epub in Hinv. destruct Hinv as (k & Ck & T0 & P0).
    apply (pub_inv_close st _ (r_leaves s) vals' k); cbn [r_leaves r_cap r_combs r_pub]; [exact Epub|reflexivity|exact Ck|apply T0|exact P0|].
    rewrite eval_positions_eq by exact Hev. cbn [r_leaves r_cap r_combs].
    (* the partial cycle with no structural leaf: its structural pass runs over [] and computes away *)
    apply (cycle_partial f cf f_assoc Hlift Hzv (r_cap s) k Ck st0 st (r_leaves s) vals (r_leaves s) vals' (r_combs s) [] _ _
             (r_combs s) [] []); auto; [apply T0|exact (Hv (andb_false_r full))].
Qed.

(* one engine cycle as seen by the reduce node: store and slot-ordered delta are those after the
   cycle's mutations; [cy_vals] is ghost, the values of the reconciled leaves in dense order *)
Record cyc := mkCyc { cy_store : store; cy_delta : delta; cy_coll : bool; cy_zero : bool; cy_vals : list Z }.

Definition step (s : rstate) (c : cyc) : rstate :=
  o_state (reduce_cycle f cf (cy_store c) (cy_delta c) (cy_coll c) (cy_zero c) s).

Definition run (h : list cyc) : rstate := fold_left step h rstate0.

(* The hypotheses about the SOURCE collection (property C05, coherence of the collection with its
   delta), on one cycle; they are assumed, not derived from the slot-store model.
   The guard is a conjunction because [full] is acted on only when rebuild_structure runs, which is
   when [stc || negb (r_published s)] (Reduce.reconcile).  Growth rebuilds everything as well but is
   not excepted: there the hypothesis is asked although [cycle_full] does not use it. *)
Definition src_ok (s : rstate) (vals : list Z) (c : cyc) : Prop :=
  if cy_coll c || cy_zero c then
    let '(L', sl, stc, full, _) := reconcile_leaves cf (cy_store c) (cy_delta c) (cy_coll c) s in
    leaf_vals (cy_store c) L' (cy_vals c) /\
    (full && (stc || negb (r_published s)) = false ->
       forall i, ~ In i sl -> ~ In i (ticked_eff (cy_store c) (cy_delta c) (cy_coll c) L') ->
                 nth_opt i (cy_vals c) = nth_opt i vals)
  else cy_vals c = vals /\ (r_published s = true -> leaf_vals (cy_store c) (r_leaves s) vals).

Fixpoint hist_ok (s : rstate) (vals : list Z) (h : list cyc) : Prop :=
  match h with
  | [] => True
  | c :: r => src_ok s vals c /\ hist_ok (step s c) (cy_vals c) r
  end.

Definition final (a : store * list Z) (h : list cyc) : store * list Z :=
  fold_left (fun _ c => (cy_store c, cy_vals c)) h a.

Lemma step_inv st s vals c : cycle_inv st s vals -> src_ok s vals c ->
  cycle_inv (cy_store c) (step s c) (cy_vals c) /\
  (cy_coll c || cy_zero c = true \/ r_published s = true -> r_published (step s c) = true).
Proof.
  intros Hinv Hsrc. unfold src_ok in Hsrc. unfold step, cycle_inv at 1.
  destruct (cy_coll c || cy_zero c) eqn:Ev.
  - destruct (reconcile_leaves cf (cy_store c) (cy_delta c) (cy_coll c) s) as [[[[L' sl] stc] full] pr] eqn:HRL.
    destruct Hsrc as [Hv1 Hv2].
    destruct (reduce_cycle_correct st (cy_store c) (cy_delta c) (cy_coll c) (cy_zero c) s vals L' sl stc full pr
                (cy_vals c) Hinv Ev HRL Hv1 Hv2) as (G1 & _ & G3 & _).
    rewrite G1. auto.
  - unfold reduce_cycle. rewrite Ev. cbn [negb o_state]. split; [|intros [|]; congruence].
    destruct Hsrc as [-> Hl]. unfold cycle_inv in Hinv. destruct (r_published s); [|exact Hinv].
    destruct Hinv as (k & C & [T1 T2 T3 T4 T5] & P). exists k. split; [exact C|]. split; [constructor; auto|exact P].
Qed.

Lemma run_inv : forall h st s vals, cycle_inv st s vals -> hist_ok s vals h ->
  cycle_inv (fst (final (st, vals) h)) (fold_left step h s) (snd (final (st, vals) h)).
Proof.
  induction h as [|c r IH]; intros st s vals Hinv Hok; [exact Hinv|].
  destruct Hok as [H1 H2]. cbn [fold_left final]. apply IH; [|exact H2]. apply (step_inv st s vals c); assumption.
Qed.

End Step.

(* a concrete state that satisfies the invariant: two live leaves, one combiner holding their sum *)
Definition ex_cf : cfg := mkCfg false true false 0%Z true.
Definition ex_store (v1 : Z) : store := mkStore 8 [2; 3; 4; 5; 6; 7] [] [(0, (10%Z, 1%Z)); (1, (11%Z, v1))] true.
Definition ex_leaves : list leaf := [mkLeaf 10%Z 0; mkLeaf 11%Z 1].
Definition ex_combs (out : Z) : list (option comb) := [Some (mkComb SNone SNone (Some out) false)].

Lemma ex_leaf_vals v1 : leaf_vals (ex_store v1) ex_leaves [1%Z; v1].
Proof. repeat (apply leaf_vals_cons; [reflexivity|]). apply leaf_vals_nil. Qed.

Lemma ex_tree_inv v1 : tree_inv Z.add ex_cf (ex_store v1) ex_leaves [1%Z; v1] 1 (ex_combs (1 + v1)%Z).
Proof.
  constructor.
  - apply ex_leaf_vals.
  - simpl. lia.
  - intros _. lia.
  - split; [reflexivity|]. intros p Hp. assert (p = 0) by (vm_compute in Hp; lia). subst p. reflexivity.
  - intros p Hp _. assert (p = 0) by (vm_compute in Hp; lia). subst p.
    intros j u H1 H2 H3 E. assert (j = 1) by lia. subst j. assert (u = 0) by (simpl in H3; lia). subst u.
    split; [|intros Hz; discriminate Hz]. intros _. eexists. split; [reflexivity|]. reflexivity.
Qed.

Definition example_inv : Prop := tree_inv Z.add ex_cf (ex_store 2%Z) ex_leaves [1%Z; 2%Z] 1 (ex_combs 3%Z).

(* leaf 1 ticks from 2 to 64: no structural leaf, one ticked leaf; the combiner then holds 65 *)
Definition example_cycle : Prop :=
  exists combs2 log w,
    fold_left (eval_at Z.add ex_cf (ex_store 64%Z) ex_leaves (2 ^ 1))
              (visited 1 (ex_combs 3%Z) (sort_desc_unique (concat (map (leaf_path (2 ^ 1) 1) []))) [1] [])
              (ex_combs 3%Z, [], []) = (combs2, log, w) /\
    tree_inv Z.add ex_cf (ex_store 64%Z) ex_leaves [1%Z; 64%Z] 1 combs2 /\
    (forall p, present combs2 p = present (ex_combs 3%Z) p).

(* a concrete three-cycle history produced by the slot-store model: {10:1, 11:2} added, 11 ticks to 64,
   10 removed (swap-last) *)
Definition exh_cf : cfg := mkCfg false true false 0%Z true.
Definition exh_sd1 := store_apply_dict [] [(10%Z, 1%Z); (11%Z, 2%Z)] store0.
Definition exh_st1 := store_validate (fst exh_sd1).
Definition exh_sd2 := store_apply_dict [] [(11%Z, 64%Z)] exh_st1.
Definition exh_sd3 := store_apply_dict [10%Z] [] (fst exh_sd2).
Definition exh_hist : list (cyc) :=
  [mkCyc exh_st1 (snd exh_sd1) true false [1%Z; 2%Z];
   mkCyc (fst exh_sd2) (snd exh_sd2) true false [1%Z; 64%Z];
   mkCyc (fst exh_sd3) (snd exh_sd3) true false [64%Z]].

Lemma exh_ok : hist_ok Z.add exh_cf rstate0 [] exh_hist.
Proof.
  unfold exh_hist. cbn [hist_ok]. split; [|split; [|split; [|exact I]]];
    unfold src_ok; cbn [cy_coll cy_zero cy_store cy_delta cy_vals orb];
    vm_compute (reconcile_leaves _ _ _ _ _); cbn beta iota; split.
  all: try (repeat (apply leaf_vals_cons; [reflexivity|]); apply leaf_vals_nil).
  - intros Hc. vm_compute in Hc. discriminate Hc.
  - intros _ i _ Hi. vm_compute in Hi.
    destruct i as [|[|i]]; try reflexivity. exfalso. apply Hi. left. reflexivity.
  - intros _ i Hi _. vm_compute in Hi.
    destruct i as [|[|[|i]]]; try reflexivity; exfalso; apply Hi; simpl; auto.
Qed.

Example exh_result :
  r_published (run Z.add exh_cf exh_hist) = true /\
  result_of exh_cf (fst (final (store0, []) exh_hist)) (run Z.add exh_cf exh_hist) = Some 64%Z.
Proof. vm_compute. split; reflexivity. Qed.

(* the first leaf of the right half of the combine point at heap position p *)
Definition mid (k p : nat) : nat :=
  let d := Nat.log2 (p + 1) in (p + 1 - 2 ^ d) * 2 ^ (k - d) + 2 ^ (k - d - 1).

Lemma mid_pos k j u : 1 <= j -> j <= k -> u < 2 ^ (k - j) -> mid k (pos k j u) = (2 * u + 1) * 2 ^ (j - 1).
Proof.
  intros H0 H1 H2. unfold mid. rewrite (pos_log2 k j u H2).
  replace (k - (k - j)) with j by lia.
  replace (pos k j u + 1 - 2 ^ (k - j)) with u by (unfold pos; pose proof (pow2_pos (k - j)); lia).
  rewrite (pow2_half j H0). lia.
Qed.

Lemma odd_pow_inj : forall a b u v, (2 * u + 1) * 2 ^ a = (2 * v + 1) * 2 ^ b -> a = b /\ u = v.
Proof.
  induction a as [|a IH]; intros [|b] u v H; rewrite ?pow2_S in H; simpl (2 ^ 0) in H; try lia.
  destruct (IH b u v) as [-> ->]; [lia|auto].
Qed.

Lemma odd_decomp : forall k m, 1 <= m -> m < 2 ^ k ->
  exists j u, 1 <= j /\ j <= k /\ u < 2 ^ (k - j) /\ m = (2 * u + 1) * 2 ^ (j - 1).
Proof.
  induction k as [|k IH]; intros m H1 H2; [simpl in H2; lia|]. rewrite pow2_S in H2.
  destruct (Nat.Even_or_Odd m) as [[h ->]|[h ->]].
  - destruct (IH h ltac:(lia) ltac:(lia)) as (j & u & A1 & A2 & A3 & ->).
    exists (S j), u. replace (S j - 1) with (S (j - 1)) by lia. rewrite pow2_S.
    repeat split; [lia|lia|exact A3|lia].
  - exists 1, h. replace (S k - 1) with k by lia. simpl. lia.
Qed.

Lemma NoDup_map_inj_in {A B} (g : A -> B) (l : list A) :
  (forall x y, In x l -> In y l -> g x = g y -> x = y) -> NoDup l -> NoDup (map g l).
Proof.
  induction l as [|a r IH]; intros Hinj Hnd; simpl; [constructor|].
  inversion Hnd as [|? ? Hn Hr]; subst. constructor.
  - intros Hin. apply in_map_iff in Hin. destruct Hin as [y [Hy1 Hy2]].
    assert (y = a) by (apply Hinj; simpl; auto). subst. contradiction.
  - apply IH; [|assumption]. intros x y Hx Hy. apply Hinj; simpl; auto.
Qed.

Section Count.
Variable cf : cfg.
Variable L : list leaf.
Variable k : nat.
Hypothesis Hcap : length L <= 2 ^ k.
Let live := length L.
Let n := internals (2 ^ k).

Definition needed_list : list nat := filter (needed cf (2 ^ k) live) (seq 0 n).

Lemma needed_list_NoDup : NoDup needed_list.
Proof. apply NoDup_filter. apply seq_NoDup. Qed.

Lemma in_needed_list p : In p needed_list <-> p < n /\ needed cf (2 ^ k) live p = true.
Proof. unfold needed_list. rewrite filter_In, in_seq. split; intros [H1 H2]; split; auto; lia. Qed.

Lemma in_needed_mid p : ~ (c_has_zero cf = true /\ live = 1) ->
  (In p needed_list <->
   exists j u, 1 <= j /\ j <= k /\ u < 2 ^ (k - j) /\ p = pos k j u /\ (2 * u + 1) * 2 ^ (j - 1) < live).
Proof.
  intros Hl. rewrite in_needed_list. split.
  - intros [Hp Hn]. destruct (pos_coords k p Hp) as (j & u & A1 & A2 & A3 & ->).
    apply needed_iff in Hn; try assumption. rewrite (pow2_half j A1) in Hn.
    exists j, u. repeat split; try assumption. destruct Hn as [[_ Hc]|Hc]; [tauto|lia].
  - intros (j & u & A1 & A2 & A3 & -> & Hm). split; [apply pos_internal; assumption|].
    apply needed_iff; try assumption. right. rewrite (pow2_half j A1). lia.
Qed.

(* one combiner per live index 1 .. live-1 (the combine point whose right half starts there), so
   live - 1 of them - unless the root is needed for a singleton with a zero *)
Lemma needed_count_many : ~ (c_has_zero cf = true /\ live = 1) -> length needed_list = live - 1.
Proof.
  intros Hl. rewrite <- (map_length (mid k) needed_list), <- (seq_length (live - 1) 1).
  apply Nat.le_antisymm.
  - apply NoDup_incl_length.
    + apply NoDup_map_inj_in; [|apply needed_list_NoDup].
      intros p q Hp Hq E. apply (in_needed_mid _ Hl) in Hp, Hq.
      destruct Hp as (j & u & A1 & A2 & A3 & -> & _), Hq as (j' & u' & B1 & B2 & B3 & -> & _).
      rewrite !mid_pos in E by assumption. apply odd_pow_inj in E. destruct E as [E ->].
      replace j' with j by lia. reflexivity.
    + intros m Hm. apply in_map_iff in Hm. destruct Hm as (p & <- & Hp).
      apply (in_needed_mid _ Hl) in Hp. destruct Hp as (j & u & A1 & A2 & A3 & -> & Hm).
      rewrite mid_pos by assumption. apply in_seq. pose proof (pow2_pos (j - 1)). lia.
  - apply NoDup_incl_length; [apply seq_NoDup|].
    intros m Hm. apply in_seq in Hm.
    destruct (odd_decomp k m) as (j & u & A1 & A2 & A3 & ->); [lia|fold live in Hcap; lia|].
    apply in_map_iff. exists (pos k j u). split; [apply mid_pos; assumption|].
    apply (in_needed_mid _ Hl). exists j, u. repeat split; assumption || lia.
Qed.

Lemma needed_small p : live <= 1 -> p < n ->
  (needed cf (2 ^ k) live p = true <-> p = 0 /\ c_has_zero cf = true /\ live = 1).
Proof.
  intros Hl Hp. destruct (pos_coords k p Hp) as [j [u [A1 [A2 [A3 ->]]]]]. unfold live in *.
  rewrite (needed_iff cf k (length L) j u A1 A2 A3). pose proof (pow2_pos (j - 1)).
  split; [intros [G|G]; [exact G|lia]|intros G; left; exact G].
Qed.

Lemma needed_count_zero_singleton : c_has_zero cf = true -> 1 <= k -> live = 1 -> length needed_list = 1.
Proof.
  intros Hz Hk Hl.
  assert (Hn : 0 < n) by (unfold n; rewrite internals_pow2; pose proof (pow2_ge2 k Hk); lia).
  transitivity (length [0]); [|reflexivity]. apply Nat.le_antisymm.
  - apply NoDup_incl_length; [apply needed_list_NoDup|].
    intros p Hp. apply in_needed_list in Hp. destruct Hp as [H1 H2].
    apply needed_small in H2; [|lia|assumption]. left. symmetry. apply H2.
  - apply NoDup_incl_length; [repeat constructor; intros []|].
    intros p [<-|[]]. apply in_needed_list. split; [exact Hn|]. apply needed_small; [lia|exact Hn|auto].
Qed.

End Count.

Lemma filter_map_length {A B} (g : B -> bool) (h : A -> B) l :
  length (filter g (map h l)) = length (filter (fun x => g (h x)) l).
Proof. induction l as [|a r IH]; simpl; [reflexivity|]. destruct (g (h a)); simpl; rewrite IH; reflexivity. Qed.

(* the test inside Reduce.combiner_count, which is convertible with [length (filter is_some _)] *)
Definition is_some {A} (o : option A) : bool := match o with Some _ => true | None => false end.

Lemma count_present (combs : list (option comb)) :
  length (filter is_some combs) = length (filter (present combs) (seq 0 (length combs))).
Proof.
  induction combs as [|a r IH]; [reflexivity|].
  cbn [length seq]. rewrite <- seq_shift. cbn [filter].
  assert (Hr : length (filter (present (a :: r)) (map S (seq 0 (length r)))) = length (filter (present r) (seq 0 (length r)))).
  { rewrite filter_map_length. reflexivity. }
  unfold present at 1. cbn [nth_opt]. destruct a; cbn [is_some length]; rewrite IH, Hr; reflexivity.
Qed.

Theorem combiner_count_number cf (L : list leaf) k combs :
  length L <= 2 ^ k -> (c_has_zero cf = true -> 1 <= k) -> wf_presence cf L k combs ->
  length (filter is_some combs) =
    if 2 <=? length L then length L - 1
    else if c_has_zero cf && (length L =? 1) then 1 else 0.
Proof.
  intros Hcap Hz [Hlen Hpres]. rewrite count_present. rewrite Hlen.
  assert (He : filter (present combs) (seq 0 (internals (2 ^ k))) = needed_list cf L k).
  { unfold needed_list. apply filter_ext_in. intros p Hp. apply in_seq in Hp. apply Hpres. lia. }
  rewrite He.
  destruct (Nat.leb_spec 2 (length L)); [apply needed_count_many; [assumption|lia]|].
  destruct (c_has_zero cf) eqn:Ez, (Nat.eqb_spec (length L) 1); cbn [andb];
    try (rewrite needed_count_many; [lia|assumption|intros [? ?]; congruence]).
  apply needed_count_zero_singleton; auto.
Qed.
