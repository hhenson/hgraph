(* EngineFacts.v — theorems about the flat engine model (Engine.v).  Everything the engine does is a sequence
   of steps [acts]: updates of a node by itself, requests of a node for itself, and writes (output + [notify_from],
   characterised once by [notify_spec]); the model's functions are lifted into it in one place.  What an
   evaluation does to the OTHER nodes is read off that ([acts_out] and the library); what it does to the node
   itself is the scheduling invariant inside a cycle ([node_ok], carried as [cur_ok] for the node under
   evaluation, [scan_ok] between evaluations) and between cycles ([boundary]).  Then the start phase ([start_ok]),
   the run loop, readiness, the counting of evaluations, and why a node is evaluated in a cycle. *)
Require Import Base Sched SchedFacts Engine.
From Coq Require Import ZifyBool Sorted.

Lemma emit_fields l g :
  g_now (emit l g) = g_now g /\ g_slots (emit l g) = g_slots g /\ g_nst (emit l g) = g_nst g /\
  g_nodes (emit l g) = g_nodes g /\ g_err (emit l g) = g_err g.
Proof. repeat split. Qed.

Lemma slot_at_set_same i w g :
  (i < length (g_slots g))%nat -> nth i (set_nth i w (g_slots g)) MIN_DT = w.
Proof. intros H. unfold set_nth. rewrite nth_update_same; auto. Qed.

Lemma slot_at_set_other i j w l : i <> j -> nth j (set_nth i w l) MIN_DT = nth j l MIN_DT.
Proof. intros H. unfold set_nth. apply nth_update_other; auto. Qed.

Lemma node_at_upd_same i f g : (i < length (g_nodes g))%nat -> node_at i (upd_node i f g) = f (node_at i g).
Proof. intros H. unfold node_at, upd_node; simpl. apply nth_update_same; auto. Qed.

Lemma node_at_upd_other i j f g : i <> j -> node_at j (upd_node i f g) = node_at j g.
Proof. intros H. unfold node_at, upd_node; simpl. apply nth_update_other; auto. Qed.

Lemma upd_node_fields i f g :
  g_now (upd_node i f g) = g_now g /\ g_slots (upd_node i f g) = g_slots g /\ g_nst (upd_node i f g) = g_nst g /\
  g_log (upd_node i f g) = g_log g /\ g_err (upd_node i f g) = g_err g /\
  length (g_nodes (upd_node i f g)) = length (g_nodes g).
Proof. repeat split. unfold upd_node; simpl. apply update_length. Qed.

Lemma node_at_upd i f g m :
  node_at m (upd_node i f g) = if (m =? i)%nat && (i <? length (g_nodes g))%nat then f (node_at m g) else node_at m g.
Proof. apply nth_update. Qed.

Lemma upd_pres (P : nst -> Prop) i f j g :
  (forall x, P x -> P (f x)) -> P (node_at j g) -> P (node_at j (upd_node i f g)).
Proof. intros H Hp. rewrite node_at_upd. destruct (_ && _); auto. Qed.

Definition keeps {A} (obs : nst -> A) (f : nst -> nst) : Prop := forall x, obs (f x) = obs x.

Lemma obs_upd {A} (obs : nst -> A) i f j g :
  keeps obs f -> obs (node_at j (upd_node i f g)) = obs (node_at j g).
Proof. intros H. apply (upd_pres (fun x => obs x = obs (node_at j g))); auto. intros x <-. apply H. Qed.

Lemma first_time_in d l : l <> [] -> exists tg, In (first_time d l, tg) l.
Proof. destruct l as [|[w t] r]; [congruence|]. intros _. exists t. left; auto. Qed.

(* The three cases of schedule_node in one statement.  The uses take its first three conjuncts; the facts about
   the slot and the cache below are proved off the definition, which is no longer than this. *)
Definition sn_applies (i : nat) (when : Z) (g : gst) : bool :=
  (slot_at i g <=? g_now g) || (when <? slot_at i g).

Lemma schedule_node_spec i when g :
  let g' := schedule_node i when g in
  g_now g' = g_now g /\ g_nodes g' = g_nodes g /\ g_log g' = g_log g /\
  (when < g_now g -> g_err g' = 3 /\ g_slots g' = g_slots g /\ g_nst g' = g_nst g) /\
  (g_now g <= when ->
     g_err g' = g_err g /\
     (sn_applies i when g = true ->
        g_slots g' = set_nth i when (g_slots g) /\
        g_nst g' = (if (g_now g <? when) && (when <? g_nst g) then when else g_nst g)) /\
     (sn_applies i when g = false -> g_slots g' = g_slots g /\ g_nst g' = g_nst g)).
Proof.
  unfold schedule_node, sn_applies. cbn zeta.
  destruct (when <? g_now g) eqn:E1.
  - simpl. repeat split; try lia; intros; lia.
  - destruct ((slot_at i g <=? g_now g) || (when <? slot_at i g)) eqn:E2; simpl;
      repeat split; auto; try lia; intros; try discriminate; auto.
Qed.

Lemma schedule_node_now i w g : g_now (schedule_node i w g) = g_now g.
Proof. apply (schedule_node_spec i w g). Qed.

Lemma node_at_schedule_node i w j g : node_at j (schedule_node i w g) = node_at j g.
Proof. unfold node_at. destruct (schedule_node_spec i w g) as (_ & N & _). rewrite N. auto. Qed.

Lemma schedule_node_len i when g : length (g_slots (schedule_node i when g)) = length (g_slots g).
Proof.
  unfold schedule_node. destruct (when <? g_now g); simpl; auto.
  destruct ((slot_at i g <=? g_now g) || (when <? slot_at i g)); simpl; auto. apply set_nth_length.
Qed.

Lemma schedule_node_nst i when g :
  g_nst (schedule_node i when g) <= g_nst g /\ (g_now g < g_nst g -> g_now g < g_nst (schedule_node i when g)).
Proof.
  unfold schedule_node. destruct (when <? g_now g); simpl; try lia.
  destruct ((slot_at i g <=? g_now g) || (when <? slot_at i g)); simpl; try lia.
  destruct ((g_now g <? when) && (when <? g_nst g)) eqn:E; lia.
Qed.

Lemma schedule_node_slot_other i j when g :
  i <> j -> slot_at j (schedule_node i when g) = slot_at j g.
Proof.
  intros H. unfold schedule_node. destruct (when <? g_now g); simpl; auto.
  destruct ((slot_at i g <=? g_now g) || (when <? slot_at i g)); simpl; auto.
  unfold slot_at; simpl. apply slot_at_set_other; auto.
Qed.

Lemma schedule_node_slot_self i when g :
  (i < length (g_slots g))%nat -> g_now g <= when ->
  let g' := schedule_node i when g in
  (slot_at i g' = when /\ (g_now g < when -> g_nst g' <= when)) \/
  (slot_at i g' = slot_at i g /\ g_now g < slot_at i g <= when).
Proof.
  intros Hi Hw. cbn zeta. unfold schedule_node.
  replace (when <? g_now g) with false by lia.
  destruct ((slot_at i g <=? g_now g) || (when <? slot_at i g)) eqn:E.
  - left. unfold slot_at at 1. simpl. rewrite slot_at_set_same by auto. split; auto.
    intros. destruct ((g_now g <? when) && (when <? g_nst g)) eqn:E2; lia.
  - right. split; auto. lia.
Qed.

(* a notification is a request for the current time *)
Lemma schedule_now j g :
  schedule_node j (g_now g) g =
  mkG (g_now g) (set_nth j (g_now g) (g_slots g)) (g_nst g) (g_nodes g) (g_log g) (g_err g).
Proof.
  unfold schedule_node. rewrite Z.ltb_irrefl.
  replace ((slot_at j g <=? g_now g) || (g_now g <? slot_at j g)) with true by lia. reflexivity.
Qed.

Lemma schedule_node_due i g :
  (i < length (g_slots g))%nat -> slot_at i (schedule_node i (g_now g) g) = g_now g.
Proof. intros Hi. rewrite schedule_now. apply slot_at_set_same, Hi. Qed.

(* line code 10: the cycle line [10; t] that evaluate_graph writes *)
Definition is10 (l : line) : bool := match l with 10 :: _ => true | _ => false end.
Definition log10 (g : gst) : list line := filter is10 (g_log g).

(* a node with inputs [ins] and subscription flags [act] has an active input bound to [src] *)
Definition subscribed (src : nat) (ins : list inspec) (act : list bool) : bool :=
  existsb (fun sa => (i_src (fst sa) =? src)%nat && snd sa) (combine ins act).

(* the one induction over notify_from: every other fact about it is read off this *)
Lemma notify_spec l : forall j src g,
  exists sl, notify_from l j src g = mkG (g_now g) sl (g_nst g) (g_nodes g) (g_log g) (g_err g) /\
    length sl = length (g_slots g) /\
    forall m, nth m sl MIN_DT =
      if (j <=? m)%nat && subscribed src (c_ins (nth (m - j) l dflt_cfg)) (n_act (node_at m g)) &&
         n_started (node_at m g) && (m <? length (g_slots g))%nat
      then g_now g else slot_at m g.
Proof.
  induction l as [|c r IH]; intros j src g; simpl notify_from.
  - exists (g_slots g). split; [destruct g; auto|split; auto].
    intros m. simpl. destruct (m - j)%nat; simpl; rewrite andb_false_r; reflexivity.
  - fold (subscribed src (c_ins c) (n_act (node_at j g))).
    set (b := subscribed src (c_ins c) (n_act (node_at j g)) && n_started (node_at j g)).
    set (g1 := if b then schedule_node j (g_now g) g else g).
    assert (G : g_now g1 = g_now g /\ g_nodes g1 = g_nodes g /\ g_nst g1 = g_nst g /\ g_log g1 = g_log g /\ g_err g1 = g_err g /\
                length (g_slots g1) = length (g_slots g) /\
                forall m, slot_at m g1 = if (m =? j)%nat && b && (j <? length (g_slots g))%nat then g_now g else slot_at m g).
    { unfold g1. destruct b; [rewrite schedule_now|]; simpl; repeat split.
      - apply update_length.
      - intros m. unfold slot_at, set_nth; simpl. rewrite nth_update, andb_true_r. reflexivity.
      - intros m. rewrite andb_false_r. reflexivity. }
    destruct G as (A1 & B1 & C1 & D1 & D2 & E1 & F1).
    destruct (IH (S j) src g1) as (sl & -> & E & F). exists sl.
    rewrite A1, B1, C1, D1, D2, E, E1. repeat split; auto. intros m. rewrite F, F1, A1, E1. unfold node_at. rewrite B1.
    clear. destruct (Nat.eqb_spec m j) as [->|Hm].
    + replace (S j <=? j)%nat with false by lia. rewrite Nat.leb_refl, Nat.sub_diag. reflexivity.
    + destruct (Nat.leb_spec (S j) m) as [H|H].
      * replace (j <=? m)%nat with true by lia. replace (m - j)%nat with (S (m - S j)) by lia. reflexivity.
      * replace (j <=? m)%nat with false by lia. reflexivity.
Qed.

Lemma node_at_notify l j src k g : node_at k (notify_from l j src g) = node_at k g.
Proof. destruct (notify_spec l j src g) as (sl & -> & _). reflexivity. Qed.

(* set_out / set_inv in one: the output value and the time of the notification *)
Definition set_val (v : option Z) (now : Z) (x : nst) : nst :=
  mkN (n_started x) (n_sch x) (n_runs x) v now (n_evals x) (n_act x).

(* a node's update of itself: the time of its last notification changes by a write alone ([acts_write] below) *)
Definition own (f : nst -> nst) : Prop := keeps n_lmt f.

(* ... by its user code: it sets the scheduler state and the subscriptions *)
Definition quiet (f : nst -> nst) : Prop := own f /\ keeps n_started f /\ keeps n_runs f /\ keeps n_evals f.

Lemma quiet_set_sch s : quiet (set_sch s).
Proof. repeat split; auto. Qed.
Lemma quiet_set_act a : quiet (set_act a).
Proof. repeat split; auto. Qed.

Definition any (j : nat) : Prop := True.

Create HintDb acts discriminated.
#[global] Hint Resolve quiet_set_sch quiet_set_act : acts.
#[global] Hint Extern 0 (any _) => exact I : acts.
#[global] Hint Extern 1 (keeps _ _) => (intros ?; reflexivity) : acts.

Section EngineInv.
Variable cfgs : list ncfg.
Variable beh : behaviour.
Notation n := (length cfgs).
Definition cfg (i : nat) : ncfg := nth i cfgs dflt_cfg.

(* the ranking property the wiring layer establishes (C01): producers first *)
Definition well_ranked : Prop :=
  forall i s, (i < n)%nat -> In s (c_ins (cfg i)) -> (i_src s < i)%nat.

Definition pending (g : gst) (i : nat) : list ev := events (n_sch (node_at i g)).

(* v = None: the output is withdrawn (OInvalidate); the observers are told either way *)
Definition write (i : nat) (v : option Z) (g : gst) : gst :=
  notify_from cfgs 0 i (upd_node i (set_val v (g_now g)) g).

Lemma write_frame i v g :
  exists sl, length sl = length (g_slots g) /\
    write i v g = mkG (g_now g) sl (g_nst g) (update i (set_val v (g_now g)) (g_nodes g)) (g_log g) (g_err g).
Proof.
  destruct (notify_spec cfgs 0 i (upd_node i (set_val v (g_now g)) g)) as (sl & E & L & _). exists sl. auto.
Qed.

(* Everything the engine does between two cycle lines is a sequence of these steps; what each of them preserves,
   all of it preserves.  U, T, W: which node may update itself and how, ask for itself, write. *)
Inductive acts (U : nat -> (nst -> nst) -> Prop) (T W : nat -> Prop) (g : gst) : gst -> Prop :=
| acts_refl : acts U T W g g
| acts_emit l g1 : is10 l = false -> acts U T W g g1 -> acts U T W g (emit l g1)
| acts_upd j f g1 : U j f -> acts U T W g g1 -> acts U T W g (upd_node j f g1)
| acts_sched j w g1 : T j -> acts U T W g g1 -> acts U T W g (schedule_node j w g1)
| acts_err e g1 : e <> 9 -> acts U T W g g1 -> acts U T W g (set_err e g1)
| acts_nst w g1 : w <= g_nst g1 /\ (g_now g1 < g_nst g1 -> g_now g1 < w) -> acts U T W g g1 ->
    acts U T W g (mkG (g_now g1) (g_slots g1) w (g_nodes g1) (g_log g1) (g_err g1))
| acts_write i v g1 : W i -> acts U T W g g1 -> acts U T W g (write i v g1).

Section Acts.
Context {U : nat -> (nst -> nst) -> Prop} {T W : nat -> Prop}.

Lemma acts_opt_schedule i p g g1 : T i -> acts U T W g g1 -> acts U T W g (opt_schedule i p g1).
Proof. destruct p; simpl; auto using acts. Qed.

Lemma acts_now g g' : acts U T W g g' -> g_now g' = g_now g.
Proof.
  induction 1; simpl; auto; [rewrite schedule_node_now; auto|].
  destruct (write_frame i v g1) as (sl & _ & ->); auto.
Qed.

Lemma acts_log10 g g' : acts U T W g g' -> log10 g' = log10 g.
Proof.
  induction 1; auto; unfold log10 in *; simpl.
  - rewrite H; auto.
  - destruct (schedule_node_spec j w g1) as (_ & _ & L & _). rewrite L; auto.
  - destruct (write_frame i v g1) as (sl & _ & ->); auto.
Qed.

(* error 9 (out of fuel) is raised by run_loop alone *)
Lemma acts_ne9 g g' : acts U T W g g' -> g_err g <> 9 -> g_err g' <> 9.
Proof.
  induction 1; simpl; auto; intros Hg; specialize (IHacts Hg).
  - unfold schedule_node. destruct (w <? g_now g1); simpl; [lia|]. destruct (_ || _); simpl; auto.
  - destruct (write_frame i v g1) as (sl & _ & ->); auto.
Qed.

Lemma acts_len g g' :
  acts U T W g g' -> length (g_slots g') = length (g_slots g) /\ length (g_nodes g') = length (g_nodes g).
Proof.
  induction 1; simpl; auto.
  - rewrite update_length; auto.
  - rewrite schedule_node_len. destruct (schedule_node_spec j w g1) as (_ & N & _). rewrite N; auto.
  - destruct (write_frame i v g1) as (sl & L & ->); simpl. rewrite update_length. lia.
Qed.

Lemma acts_nst_le g g' : acts U T W g g' -> g_nst g' <= g_nst g /\ (g_now g < g_nst g -> g_now g < g_nst g').
Proof.
  induction 1 as [|l g1 _ A IH|j f g1 _ A IH|j w g1 _ A IH|e g1 _ A IH|w g1 Hw A IH|i v g1 _ A IH];
    try (simpl; auto; lia); pose proof (acts_now _ _ A) as Nw.
  - pose proof (schedule_node_nst j w g1). lia.
  - simpl. lia.
  - destruct (write_frame i v g1) as (sl & _ & ->); auto.
Qed.

Lemma acts_obs {A} (obs : nst -> A) p g g' :
  (forall j f, U j f -> j <> p \/ keeps obs f) ->
  (forall i, W i -> i <> p \/ forall v w, keeps obs (set_val v w)) ->
  acts U T W g g' -> obs (node_at p g') = obs (node_at p g).
Proof.
  intros HU HW. induction 1; auto; rewrite <- IHacts.
  - destruct (HU j f H) as [Hne|Hf]; [rewrite node_at_upd_other; auto|apply obs_upd; auto].
  - rewrite node_at_schedule_node; auto.
  - destruct (write_frame i v g1) as (sl & _ & E). unfold node_at at 1. rewrite E. simpl.
    change (obs (node_at p (upd_node i (set_val v (g_now g1)) g1)) = obs (node_at p g1)).
    destruct (HW i H) as [Hne|Hf]; [rewrite node_at_upd_other; auto|apply obs_upd; auto].
Qed.

Lemma acts_slot p g g' : (forall j, T j -> j <> p) -> (forall i, ~ W i) -> acts U T W g g' -> slot_at p g' = slot_at p g.
Proof. intros HT HW. induction 1; auto; [rewrite schedule_node_slot_other; auto|destruct (HW i H)]. Qed.
End Acts.

Lemma acts_other (U : nat -> (nst -> nst) -> Prop) (T W : nat -> Prop) i g g' m :
  (forall j f, U j f -> j = i) -> (forall j, W j -> j = i) -> acts U T W g g' -> m <> i -> node_at m g' = node_at m g.
Proof.
  intros HU HW A Hm. apply (acts_obs (fun y => y) m) with (3 := A); [intros j f K; apply HU in K|intros j K; apply HW in K];
    left; congruence.
Qed.

#[local] Hint Constructors acts : acts.
#[local] Hint Resolve acts_opt_schedule : acts.

(* one operation of user code: the shapes its effect can take *)
Inductive op_effect (i : nat) (st : bool) (g : gst) : op -> gst -> Prop :=
| oe_none o : op_effect i st g o g
| oe_log o l : is10 l = false -> op_effect i st g o (emit l g)
| oe_schedule d tag s' p l :
    c_sched (cfg i) = true -> is10 l = false ->
    schedule (g_now g) st (g_now g + d) tag (n_sch (node_at i g)) = (s', p) ->
    op_effect i st g (OSchedule d tag) (emit l (opt_schedule i p (upd_node i (set_sch s') g)))
| oe_shrink o s' l :
    c_sched (cfg i) = true -> is10 l = false -> shrinks (n_sch (node_at i g)) s' ->
    op_effect i st g o (emit l (upd_node i (set_sch s') g))
| oe_write o v l :
    st = true -> is10 l = false ->
    op_effect i st g o (emit l (write i v g))
| oe_raw d : op_effect i st g (ORaw d) (schedule_node i (g_now g + d) g)
| oe_throw o : op_effect i st g o (set_err 2 g)
| oe_act o a : op_effect i st g o (upd_node i (set_act a) g).

Lemma do_op_effect i st opi o g : op_effect i st g o (do_op cfgs i st opi o g).
Proof.
  unfold do_op. destruct (negb (g_err g =? 0)); [constructor|]. fold (cfg i). cbv zeta.
  destruct o.
  - destruct (c_sched (cfg i)) eqn:Hc; [|constructor].
    destruct (schedule _ _ _ _ _) as [s' p] eqn:Es. apply oe_schedule; auto.
  - destruct (c_sched (cfg i)) eqn:Hc; [|constructor]. apply oe_shrink; auto. apply shrinks_un_schedule_tag.
  - destruct (c_sched (cfg i)) eqn:Hc; [|constructor]. apply oe_shrink; auto. apply shrinks_un_schedule_first.
  - destruct (c_sched (cfg i)) eqn:Hc; [|constructor].
    rewrite (surjective_pairing (pop_tag _ _ _)), pop_tag_fst. apply oe_shrink; auto. apply shrinks_un_schedule_tag.
  - destruct (c_sched (cfg i)) eqn:Hc; [|constructor]. apply oe_shrink; auto. apply shrinks_reset.
  - destruct (c_out (cfg i)), st; simpl; try apply oe_none. apply (oe_write _ _ _ _ (Some _)); auto.
  - constructor.
  - constructor.
  - destruct (is_list_entry _ _); apply oe_act.
  - destruct (is_list_entry _ _); apply oe_act.
  - destruct (c_out (cfg i)), st; simpl; try apply oe_none.
    destruct (n_val (node_at i g)); [apply (oe_write _ _ _ _ None)|apply oe_log]; auto.
  - constructor.
Qed.


(* re-arm node i at the earliest of the given pending events *)
Definition arm (i : nat) (evs : list ev) (g : gst) : gst :=
  match evs with [] => g | e :: _ => schedule_node i (fst e) g end.

(* node.cpp evaluate_impl after the user code; [d]: the node's own scheduler fired it *)
Definition eval_tail (i : nat) (now : Z) (d : bool) (g : gst) : gst :=
  if negb (g_err g =? 0) then g else
  if c_sched (cfg i) then
    let s := if d then fst (advance now (n_sch (node_at i g))) else n_sch (node_at i g) in
    arm i (events s) (if d then upd_node i (set_sch s) g else g)
  else g.

(* node.cpp evaluate_impl tests `!has_input() || ready_to_evaluate(..)`; [ready] of no inputs is true anyway *)
Definition runs_user_code (i : nat) (g : gst) : bool :=
  match c_ins (cfg i) with [] => true | _ => ready (cfg i) g end.

Lemma eval_node_eq i g :
  n_started (node_at i g) = true ->
  exists l os, is10 l = false /\
    eval_node cfgs beh i g =
      eval_tail i (g_now g) (is_scheduled_now (g_now g) (n_sch (node_at i g)))
        (if runs_user_code i g then do_ops cfgs i true 0 os (emit l (upd_node i inc_runs g)) else g).
Proof.
  intros St. unfold eval_node. rewrite St. change (negb true) with false. cbv iota zeta.
  match goal with |- context [do_ops cfgs i true 0 ?o (emit ?h _)] => exists h, o end.
  split; [reflexivity|]. unfold eval_tail, runs_user_code, cfg.
  match goal with |- context [if negb (g_err ?x =? 0) then _ else _] => generalize x end. intros g1.
  destruct (negb (g_err g1 =? 0)); auto. destruct (c_sched _); auto. simpl andb.
  destruct (is_scheduled_now _ _).
  - rewrite (surjective_pairing (advance _ _)), advance_snd. destruct (events _); reflexivity.
  - unfold is_scheduled, next_scheduled_time. destruct (events _); reflexivity.
Qed.

(* graph.cpp evaluate_impl counts the evaluation and tells the observer before the node runs *)
Definition counted (j : nat) (g : gst) : gst := upd_node j inc_evals (emit [11; Z.of_nat j; g_now g] g).

(* for FeedbackFacts *)
Lemma counted_nodes j g m :
  n_val (node_at m (counted j g)) = n_val (node_at m g) /\ n_lmt (node_at m (counted j g)) = n_lmt (node_at m g) /\
  n_started (node_at m (counted j g)) = n_started (node_at m g) /\ n_act (node_at m (counted j g)) = n_act (node_at m g).
Proof. unfold counted. rewrite node_at_upd. destruct (_ && _); repeat split. Qed.

(* graph.cpp evaluate_impl: one step of the forward scan *)
Definition scan_step (i : nat) (g : gst) : gst :=
  let sc := slot_at i g in
  if sc =? g_now g then eval_node cfgs beh i (counted i g)
  else if g_now g <? sc then
    (if sc <? g_nst g then mkG (g_now g) (g_slots g) sc (g_nodes g) (g_log g) (g_err g) else g)
  else g.

Lemma scan_S i m g :
  scan cfgs beh i (S m) g = if negb (g_err g =? 0) then g else scan cfgs beh (S i) m (scan_step i g).
Proof. reflexivity. Qed.

Lemma scan_step_idle i g :
  slot_at i g <> g_now g ->
  scan_step i g = mkG (g_now g) (g_slots g)
                      (if g_now g <? slot_at i g then Z.min (g_nst g) (slot_at i g) else g_nst g)
                      (g_nodes g) (g_log g) (g_err g).
Proof.
  intros H. unfold scan_step. cbv zeta. replace (slot_at i g =? g_now g) with false by lia.
  destruct (g_now g <? slot_at i g); [destruct (slot_at i g <? g_nst g) eqn:E|].
  - f_equal. lia.
  - replace (Z.min (g_nst g) (slot_at i g)) with (g_nst g) by lia. destruct g; reflexivity.
  - destruct g; reflexivity.
Qed.

(* The model's functions are such sequences: node i updates itself, asks for itself, and writes - only when
   started.  The one walk over do_op - do_ops - eval_node - scan and over start behind every fact about what the
   evaluation of one node does to the others. *)
Section Lift.
Context (U : nat -> (nst -> nst) -> Prop) (T W : nat -> Prop).

Lemma do_op_acts i st opi o g g1 :
  (forall f, quiet f -> U i f) -> T i -> (st = true -> W i) ->
  acts U T W g g1 -> acts U T W g (do_op cfgs i st opi o g1).
Proof.
  intros HU HT HW H. destruct (do_op_effect i st opi o g1); auto 8 with acts. apply acts_err; auto. lia.
Qed.

Lemma do_ops_acts i st os : forall opi g g1,
  (forall f, quiet f -> U i f) -> T i -> (st = true -> W i) ->
  acts U T W g g1 -> acts U T W g (do_ops cfgs i st opi os g1).
Proof. induction os as [|o r IH]; intros opi g g1 HU HT HW H; simpl; auto. apply IH, do_op_acts; auto. Qed.

Lemma eval_tail_acts i now d g g1 :
  (forall s, U i (set_sch s)) -> T i -> acts U T W g g1 -> acts U T W g (eval_tail i now d g1).
Proof.
  intros HU HT H. unfold eval_tail, arm. destruct (negb _); auto. destruct (c_sched _); auto.
  destruct d; destruct (events _); auto with acts.
Qed.

(* besides what its user code does, an evaluation counts the run *)
Lemma eval_node_acts i g g1 :
  (forall f, own f -> keeps n_started f -> keeps n_evals f -> U i f) -> T i -> W i ->
  acts U T W g g1 -> acts U T W g (eval_node cfgs beh i g1).
Proof.
  intros HU HT HW H. assert (HQ : forall f, quiet f -> U i f) by (intros f (A & B & _ & C); auto).
  destruct (n_started (node_at i g1)) eqn:St; [|unfold eval_node; rewrite St; auto].
  destruct (eval_node_eq i g1 St) as (l & os & Hl & ->).
  apply eval_tail_acts; auto with acts. destruct (runs_user_code i g1); auto.
  apply do_ops_acts; auto. apply acts_emit, acts_upd; auto. apply HU; repeat split; auto.
Qed.

Lemma counted_acts j g g1 : U j inc_evals -> acts U T W g g1 -> acts U T W g (counted j g1).
Proof. intros H A. apply acts_upd, acts_emit; auto. Qed.

Lemma scan_step_acts i g g1 :
  (forall f, own f -> U i f) -> T i -> W i -> acts U T W g g1 -> acts U T W g (scan_step i g1).
Proof.
  intros HU HT HW H. destruct (Z.eq_dec (slot_at i g1) (g_now g1)) as [E|E].
  - unfold scan_step. cbv zeta. rewrite E, Z.eqb_refl. apply eval_node_acts; auto.
    apply counted_acts; auto. apply HU. intros x; reflexivity.
  - rewrite scan_step_idle by auto. apply acts_nst; auto. destruct (g_now g1 <? slot_at i g1) eqn:L; lia.
Qed.

Lemma scan_acts m : forall k g g1,
  (forall j f, (k <= j)%nat -> own f -> U j f) -> (forall j, (k <= j)%nat -> T j) -> (forall j, (k <= j)%nat -> W j) ->
  acts U T W g g1 -> acts U T W g (scan cfgs beh k m g1).
Proof.
  induction m as [|m IH]; intros k g g1 HU HT HW H; auto. rewrite scan_S. destruct (negb _); auto.
  apply IH; try (intros; (apply HU || apply HT || apply HW); auto; lia). apply scan_step_acts; auto.
Qed.

(* a node being started cannot write *)
Lemma start_node_acts i g g1 :
  (forall f, own f -> U i f) -> T i -> acts U T W g g1 -> acts U T W g (start_node cfgs beh i g1).
Proof.
  intros HU HT H. unfold start_node. destruct (negb (g_err g1 =? 0)); auto. cbv zeta.
  match goal with |- context [do_ops cfgs i false 0 ?o ?ga] => assert (Hd : acts U T W g (do_ops cfgs i false 0 o ga)) end.
  { apply do_ops_acts; auto; [intros f Q; apply HU, Q|discriminate|apply acts_upd; auto; apply HU, quiet_set_act]. }
  destruct (negb _); auto.
  apply (acts_upd _ _ _ _ i set_started) in Hd; [|apply HU; intros x; reflexivity]. destruct (c_sos _); auto with acts.
Qed.

Lemma start_nodes_acts m : forall i g g1,
  (forall j f, own f -> U j f) -> (forall j, T j) -> acts U T W g g1 -> acts U T W g (start_nodes cfgs beh i m g1).
Proof. induction m as [|m IH]; intros i g g1 HU HT H; simpl; auto. apply IH, start_node_acts; auto. Qed.
End Lift.

Lemma do_op_now i st opi o g : g_now (do_op cfgs i st opi o g) = g_now g.
Proof. apply (acts_now (U := fun _ _ => True) (T := any) (W := any)), do_op_acts; auto with acts. Qed.

Lemma do_ops_now i st os opi g : g_now (do_ops cfgs i st opi os g) = g_now g.
Proof. apply (acts_now (U := fun _ _ => True) (T := any) (W := any)), do_ops_acts; auto with acts. Qed.

Lemma start_nodes_now m : forall i g, g_now (start_nodes cfgs beh i m g) = g_now g.
Proof. intros i g. apply (acts_now (U := fun _ _ => True) (T := any) (W := any)), start_nodes_acts; auto with acts. Qed.

Lemma evaluate_graph_acts t g :
  acts (fun _ _ => True) any any (mkG t (g_slots g) MAX_DT (g_nodes g) ([10; t] :: g_log g) (g_err g))
       (evaluate_graph cfgs beh t g).
Proof. apply scan_acts; auto with acts. Qed.

Lemma start_graph_log start :
  log10 (start_graph cfgs beh start) = [] /\ g_err (start_graph cfgs beh start) <> 9.
Proof.
  unfold start_graph. cbv zeta. set (g0 := mkG start _ _ _ _ _).
  assert (A : acts (fun _ _ => True) any any g0 (start_nodes cfgs beh 0 n g0)) by (apply start_nodes_acts; auto with acts).
  destruct (negb _); (split; [apply (acts_log10 _ _ A)|apply (acts_ne9 _ _ A); simpl; lia]).
Qed.

(* a notification from p reaches node i *)
Definition listens (g : gst) (i p : nat) : bool :=
  subscribed p (c_ins (cfg i)) (n_act (node_at i g)) && n_started (node_at i g).

Lemma listens_ext g g' i p : node_at i g' = node_at i g -> listens g' i p = listens g i p.
Proof. unfold listens. intros ->. reflexivity. Qed.

(* ... and has a slot *)
Definition notified (g : gst) (src m : nat) : bool := listens g m src && (m <? length (g_slots g))%nat.

Lemma write_slot i v g m : slot_at m (write i v g) = if notified g i m then g_now g else slot_at m g.
Proof.
  destruct (notify_spec cfgs 0 i (upd_node i (set_val v (g_now g)) g)) as (sl & E & _ & F).
  unfold write, slot_at at 1. rewrite E. cbn [g_slots]. rewrite F, Nat.sub_0_r.
  unfold notified, listens, cfg. rewrite !(obs_upd n_act), !(obs_upd n_started) by (intros x; reflexivity). reflexivity.
Qed.

(* the steps of node i alone: nobody else's slot moves, or exactly its listeners are notified now *)
Lemma acts_out (U : nat -> (nst -> nst) -> Prop) i g g' :
  (i < length (g_nodes g))%nat -> (forall j f, U j f -> j = i /\ own f) ->
  acts U (eq i) (eq i) g g' ->
  (n_lmt (node_at i g') = n_lmt (node_at i g) /\ forall m, m <> i -> slot_at m g' = slot_at m g) \/
  (n_lmt (node_at i g') = g_now g /\
   forall m, m <> i -> slot_at m g' = if notified g i m then g_now g else slot_at m g).
Proof.
  intros Hi HU H.
  induction H as [|l g1 _ A IH|j f g1 K A IH|j w g1 E A IH|e g1 _ A IH|w g1 _ A IH|j v g1 E A IH]; auto; try subst j.
  - destruct (HU j f K) as (-> & L). rewrite !(obs_upd n_lmt) by auto. exact IH.
  - rewrite node_at_schedule_node.
    destruct IH as [(L & S)|(L & S)]; [left|right]; split; auto; intros m Hm; rewrite schedule_node_slot_other; auto.
  - (* a write: the listeners are those of the beginning, since no other node has changed *)
    right. destruct (acts_len _ _ A) as [L1 L2]. pose proof (acts_now _ _ A) as Nw. split.
    + destruct (write_frame i v g1) as (sl & _ & E). unfold node_at. rewrite E. simpl.
      rewrite nth_update_same by lia. auto.
    + intros m Hm. rewrite write_slot. unfold notified. rewrite L1, Nw, (listens_ext g g1).
      * destruct IH as [(_ & S)|(_ & S)]; rewrite S by auto; auto. fold (notified g i m). destruct (notified g i m); auto.
      * apply (acts_other _ _ _ i) with (3 := A); auto. intros j f K. apply (HU j f K).
Qed.

(* node i has written (or invalidated) its output in this cycle *)
Definition wrote (g : gst) (i : nat) : bool := n_lmt (node_at i g) =? g_now g.

Lemma scan_step_slot_other k g j :
  length (g_slots g) = n -> length (g_nodes g) = n -> (k < n)%nat -> (j < n)%nat -> j <> k -> wrote g k = false ->
  slot_at j (scan_step k g) = if wrote (scan_step k g) k && listens g j k then g_now g else slot_at j g.
Proof.
  intros L1 L2 Hk Hj Hne W.
  assert (A : acts (fun i f => i = k /\ own f) (eq k) (eq k) g (scan_step k g)) by (apply scan_step_acts; auto with acts).
  unfold wrote in *. rewrite (acts_now _ _ A).
  destruct (acts_out _ k g _ ltac:(lia) (fun i f K => K) A) as [(-> & S)|(-> & S)]; rewrite S by auto.
  - rewrite W. reflexivity.
  - unfold notified. rewrite L1, Z.eqb_refl. replace (j <? n)%nat with true by lia. rewrite andb_true_r. reflexivity.
Qed.

Lemma subscribed_in src m act :
  subscribed src (c_ins (nth m cfgs dflt_cfg)) act = true ->
  (m < n)%nat /\ exists s a, In (s, a) (combine (c_ins (cfg m)) act) /\ i_src s = src /\ a = true.
Proof.
  intros H. apply existsb_exists in H. destruct H as ([s a] & Hin & E). simpl in E. split.
  - destruct (Nat.lt_ge_cases m n); auto. rewrite nth_overflow in Hin by auto. destruct Hin.
  - exists s, a. split; auto. split; [lia|]. destruct a; auto. rewrite andb_false_r in E. discriminate.
Qed.

(* C01, C03: a notification moves the slot of a subscriber alone, and the ranking puts a subscriber after its producer *)
Lemma notify_moves src g k :
  slot_at k (notify_from cfgs 0 src g) <> slot_at k g -> subscribed src (c_ins (cfg k)) (n_act (node_at k g)) = true.
Proof.
  destruct (notify_spec cfgs 0 src g) as (sl & -> & _ & F). unfold slot_at at 1. cbn [g_slots]. rewrite F, Nat.sub_0_r.
  fold (cfg k). destruct (subscribed _ _ _); [reflexivity|simpl; congruence].
Qed.

Lemma subscribed_later src k act : well_ranked -> subscribed src (c_ins (cfg k)) act = true -> (src < k)%nat.
Proof.
  intros WR E. destruct (subscribed_in src k act E) as (Hk & s & a & Hin & <- & _).
  apply in_combine_l in Hin. apply (WR k s Hk Hin).
Qed.

Lemma scan_err_sticky i m g : g_err g <> 0 -> scan cfgs beh i m g = g.
Proof. destruct m; simpl; auto. intros H. replace (negb (g_err g =? 0)) with true by lia. auto. Qed.

Lemma scan_ind (I : nat -> gst -> Prop) m : forall k g,
  (forall j g, (k <= j < k + m)%nat -> I j g -> g_err g = 0 -> g_err (scan_step j g) = 0 -> I (S j) (scan_step j g)) ->
  I k g -> g_err (scan cfgs beh k m g) = 0 -> I (k + m)%nat (scan cfgs beh k m g).
Proof.
  induction m as [|m IH]; intros k g Hstep HI Herr; [rewrite Nat.add_0_r; auto|].
  rewrite scan_S in *. destruct (negb (g_err g =? 0)) eqn:E0; [lia|].
  assert (Herr' : g_err (scan_step k g) = 0).
  { destruct (Z.eq_dec (g_err (scan_step k g)) 0); auto. rewrite scan_err_sticky in Herr; auto. }
  rewrite <- Nat.add_succ_comm. apply IH; auto; [intros; apply Hstep; auto; lia|apply Hstep; auto; lia].
Qed.

(* where the scan stands relative to a node: passed, evaluating it ([d]: fired by its own
   scheduler, so events at the current time are still pending), not reached *)
Inductive phase := Done | Cur (d : bool) | Todo.

(* [now], [next]: the cycle's time and the cached next time; [slot], [x]: the node's slot and state.
   Done: armed no later than its earliest pending event, and the cache knows.
   Todo: nothing pending in the past; due now, or armed. *)
Definition node_ok (ph : phase) (now next slot : Z) (sched : bool) (x : nst) : Prop :=
  Inv (n_sch x) /\ n_started x = true /\
  match ph with
  | Done => (now < slot -> next <= slot) /\
            (sched = true -> forall e, In e (events (n_sch x)) -> now < slot <= fst e)
  | Cur d => (slot = now \/ now < slot /\ next <= slot) /\
             (sched = true -> forall e, In e (events (n_sch x)) -> now < fst e \/ d = true /\ now = fst e)
  | Todo => sched = true -> forall e, In e (events (n_sch x)) ->
            now <= fst e /\ (slot = now \/ now < slot <= fst e)
  end.

Definition scan_ok (ph : nat -> phase) (g : gst) : Prop :=
  length (g_slots g) = n /\ length (g_nodes g) = n /\
  forall i, (i < n)%nat ->
    node_ok (ph i) (g_now g) (g_nst g) (slot_at i g) (c_sched (cfg i)) (node_at i g).

(* the scan stands before node k *)
Definition scan_at (k i : nat) : phase := if (i <? k)%nat then Done else Todo.
Notation SI k := (scan_ok (scan_at k)).

Lemma scan_at_todo k i : (k <= i)%nat -> scan_at k i = Todo.
Proof. intros H. unfold scan_at. replace (i <? k)%nat with false by lia. reflexivity. Qed.

Lemma scan_at_done k i : (i < k)%nat -> scan_at k i = Done.
Proof. intros H. unfold scan_at. replace (i <? k)%nat with true by lia. reflexivity. Qed.

Lemma node_ok_nst ph now next next' slot c x :
  next' <= next -> node_ok ph now next slot c x -> node_ok ph now next' slot c x.
Proof.
  intros Hle (HI & St & H). split; [auto|split; [auto|]].
  destruct ph; [| |exact H]; destruct H; split; auto; lia.
Qed.

Lemma node_ok_ext ph now next slot c x x' :
  n_sch x' = n_sch x -> n_started x' = n_started x -> node_ok ph now next slot c x -> node_ok ph now next slot c x'.
Proof. unfold node_ok. intros -> ->. auto. Qed.

(* The node under evaluation: its clause of the invariant.  The walk through its user code carries this
   alone; what the evaluation does to the other nodes is read off [acts_out] afterwards ([others_ok]). *)
Definition cur_ok (d : bool) (k : nat) (g : gst) : Prop :=
  (k < length (g_slots g))%nat /\ (k < length (g_nodes g))%nat /\
  node_ok (Cur d) (g_now g) (g_nst g) (slot_at k g) (c_sched (cfg k)) (node_at k g).

Lemma cur_upd d k j f g : keeps n_sch f -> keeps n_started f -> cur_ok d k g -> cur_ok d k (upd_node j f g).
Proof.
  intros Hs Hst (L1 & L2 & H). split; [auto|split; [simpl; rewrite update_length; auto|]].
  eapply node_ok_ext; [apply obs_upd, Hs|apply obs_upd, Hst|exact H].
Qed.

Lemma cur_set_sch d0 d k s' g :
  Inv s' -> (c_sched (cfg k) = true -> forall e, In e (events s') -> g_now g < fst e \/ d = true /\ g_now g = fst e) ->
  cur_ok d0 k g -> cur_ok d k (upd_node k (set_sch s') g).
Proof.
  intros HI He (L1 & L2 & (_ & St & C & _)). split; [auto|split; [simpl; rewrite update_length; auto|]].
  rewrite node_at_upd_same by auto. split; [exact HI|split; [exact St|split; [exact C|exact He]]].
Qed.

Lemma cur_schedule d k w g : g_now g <= w -> cur_ok d k g -> cur_ok d k (schedule_node k w g).
Proof.
  intros Hw (L1 & L2 & (HI & St & C & E)).
  pose proof (schedule_node_nst k w g) as [NL _]. pose proof (schedule_node_slot_self k w g L1 Hw) as SS. cbv zeta in SS.
  split; [rewrite schedule_node_len; auto|]. split; [destruct (schedule_node_spec k w g) as (_ & -> & _); auto|].
  rewrite schedule_node_now, node_at_schedule_node. split; [auto|split; [auto|split; [lia|exact E]]].
Qed.

Lemma notified_later k i g : well_ranked -> notified g k i = true -> (k < i)%nat.
Proof.
  intros WR H. apply (subscribed_later k i (n_act (node_at i g)) WR). unfold notified, listens in H. lia.
Qed.

Lemma cur_write d k v g : well_ranked -> cur_ok d k g -> cur_ok d k (write k v g).
Proof.
  intros WR (L1 & L2 & H). pose proof (write_slot k v g k) as S. pose proof (notified_later k k g WR) as NL.
  destruct (notified g k k); [specialize (NL eq_refl); lia|].
  destruct (write_frame k v g) as (sl & L & E). unfold cur_ok. rewrite S. unfold node_at. rewrite E. simpl.
  split; [lia|split; [rewrite update_length; auto|]].
  eapply node_ok_ext; [| |exact H]; rewrite nth_update_same by auto; reflexivity.
Qed.

(* An operation that raises an error changes nothing else, and the clause does not speak of the error: only the
   re-arming afterwards needs a run without one. *)
Lemma cur_do_op d k opi o g : well_ranked -> cur_ok d k g -> cur_ok d k (do_op cfgs k true opi o g).
Proof.
  intros WR H. pose proof H as (L1 & L2 & HI & _ & _ & Hev).
  destruct (do_op_effect k true opi o g) as [o|o l Hl|dl tag s' p l Hc Hl Es|o s' l Hc Hl Hsh|o v l _ Hl|dl|o|o a];
    try exact H.
  - destruct (schedule_spec _ _ _ _ _ _ _ HI Es) as (HI' & Hsub & Hp).
    assert (H1 : cur_ok d k (upd_node k (set_sch s') g)).
    { apply (cur_set_sch d); auto. intros _ e He.
      destruct (Hsub e He) as [Hin|[-> P]]; [apply Hev; auto|simpl in *; lia]. }
    change (cur_ok d k (opt_schedule k p (upd_node k (set_sch s') g))). destruct p as [w|]; auto.
    (* the pushed time is the accepted request, hence later than now *)
    destruct Hp as (-> & P & _). apply cur_schedule; auto. simpl in *; lia.
  - change (cur_ok d k (upd_node k (set_sch s') g)). destruct Hsh as [Hinv Hsub]. apply (cur_set_sch d); auto.
  - apply (cur_write d k v g WR H).
  - (* a raw request in the past only raises the error *)
    destruct (Z_lt_ge_dec (g_now g + dl) (g_now g)) as [Hlt|Hge]; [|apply cur_schedule; auto; lia].
    unfold schedule_node. replace (g_now g + dl <? g_now g) with true by lia. exact H.
  - apply cur_upd; auto; intros x; reflexivity.
Qed.

Lemma cur_do_ops d k os : forall opi g, well_ranked -> cur_ok d k g -> cur_ok d k (do_ops cfgs k true opi os g).
Proof. induction os as [|o r IH]; intros opi g WR H; simpl; auto. apply IH, cur_do_op; auto. Qed.

Definition done_ok (k : nat) (g : gst) : Prop :=
  node_ok Done (g_now g) (g_nst g) (slot_at k g) (c_sched (cfg k)) (node_at k g).

(* node.cpp evaluate_impl, last step: the node is armed at its earliest pending event *)
Lemma cur_arm k g :
  c_sched (cfg k) = true -> cur_ok false k g -> done_ok k (arm k (pending g k) g).
Proof.
  intros Hc H. pose proof H as (L1 & L2 & HI & St & C & Hev). specialize (Hev Hc).
  unfold arm, done_ok, pending in *. destruct (events (n_sch (node_at k g))) as [|y r] eqn:Ev.
  { split; [auto|split; [auto|split; [lia|]]]. intros _ e He. rewrite Ev in He. destruct He. }
  assert (Hy : g_now g < fst y) by (destruct (Hev y) as [?|[? _]]; simpl; auto; discriminate).
  destruct (cur_schedule false k (fst y) g ltac:(lia) H) as (_ & _ & HI' & St' & C' & _).
  split; [auto|split; [auto|split; [lia|]]].
  intros _ e He. rewrite node_at_schedule_node, Ev in He. rewrite schedule_node_now.
  pose proof (proj1 HI) as Hs. rewrite Ev in Hs. pose proof (sorted_head_min y r e Hs He) as Hmin.
  destruct (schedule_node_slot_self k (fst y) g L1) as [[-> _]|[-> ?]]; lia.
Qed.

Lemma cur_eval_tail d k g :
  cur_ok d k g -> g_err g = 0 -> done_ok k (eval_tail k (g_now g) d g).
Proof.
  intros H Herr. pose proof H as (L1 & L2 & HI & St & C & Hev).
  unfold eval_tail. replace (negb (g_err g =? 0)) with false by lia.
  destruct (c_sched (cfg k)) eqn:Hc; [|split; [auto|split; [auto|split; [lia|congruence]]]].
  specialize (Hev eq_refl). cbv zeta. destruct d; [|apply cur_arm; auto].
  (* fired by its scheduler: the due events are consumed *)
  set (s' := fst (advance (g_now g) (n_sch (node_at k g)))).
  assert (Hs' : forall e, In e (events s') -> g_now g < fst e).
  { intros e He. unfold s' in He. rewrite advance_consumes_due_only in He by auto. apply filter_In in He. lia. }
  assert (Ep : pending (upd_node k (set_sch s') g) k = events s') by (unfold pending; rewrite node_at_upd_same; auto).
  rewrite <- Ep. apply cur_arm; auto.
  apply (cur_set_sch true); [apply inv_advance; auto|intros _ e He; left; auto|exact H].
Qed.

(* its turn begins: an event at the current time and none before it is what the scheduler calls "scheduled now" *)
Lemma todo_cur now next slot c x :
  node_ok Todo now next slot c x -> slot = now -> node_ok (Cur (is_scheduled_now now (n_sch x))) now next slot c x.
Proof.
  intros (HI & St & E) Hs. split; [auto|split; [auto|split; [auto|]]]. intros Hc e He.
  destruct (Z.eq_dec now (fst e)) as [Ee|Ee]; [right; split; auto|left; apply (E Hc e) in He; lia].
  apply is_scheduled_now_iff; auto. split.
  - exists (snd e). rewrite Ee, <- surjective_pairing. exact He.
  - intros y Hy. apply (E Hc y Hy).
Qed.

(* The others, after the steps of node k: who had its turn is not notified (the ranking puts every listener
   after its producer), who has not is at most made due now, and the cache only fell. *)
Lemma others_ok k g g' :
  well_ranked -> (k < n)%nat -> SI k g -> acts (fun i f => i = k /\ own f) (eq k) (eq k) g g' ->
  forall i, (i < n)%nat -> i <> k ->
    node_ok (scan_at (S k) i) (g_now g') (g_nst g') (slot_at i g') (c_sched (cfg i)) (node_at i g').
Proof.
  intros WR Hk (L1 & L2 & H) A i Hi Hne. specialize (H i Hi).
  rewrite (acts_now _ _ A), (acts_other _ _ _ k _ _ i) with (3 := A) by (auto; intros j f [? _]; auto).
  apply (node_ok_nst _ _ _ _ _ _ _ (proj1 (acts_nst_le _ _ A))).
  replace (scan_at (S k) i) with (scan_at k i) by (unfold scan_at; replace (i <? S k)%nat with (i <? k)%nat by lia; reflexivity).
  destruct (acts_out _ k g g' ltac:(lia) (fun j f K => K) A) as [(_ & Q)|(_ & Q)]; rewrite Q by auto; [exact H|].
  destruct (notified g k i) eqn:E; [|exact H].
  (* notified: it comes after k, so it has not had its turn, and is due now *)
  rewrite scan_at_todo in * by (apply notified_later in E; auto; lia).
  destruct H as (HI & St & Ev). split; [auto|split; [auto|]]. intros Hc e He. split; auto. apply (Ev Hc e He).
Qed.

Lemma scan_step_SI k g :
  well_ranked -> (k < n)%nat -> SI k g -> g_err (scan_step k g) = 0 -> SI (S k) (scan_step k g).
Proof.
  intros WR Hk HS Herr. pose proof HS as (L1 & L2 & H).
  assert (A : acts (fun i f => i = k /\ own f) (eq k) (eq k) g (scan_step k g)) by (apply scan_step_acts; auto with acts).
  pose proof (others_ok k g _ WR Hk HS A) as HO. destruct (acts_len _ _ A) as [M1 M2].
  split; [lia|split; [lia|]].
  intros i Hi. destruct (Nat.eq_dec i k) as [->|Hne]; [|auto]. rewrite scan_at_done by lia. clear HO A M1 M2.
  specialize (H k Hk). rewrite scan_at_todo in H by lia.
  destruct (Z.eq_dec (slot_at k g) (g_now g)) as [Hslot|Hslot].
  2:{ (* not due: it has had its turn as it is, and the cache may move down to its slot *)
    rewrite scan_step_idle by auto. destruct H as (HI & St & Ev). split; [auto|split; [auto|]].
    unfold slot_at. simpl. fold (slot_at k g). split.
    - intros Hlt. replace (g_now g <? slot_at k g) with true by lia. lia.
    - intros Hc e He. specialize (Ev Hc e He). lia. }
  (* due: its clause goes from Todo to Cur d when its turn begins ([todo_cur]; d: its own scheduler fired it),
     is kept by the count, the run counter and the user code (g0, g1: the states before and after the user code;
     [cur_upd], [cur_do_ops]), and the re-arming makes it Done ([cur_eval_tail]), which needs g1 free of error *)
  revert Herr. unfold scan_step. cbv zeta. rewrite Hslot, Z.eqb_refl.
  set (g0 := counted k g). intros Herr.
  assert (H0 : cur_ok (is_scheduled_now (g_now g0) (n_sch (node_at k g0))) k g0).
  { apply todo_cur in H; auto. unfold g0, counted. rewrite (obs_upd n_sch) by (intros x; reflexivity).
    apply cur_upd; try (intros x; reflexivity). split; [simpl; lia|split; [simpl; lia|exact H]]. }
  pose proof H0 as (_ & _ & _ & St & _).
  destruct (eval_node_eq k g0 St) as (l' & os & Hl & E). rewrite E in *. clear E.
  set (d := is_scheduled_now (g_now g0) (n_sch (node_at k g0))) in *.
  set (g1 := if runs_user_code k g0 then _ else g0) in *.
  assert (Now1 : g_now g1 = g_now g0) by (unfold g1; destruct (runs_user_code k g0); auto; rewrite do_ops_now; reflexivity).
  assert (Err1 : g_err g1 = 0) by (unfold eval_tail in Herr; destruct (negb (g_err g1 =? 0)) eqn:E1; lia).
  rewrite <- Now1. apply cur_eval_tail; auto.
  unfold g1 in *. destruct (runs_user_code k g0); auto.
  apply cur_do_ops; auto. apply (cur_upd d k k inc_runs (emit l' g0)); try (intros x; reflexivity). exact H0.
Qed.

Lemma scan_SI m k g :
  well_ranked -> (k + m = n)%nat -> SI k g ->
  g_err (scan cfgs beh k m g) = 0 -> SI n (scan cfgs beh k m g).
Proof.
  intros WR Hkm HS Herr. rewrite <- Hkm. apply scan_ind; auto.
  intros j gj Hj Hinv _ E. apply scan_step_SI; auto. lia.
Qed.

Record boundary (g : gst) : Prop := {
  bd_ls : length (g_slots g) = n;
  bd_ln : length (g_nodes g) = n;
  bd_inv : forall i, (i < n)%nat -> Inv (n_sch (node_at i g));
  bd_started : forall i, (i < n)%nat -> n_started (node_at i g) = true;
  (* the cached next time is no later than any armed slot, which is no later than the node's earliest pending event *)
  bd_armed : forall i, (i < n)%nat -> c_sched (cfg i) = true -> forall e, In e (pending g i) ->
             g_nst g <= slot_at i g /\ slot_at i g <= fst e }.

(* the cycle at the cached next time leaves the cache strictly later, whatever the user code does *)
Lemma evaluate_graph_nst g : g_nst g < MAX_DT -> g_nst g < g_nst (evaluate_graph cfgs beh (g_nst g) g).
Proof. exact (proj2 (acts_nst_le _ _ (evaluate_graph_acts (g_nst g) g))). Qed.

Lemma evaluate_graph_boundary g :
  well_ranked -> boundary g -> g_nst g < MAX_DT ->
  let g' := evaluate_graph cfgs beh (g_nst g) g in
  g_err g' = 0 -> boundary g' /\ g_now g' = g_nst g /\ g_now g' < g_nst g'.
Proof.
  intros WR [L1 L2 I S AR] Hlt g' Herr. unfold g', evaluate_graph in *.
  set (g0 := mkG (g_nst g) (g_slots g) MAX_DT (g_nodes g) ([10; g_nst g] :: g_log g) (g_err g)) in *.
  assert (S0 : SI 0 g0).
  { split; [|split]; auto. intros i Hi. change (scan_at 0 i) with Todo.
    split; [apply I; auto|split; [apply S; auto|]].
    intros Hc e Hin. destruct (AR i Hi Hc e Hin). unfold slot_at in *. simpl. lia. }
  pose proof (scan_SI n 0%nat g0 WR ltac:(lia) S0 Herr) as (A1 & A2 & B).
  set (gf := scan cfgs beh 0 n g0) in *.
  assert (Hnow : g_now gf = g_nst g) by apply (acts_now _ _ (evaluate_graph_acts _ g)).
  assert (B' : forall i, (i < n)%nat ->
            node_ok Done (g_now gf) (g_nst gf) (slot_at i gf) (c_sched (cfg i)) (node_at i gf))
    by (intros i Hi; rewrite <- (scan_at_done n i Hi); auto).
  split; [|split; [exact Hnow|rewrite Hnow; apply evaluate_graph_nst, Hlt]].
  constructor; auto; try (intros i Hi; apply (B' i Hi)).
  intros i Hi Hc e Hin. destruct (B' i Hi) as (_ & _ & B1 & B2). specialize (B2 Hc e Hin). lia.
Qed.

(* What a start hook may do.  No raw graph request (ORaw): the documented way a source initiates itself is
   its node scheduler, and a hook that mixes the two loses the start-cycle request or leaves a stale event behind
   on the faithful model (replayed on the implementation; DESIGN.md 8.3); the definition keeps ORaw out of every
   start hook, mixed or not.  A scheduler request stays below MAX_DT, the proviso of [schedule_spec]: at or above it
   the request may not be pushed and the node would not be armed for it. *)
Definition start_ops_ok (st : Z) : Prop :=
  forall i ivs s o, In o (beh i (-1) st ivs s) ->
    match o with ORaw _ => False | OSchedule d _ => st + d < MAX_DT | _ => True end.

(* The start phase after the first k nodes.  The bound is [g_now] where [boundary] has [g_nst]: the cached next
   time means nothing before [seed_cache]. *)
Definition armed (g : gst) (i : nat) : Prop :=
  c_sched (cfg i) = true -> forall e, In e (pending g i) -> g_now g <= slot_at i g /\ slot_at i g <= fst e.

Record start_ok (k : nat) (g : gst) : Prop := {
  so_ls : length (g_slots g) = n;
  so_ln : length (g_nodes g) = n;
  so_inv : forall i, (i < n)%nat -> Inv (n_sch (node_at i g));
  so_started : forall i, (i < k)%nat -> n_started (node_at i g) = true;
  so_armed : forall i, (i < n)%nat -> armed g i }.

Definition same_core (g g' : gst) : Prop :=
  g_now g' = g_now g /\ g_slots g' = g_slots g /\ g_nst g' = g_nst g /\ g_nodes g' = g_nodes g.

Lemma start_ok_same_core k g g' : same_core g g' -> start_ok k g -> start_ok k g'.
Proof.
  destruct g, g'. unfold same_core; simpl. intros (-> & -> & -> & ->) [A B C D E]. constructor; auto.
Qed.

Lemma start_ok_upd k i f g :
  keeps n_sch f -> (forall x, n_started x = true -> n_started (f x) = true) ->
  start_ok k g -> start_ok k (upd_node i f g).
Proof.
  intros Hs Hst [L1 L2 I St A]. constructor; auto.
  - simpl. rewrite update_length; auto.
  - intros j Hj. rewrite (obs_upd n_sch); auto.
  - intros j Hj. apply (upd_pres (fun x => n_started x = true)); auto.
  - intros j Hj Hc e He. unfold pending in He. rewrite (obs_upd n_sch) in He by auto. apply A; auto.
Qed.

(* node k gets the scheduler state s' and, possibly, another slot: armed for what is then pending *)
Lemma start_ok_set k s' g g' :
  (k < n)%nat -> start_ok k g -> Inv s' -> acts (fun _ _ => False) (eq k) (fun _ => False) (upd_node k (set_sch s') g) g' ->
  (c_sched (cfg k) = true -> forall e, In e (events s') -> g_now g <= slot_at k g' /\ slot_at k g' <= fst e) ->
  start_ok k g'.
Proof.
  intros Hk [L1 L2 I S A] HI' H Hk'. destruct (acts_len _ _ H) as [M1 M2]. simpl in M1, M2. rewrite update_length in M2.
  assert (ND : forall i, node_at i g' = node_at i (upd_node k (set_sch s') g))
    by (intros i; apply (acts_obs (fun x => x) i _ _) with (3 := H); contradiction).
  assert (NK : node_at k g' = set_sch s' (node_at k g)) by (rewrite ND, node_at_upd_same; auto; lia).
  assert (NO : forall i, i <> k -> node_at i g' = node_at i g) by (intros; rewrite ND, node_at_upd_other; auto).
  constructor; try lia.
  - intros i Hi. destruct (Nat.eq_dec i k) as [->|Hne]; [rewrite NK|rewrite NO]; auto.
  - intros i Hi. destruct (Nat.eq_dec i k) as [->|Hne]; [rewrite NK; simpl|rewrite NO]; auto.
  - intros i Hi Hci e He. unfold pending in He. rewrite (acts_now _ _ H). simpl g_now.
    destruct (Nat.eq_dec i k) as [->|Hne].
    + rewrite NK in He. apply Hk'; auto.
    + rewrite NO in He by auto. rewrite (acts_slot i _ _) with (3 := H) by (auto; intros j <-; auto). apply A; auto.
Qed.

(* A scheduler request in the start hook of node k keeps the invariant: whether or not the time is pushed to the
   graph, the node is armed for everything then pending. *)
Lemma start_sched_armed k d tag g :
  (k < n)%nat -> start_ok k g -> c_sched (cfg k) = true -> g_now g + d < MAX_DT ->
  let '(s', push) := schedule (g_now g) false (g_now g + d) tag (n_sch (node_at k g)) in
  start_ok k (opt_schedule k push (upd_node k (set_sch s') g)).
Proof.
  intros Hk H Hc Hmax. pose proof H as [L1 _ I _ A].
  destruct (schedule _ _ _ _ _) as [s' p] eqn:Es.
  destruct (schedule_spec _ _ _ _ _ _ _ (I k Hk) Es) as (HI' & _ & B).
  apply (start_ok_set k s' g); auto with acts. intros _ e He. destruct p as [w|]; simpl.
  - (* the earliest pending time moved earlier: pushed to the graph, which takes it unless armed before it *)
    destruct B as (-> & P & B). specialize (B e He). rewrite <- L1 in Hk.
    destruct (schedule_node_slot_self k (g_now g + d) (upd_node k (set_sch s') g) Hk) as [[-> _]|[-> S2]];
      simpl in *; lia.
  - (* nothing pending is earlier than what the node is armed for already *)
    destruct (B Hmax e He) as (y & Hy & Hle). apply (A k Hk Hc) in Hy.
    change (slot_at k (upd_node k (set_sch s') g)) with (slot_at k g). lia.
Qed.

Lemma start_do_op k opi o g :
  (k < n)%nat -> start_ok k g ->
  match o with ORaw _ => False | OSchedule d _ => g_now g + d < MAX_DT | _ => True end ->
  start_ok k (do_op cfgs k false opi o g).
Proof.
  intros Hk H Hok.
  destruct (do_op_effect k false opi o g) as [o|o l Hl|dl tag s' p l Hc Hl Es|o s' l Hc Hl Hsh|o v l Hst Hl|dl|o|o a];
    try discriminate; try contradiction; auto.
  - apply (start_ok_same_core k g); [repeat split|auto].
  - pose proof (start_sched_armed k dl tag g Hk H Hc Hok) as X. rewrite Es in X.
    eapply start_ok_same_core; [|exact X]. repeat split.
  - destruct Hsh as [Hinv Hsub]. pose proof H as [_ _ I _ A].
    apply (start_ok_set k s' g); auto with acts. intros _ e He. apply A; auto.
  - apply (start_ok_same_core k g); [repeat split|auto].
  - apply start_ok_upd; auto; intros x; auto.
Qed.

Lemma start_do_ops k os : forall opi g,
  (k < n)%nat -> start_ok k g ->
  (forall o, In o os -> match o with ORaw _ => False | OSchedule d _ => g_now g + d < MAX_DT | _ => True end) ->
  start_ok k (do_ops cfgs k false opi os g).
Proof.
  induction os as [|o r IH]; intros opi g Hk H Hok; simpl; auto.
  apply IH; auto.
  - apply start_do_op; auto. apply Hok; left; auto.
  - intros o' Ho'. rewrite do_op_now. apply Hok; right; auto.
Qed.

(* schedule_on_start, or any request for the start time itself: the slot becomes that time *)
Lemma start_ok_due k' k g : (k < n)%nat -> start_ok k' g -> start_ok k' (schedule_node k (g_now g) g).
Proof.
  intros Hk [L1 L2 I St A]. rewrite <- L1 in Hk. pose proof (schedule_node_due k g Hk) as SK.
  assert (ND : forall i, node_at i (schedule_node k (g_now g) g) = node_at i g) by (intros; apply node_at_schedule_node).
  constructor; auto.
  - rewrite schedule_node_len; auto.
  - destruct (schedule_node_spec k (g_now g) g) as (_ & -> & _); auto.
  - intros i Hi. rewrite ND; auto.
  - intros i Hi. rewrite ND; auto.
  - intros i Hi Hc e He. unfold pending in He. rewrite ND in He. rewrite schedule_node_now.
    destruct (A i Hi Hc e He). destruct (Nat.eq_dec k i) as [->|Hne]; [rewrite SK; lia|].
    rewrite schedule_node_slot_other; auto.
Qed.

Lemma start_node_started i g :
  (i < length (g_nodes g))%nat -> g_err (start_node cfgs beh i g) = 0 -> n_started (node_at i (start_node cfgs beh i g)) = true.
Proof.
  intros Hi. unfold start_node. destruct (negb (g_err g =? 0)) eqn:E0; [lia|]. cbn zeta.
  set (g1 := do_ops _ _ _ _ _ _).
  assert (L : length (g_nodes g1) = length (g_nodes g)).
  { apply (acts_len (U := fun _ _ => True) (T := any) (W := any)), do_ops_acts, acts_upd, acts_refl; auto with acts. }
  destruct (negb (g_err g1 =? 0)) eqn:E1; [lia|]. intros _.
  destruct (c_sos _); rewrite ?node_at_schedule_node, node_at_upd_same; auto; lia.
Qed.

Lemma start_node_ok k g :
  start_ops_ok (g_now g) -> (k < n)%nat -> start_ok k g ->
  g_err (start_node cfgs beh k g) = 0 -> start_ok (S k) (start_node cfgs beh k g).
Proof.
  intros SO Hk H Herr.
  pose proof (start_node_started k g ltac:(rewrite (so_ln _ _ H); exact Hk) Herr) as Sk. revert Herr Sk.
  unfold start_node. fold (cfg k).
  destruct (negb (g_err g =? 0)) eqn:E0; [intros; lia|]. cbn zeta.
  set (ga := upd_node k (set_act (map i_active (c_ins (cfg k)))) g).
  set (g1 := do_ops cfgs k false 0 _ ga).
  assert (H1 : start_ok k g1).
  { apply start_do_ops; auto; [apply start_ok_upd; auto; intros x; auto|]. intros o Ho. apply (SO k _ _ o Ho). }
  destruct (negb (g_err g1 =? 0)) eqn:E1; [intros; lia|]. intros _.
  apply (start_ok_upd k k set_started) in H1; [|intros x; reflexivity|intros x _; reflexivity].
  set (g2 := if c_sos (cfg k) then _ else _). intros Sk.
  assert (H2 : start_ok k g2) by (unfold g2; destruct (c_sos (cfg k)); auto; apply start_ok_due; auto).
  destruct H2 as [L1 L2 I St A]. constructor; auto.
  intros i Hi. destruct (Nat.eq_dec i k) as [->|Hne]; [exact Sk|apply St; lia].
Qed.

Lemma start_nodes_err_sticky m : forall i g, g_err g <> 0 -> start_nodes cfgs beh i m g = g.
Proof.
  induction m as [|m IH]; intros i g H; simpl; auto.
  assert (E : start_node cfgs beh i g = g) by (unfold start_node; replace (negb (g_err g =? 0)) with true by lia; auto).
  rewrite E. apply IH; auto.
Qed.

Lemma start_nodes_ok m : forall k g,
  start_ops_ok (g_now g) -> (k + m = n)%nat -> start_ok k g ->
  g_err (start_nodes cfgs beh k m g) = 0 -> start_ok n (start_nodes cfgs beh k m g).
Proof.
  induction m as [|m IH]; intros k g SO Hkm H Herr; simpl in *.
  - replace n with k by lia. exact H.
  - assert (E : g_err (start_node cfgs beh k g) = 0).
    { destruct (Z.eq_dec (g_err (start_node cfgs beh k g)) 0); auto.
      rewrite start_nodes_err_sticky in Herr by auto. contradiction. }
    apply IH; auto; [|lia|apply start_node_ok; auto; lia].
    pose proof (start_nodes_now 1 k g) as Nn. simpl in Nn. rewrite Nn. exact SO.
Qed.

Lemma seed_cache_nst g :
  let g' := seed_cache g in
  (g_nst g' = MAX_DT \/ g_now g' <= g_nst g') /\
  forall m, (m < length (g_slots g'))%nat -> g_now g' <= slot_at m g' -> g_nst g' <= slot_at m g'.
Proof. split; [apply seed_fold|intros m Hm; now apply seed_fold, nth_In]. Qed.

Lemma start_graph_boundary start :
  start_ops_ok start -> start <= MAX_DT -> g_err (start_graph cfgs beh start) = 0 ->
  boundary (start_graph cfgs beh start) /\ g_now (start_graph cfgs beh start) = start /\
  start <= g_nst (start_graph cfgs beh start).
Proof.
  intros SO HsM. unfold start_graph.
  set (g0 := mkG start (repeat MIN_DT n) MAX_DT (repeat init_n n) [] 0).
  assert (H0 : start_ok 0 g0).
  { constructor; simpl; try apply repeat_length.
    - intros i Hi. unfold node_at; simpl. rewrite nth_repeat. apply inv_empty.
    - intros i Hi; lia.
    - intros i Hi Hc e He. unfold pending, node_at in He; simpl in He. rewrite nth_repeat in He. destruct He. }
  set (g1 := start_nodes cfgs beh 0 n g0).
  assert (Now1 : g_now g1 = start) by apply start_nodes_now.
  destruct (negb (g_err g1 =? 0)) eqn:E1; [intros; lia|]. intros _.
  destruct (start_nodes_ok n 0%nat g0 SO ltac:(lia) H0 ltac:(fold g1; lia)) as [L1 L2 I St A]. fold g1 in L1, L2, I, St, A.
  destruct (seed_cache_nst g1) as [S1 S2]. cbn zeta in S1, S2.
  change (g_now (seed_cache g1)) with (g_now g1) in *. change (g_slots (seed_cache g1)) with (g_slots g1) in *.
  split; [|split; [exact Now1|lia]].
  constructor; auto.
  intros i Hi Hc e He. destruct (A i Hi Hc e He) as [X1 X2]. split; auto.
  apply (S2 i); auto. lia.
Qed.

Fixpoint cycle_times (end_ : Z) (fuel : nat) (g : gst) : list Z :=
  match fuel with
  | O => []
  | S f =>
      if negb (g_err g =? 0) then [] else
      let next := g_nst g in
      if (next =? MAX_DT) || (end_ <=? next) then [] else
      next :: cycle_times end_ f (evaluate_graph cfgs beh next g)
  end.

(* Any number of cycles from any state: a boundary, or a failed one (the start phase, or user code in the cycle
   before), at which the loop stops at its first test.  The clause on the cycle times holds whatever happens later;
   the cached next time strictly increases, so a run needs at most (end - lo) cycles. *)
Lemma run_loop_inv end_ fuel : forall lo g,
  well_ranked -> end_ <= MAX_DT -> (g_err g = 0 -> boundary g /\ lo <= g_nst g) -> g_err g <> 9 ->
  let gf := run_loop cfgs beh end_ fuel g in
  ((forall t, In t (cycle_times end_ fuel g) -> lo <= t < end_) /\ StronglySorted Z.lt (cycle_times end_ fuel g)) /\
  (g_err gf = 0 -> boundary g /\ boundary gf) /\
  ((Z.to_nat (end_ - lo) < fuel)%nat -> g_err gf <> 9).
Proof.
  induction fuel as [|f IH]; intros lo g WR HE B N9; simpl.
  - split; [split; [intros t []|constructor]|]. split; intros; lia.
  - destruct (Z.eq_dec (g_err g) 0) as [E0|E0].
    2:{ replace (negb (g_err g =? 0)) with true by lia. split; [split; [intros t []|constructor]|]. split; [lia|auto]. }
    destruct (B E0) as [Bg Hlo]. rewrite E0. simpl.
    destruct ((g_nst g =? MAX_DT) || (end_ <=? g_nst g)) eqn:Estop.
    + split; [split; [intros t []|constructor]|]. split; auto.
    + set (g' := evaluate_graph cfgs beh (g_nst g) g).
      assert (N9' : g_err g' <> 9) by (apply (acts_ne9 _ _ (evaluate_graph_acts _ g)); simpl; lia).
      pose proof (evaluate_graph_nst g ltac:(lia)) as Hgt. fold g' in Hgt.
      destruct (IH (g_nst g') g' WR HE) as ((CT & SS) & BF & F9); auto.
      { intros E'. split; [apply (evaluate_graph_boundary g WR Bg ltac:(lia) E')|lia]. }
      split; [split|split; [intros H; split; [exact Bg|apply BF, H]|intros; apply F9; lia]].
      * intros t [<-|Ht]; [lia|]. specialize (CT t Ht). lia.
      * constructor; auto. apply Forall_forall. intros t Ht. specialize (CT t Ht). lia.
Qed.

(* C02: the whole simulation run, a failed start included *)
Theorem sim_run_invariant start end_ fuel :
  well_ranked -> start_ops_ok start -> start <= MAX_DT -> end_ <= MAX_DT ->
  let g0 := start_graph cfgs beh start in
  let gf := run_sim cfgs beh start end_ fuel in
  ((forall t, In t (cycle_times end_ fuel g0) -> start <= t < end_) /\ StronglySorted Z.lt (cycle_times end_ fuel g0)) /\
  (g_err gf = 0 -> boundary g0 /\ boundary gf) /\
  ((Z.to_nat (end_ - start) < fuel)%nat -> g_err gf <> 9).
Proof.
  intros WR SO Hs He. apply run_loop_inv; auto; [|apply start_graph_log].
  intros E0. destruct (start_graph_boundary start SO Hs E0) as (B0 & _ & Hnst). auto.
Qed.

(* C02, C18 *)
Lemma no_pending_skipped g i e :
  boundary g -> (i < n)%nat -> c_sched (cfg i) = true -> In e (pending g i) -> g_nst g <= fst e.
Proof. intros B Hi Hc He. destruct (bd_armed g B i Hi Hc e He). lia. Qed.

(* C02, C18, C03: the scan will evaluate the node in that cycle *)
Lemma due_slot_is_now g i e :
  boundary g -> (i < n)%nat -> c_sched (cfg i) = true -> In e (pending g i) -> fst e = g_nst g ->
  slot_at i g = g_nst g.
Proof. intros B Hi Hc He Heq. destruct (bd_armed g B i Hi Hc e He). lia. Qed.

(* C18, C02 *)
Lemma due_events_consumed g :
  well_ranked -> boundary g -> g_nst g < MAX_DT ->
  let g' := evaluate_graph cfgs beh (g_nst g) g in
  g_err g' = 0 ->
  forall i e, (i < n)%nat -> c_sched (cfg i) = true -> In e (pending g' i) -> g_nst g < fst e.
Proof.
  intros WR B Hlt g' Herr i e Hi Hc Hin.
  destruct (evaluate_graph_boundary g WR B Hlt Herr) as (B' & Hnow & Hgt). fold g' in B', Hnow, Hgt.
  destruct (bd_armed g' B' i Hi Hc e Hin). lia.
Qed.

Lemma log10_run_loop end_ fuel : forall g,
  rev (log10 (run_loop cfgs beh end_ fuel g)) =
  rev (log10 g) ++ map (fun t => [10; t]) (cycle_times end_ fuel g).
Proof.
  induction fuel as [|f IH]; intros g; simpl.
  - rewrite app_nil_r; auto.
  - destruct (negb (g_err g =? 0)) eqn:E0; [simpl; rewrite app_nil_r; auto|].
    destruct ((g_nst g =? MAX_DT) || (end_ <=? g_nst g)); [simpl; rewrite app_nil_r; auto|].
    rewrite IH. rewrite (acts_log10 _ _ (evaluate_graph_acts _ g)). unfold log10 at 1.
    simpl. rewrite <- app_assoc. reflexivity.
Qed.


Lemma has_val_iff g p : has_val g p = true <-> n_val (node_at p g) <> None.
Proof. unfold has_val. destruct (n_val (node_at p g)); split; intros; congruence. Qed.

Lemma read_valid_iff g s : v_valid (read_input g s) = true <-> n_val (node_at (i_src s) g) <> None.
Proof. unfold read_input. destruct (n_val (node_at (i_src s) g)); simpl; split; intros; congruence. Qed.

Definition slot_has_value (g : gst) (s : inspec) : Prop :=
  n_val (node_at (i_src s) g) <> None \/ exists m, i_mate s = Some m /\ n_val (node_at m g) <> None.

Lemma slot_valid_iff g s : slot_valid g s = true <-> slot_has_value g s.
Proof.
  unfold slot_valid, slot_has_value. destruct (i_mate s) as [m|].
  - rewrite orb_true_iff, read_valid_iff, has_val_iff. split.
    + intros [H|H]; [left; auto|right; exists m; auto].
    + intros [H|(m' & E & H)]; [left; auto|right; inversion E; subst; auto].
  - rewrite read_valid_iff. split; [auto|]. intros [H|(m' & E & _)]; [auto|discriminate].
Qed.

(* C03: node.cpp ready_to_evaluate as a statement about the producers' outputs *)
Lemma ready_iff c g :
  ready c g = true <->
  forall s, In s (c_ins c) ->
    ((c_vmode c = 0 \/ i_req s = true) -> slot_has_value g s) /\
    (i_all s = true -> n_val (node_at (i_src s) g) <> None).
Proof.
  unfold ready. rewrite forallb_forall. split; intros H s Hs; specialize (H s Hs).
  - apply andb_true_iff in H. destruct H as [H1 H2]. split.
    + intros Hr. replace ((c_vmode c =? 0) || i_req s) with true in H1 by (destruct (i_req s); lia).
      apply slot_valid_iff; auto.
    + intros Ha. rewrite Ha in H2. apply read_valid_iff; auto.
  - destruct H as [H1 H2]. apply andb_true_iff. split.
    + destruct ((c_vmode c =? 0) || i_req s) eqn:E; auto.
      apply slot_valid_iff, H1. destruct (i_req s); lia.
    + destruct (i_all s) eqn:Ea; auto. apply read_valid_iff. auto.
Qed.

(* C01: the forward scan counts a node at most once per cycle *)
Lemma scan_step_evals k g p :
  (p < length (g_nodes g))%nat ->
  n_evals (node_at p (scan_step k g)) =
  n_evals (node_at p g) + (if (slot_at k g =? g_now g) && (p =? k)%nat then 1 else 0).
Proof.
  intros Hp. destruct (Z.eq_dec (slot_at k g) (g_now g)) as [E|E].
  - unfold scan_step. cbv zeta. rewrite E, Z.eqb_refl.
    set (g0 := counted k g).
    rewrite (acts_obs (U := fun _ => keeps n_evals) (T := any) (W := any) n_evals p g0 (eval_node cfgs beh k g0));
      [|intros j f K; right; exact K|right; intros v w x; reflexivity|apply eval_node_acts; auto with acts].
    unfold g0, counted.
    destruct (Nat.eqb_spec p k) as [->|Hne]; [rewrite node_at_upd_same by auto|rewrite node_at_upd_other by auto];
      simpl; auto. rewrite Z.add_0_r. reflexivity.
  - rewrite scan_step_idle by auto. replace (slot_at k g =? g_now g) with false by lia.
    unfold node_at. simpl. lia.
Qed.

Lemma scan_evals_le m : forall k g p,
  (p < length (g_nodes g))%nat ->
  n_evals (node_at p g) <= n_evals (node_at p (scan cfgs beh k m g)) <= n_evals (node_at p g) + (if (k <=? p)%nat then 1 else 0).
Proof.
  induction m as [|m IH]; intros k g p Hl; [simpl; destruct (k <=? p)%nat; lia|].
  rewrite scan_S. destruct (negb (g_err g =? 0)); [destruct (k <=? p)%nat; lia|].
  specialize (IH (S k) (scan_step k g) p). rewrite scan_step_evals in IH by auto.
  destruct (acts_len _ _ (scan_step_acts (fun _ _ => True) any any k g g (fun _ _ => I) I I (acts_refl _ _ _ _))) as [_ L].
  rewrite L in IH. specialize (IH Hl).
  destruct (Nat.leb_spec k p), (Nat.leb_spec (S k) p), (slot_at k g =? g_now g), (Nat.eqb_spec p k); simpl in IH; lia.
Qed.

End EngineInv.

#[global] Hint Constructors acts : acts.
#[global] Hint Resolve acts_opt_schedule : acts.

(* C03: why a node is evaluated in a cycle.  Stated after the section above is closed, over [cfg cfgs], as the
   property is.  The invariant of the scan and its step are here; the gate is read off them under its statement,
   Props/C03.evaluated_exactly_when_due_or_active_input_ticked. *)
Section Cause.
Variable cfgs : list ncfg.
Variable beh : behaviour.
Notation n := (length cfgs).

(* [subscribed] at node i in state g, as Props/C03 states it ([listens] is this and [n_started]) *)
Definition act_from (g : gst) (i p : nat) : bool :=
  existsb (fun sa => (i_src (fst sa) =? p)%nat && snd sa) (combine (c_ins (cfg cfgs i)) (n_act (node_at i g))).

(* the scan: a node is due when the scan reaches it iff it was due at the start of the
   cycle or an earlier node wrote an output one of its active inputs is bound to *)
Definition cause_b (g0 g : gst) (k j : nat) : bool :=
  existsb (fun p => wrote g p && act_from g0 j p) (seq 0 k) && n_started (node_at j g0).

Lemma cause_b_ext g0 g g' k j :
  (forall p, (p < k)%nat -> wrote g' p = wrote g p) -> cause_b g0 g' k j = cause_b g0 g k j.
Proof.
  intros H. unfold cause_b. f_equal. induction k as [|k IH]; auto.
  rewrite seq_S, !existsb_app, IH by (intros; apply H; lia). simpl. rewrite H by lia. reflexivity.
Qed.

Lemma cause_b_S g0 g k j : cause_b g0 g (S k) j = cause_b g0 g k j || (wrote g k && listens cfgs g0 j k).
Proof.
  unfold cause_b, listens. change (subscribed k _ _) with (act_from g0 j k). rewrite seq_S, existsb_app. simpl.
  destruct (existsb _ _), (wrote g k), (act_from g0 j k), (n_started (node_at j g0)); reflexivity.
Qed.

(* what holds of the state g when the scan of the cycle that began in g0 stands before node k *)
Definition scan_inv (g0 : gst) (k : nat) (g : gst) : Prop :=
  length (g_slots g) = n /\ length (g_nodes g) = n /\ g_now g = g_now g0 /\
  (forall j, (k <= j < n)%nat -> node_at j g = node_at j g0 /\
             slot_at j g = (if cause_b g0 g k j then g_now g0 else slot_at j g0)) /\
  (forall j, (j < k)%nat ->
     n_evals (node_at j g) = n_evals (node_at j g0) +
       (if (slot_at j g0 =? g_now g0) || cause_b g0 g j j then 1 else 0)).

Lemma scan_inv_step g0 k g :
  (forall p, (p < n)%nat -> n_lmt (node_at p g0) < g_now g0) -> (k < n)%nat ->
  scan_inv g0 k g -> scan_inv g0 (S k) (scan_step cfgs beh k g).
Proof.
  intros Hold Hk (L1 & L2 & Hnow & HJ & HE).
  assert (A : acts cfgs (fun j _ => j = k) any (eq k) g (scan_step cfgs beh k g)) by (apply scan_step_acts; auto with acts).
  destruct (acts_len _ _ _ A) as [M1 M2]. pose proof (acts_now _ _ _ A) as Mn.
  assert (Nd : forall p, p <> k -> node_at p (scan_step cfgs beh k g) = node_at p g).
  { intros p. apply (acts_other _ _ _ _ k) with (3 := A); auto. }
  assert (Wp : forall p, p <> k -> wrote (scan_step cfgs beh k g) p = wrote g p) by (intros p Hp; unfold wrote; rewrite Nd, Mn; auto).
  destruct (HJ k ltac:(lia)) as [Nk Sk].
  assert (Wk : wrote g k = false) by (unfold wrote; rewrite Nk, Hnow; specialize (Hold k Hk); lia).
  split; [lia|split; [lia|split; [lia|split]]].
  - intros j Hj. destruct (HJ j ltac:(lia)) as [Nj Sj]. split; [rewrite Nd by lia; auto|].
    rewrite scan_step_slot_other, cause_b_S, (cause_b_ext g0 g) by (auto; try lia; intros; apply Wp; lia).
    rewrite (listens_ext cfgs g0 g) by auto. rewrite Sj, Hnow.
    destruct (cause_b g0 g k j), (wrote (scan_step cfgs beh k g) k), (listens cfgs g0 j k); reflexivity.
  - intros j Hj. rewrite (cause_b_ext g0 g) by (intros; apply Wp; lia).
    destruct (Nat.eq_dec j k) as [->|Hne]; [|rewrite Nd by auto; apply HE; lia].
    rewrite scan_step_evals by lia. rewrite Nat.eqb_refl, andb_true_r, Nk, Sk, Hnow.
    destruct (cause_b g0 g k k); [rewrite Z.eqb_refl, orb_true_r|rewrite orb_false_r]; reflexivity.
Qed.

End Cause.
