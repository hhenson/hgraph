(* WindowFacts.v — the tick-count window of Window.v.  [ring l h s c] reads a ring buffer as the list it
   holds (also used for the time window in DWindowFacts.v); [wrep] says which list a window represents,
   [win_op_sim] is one operation against the specification, lifted to a cycle by [fold_left_sim] and to histories, where
   the bound on the last modification moves from cycle to cycle, by the induction [win_run_inv]. *)
Require Import Base Window.
From Coq Require Import Arith.
Local Open Scope nat_scope.

Lemma mod_lt2 a n : 0 < n -> a < 2 * n -> a mod n = if a <? n then a else a - n.
Proof.
  intros P H. destruct (Nat.ltb_spec a n) as [L|L].
  - apply Nat.mod_small. exact L.
  - symmetry. apply (Nat.mod_unique a n 1 (a - n)); lia.
Qed.

Lemma map_seq_ext {A} (f g : nat -> A) n : (forall i, i < n -> f i = g i) -> map f (seq 0 n) = map g (seq 0 n).
Proof. intros H. apply map_ext_in. intros i Hi. apply in_seq in Hi. apply H. lia. Qed.

Lemma fold_left_sim {A B O} (R : A -> B -> Prop) (f : A -> O -> A) (g : B -> O -> B) :
  (forall a b o, R a b -> R (f a o) (g b o)) ->
  forall ops a b, R a b -> R (fold_left f ops a) (fold_left g ops b).
Proof. intros H. induction ops as [|o r IH]; intros a b Rab; [exact Rab|]. apply IH, H, Rab. Qed.

(* [s] elements of the buffer [l] of capacity [c], oldest first, the oldest in slot [h] *)
Definition ring (l : list Z) (h s c : nat) : list Z := map (fun i => nth ((h + i) mod c) l 0%Z) (seq 0 s).

Lemma ring_length l h s c : length (ring l h s c) = s.
Proof. unfold ring. rewrite map_length. apply seq_length. Qed.

Lemma ring_cons l h s c : h < c -> ring l h (S s) c = nth h l 0%Z :: ring l ((h + 1) mod c) s c.
Proof.
  intros H. unfold ring. cbn [seq map]. rewrite Nat.add_0_r, Nat.mod_small, <- seq_shift, map_map by exact H.
  f_equal. apply map_ext. intros i. rewrite Nat.add_mod_idemp_l by lia. f_equal. f_equal. lia.
Qed.

Lemma ring_snoc l h s c v : length l = c -> s < c -> h < c ->
  ring (set_nth ((h + s) mod c) v l) h (S s) c = ring l h s c ++ [v].
Proof.
  intros L S H. unfold ring. rewrite seq_S, map_app. cbn [map Nat.add]. f_equal.
  - apply map_ext_in. intros i Hi. apply in_seq in Hi. apply nth_update_other.
    rewrite !mod_lt2 by lia. destruct (Nat.ltb_spec (h + s) c), (Nat.ltb_spec (h + i) c); lia.
  - f_equal. apply nth_update_same. rewrite L. apply Nat.mod_upper_bound. lia.
Qed.

(* a full ring: overwriting the oldest element and advancing the head is an advance followed by an append, since
   the slot after the last of the remaining cap - 1 elements is the old head *)
Lemma ring_rotate l h c v : length l = c -> h < c ->
  ring (set_nth h v l) ((h + 1) mod c) c c = tl (ring l h c c) ++ [v].
Proof.
  intros L H. destruct c as [|c]; [lia|]. rewrite (ring_cons l h) by exact H. cbn [tl].
  rewrite <- ring_snoc by (try apply Nat.mod_upper_bound; lia).
  rewrite Nat.add_mod_idemp_l by lia. replace (h + 1 + c) with (h + 1 * S c) by lia.
  rewrite Nat.mod_add, (Nat.mod_small h) by lia. reflexivity.
Qed.

Lemma ring_relocate x y c : length x <= c -> ring (x ++ y) 0 (length x) c = x.
Proof.
  intros L. apply nth_ext with (d := 0%Z) (d' := 0%Z); [apply ring_length|].
  rewrite ring_length. intros i Hi. unfold ring. rewrite nth_map_seq by exact Hi.
  cbn [Nat.add]. rewrite Nat.mod_small by lia. apply app_nth1. exact Hi.
Qed.

Lemma skipn_tl {A} m (l : list A) : tl (skipn m l) = skipn (S m) l.
Proof. revert l. induction m as [|m IH]; intros [|x r]; try reflexivity. apply (IH r). Qed.

Lemma lastn_short {A} n (l : list A) : length l <= n -> lastn n l = l.
Proof. intros H. unfold lastn. replace (length l - n) with 0 by lia. reflexivity. Qed.

Lemma lastn_length {A} n (l : list A) : length (lastn n l) = Nat.min (length l) n.
Proof. unfold lastn. rewrite skipn_length. lia. Qed.

Lemma lastn_snoc_full {A} n (l : list A) v : 0 < n -> n <= length l -> lastn n (l ++ [v]) = tl (lastn n l) ++ [v].
Proof.
  intros P H. unfold lastn. rewrite app_length. simpl.
  replace (length l + 1 - n) with (S (length l - n)) by lia.
  rewrite skipn_app. replace (S (length l - n) - length l) with 0 by lia. simpl.
  rewrite skipn_tl. reflexivity.
Qed.

Lemma lastn_snoc_short {A} n (l : list A) v : length l < n -> lastn n (l ++ [v]) = lastn n l ++ [v].
Proof. intros H. rewrite !lastn_short by (rewrite ?app_length; simpl; lia). reflexivity. Qed.

(* [hist]: the values pushed since the last clear (or since construction) *)
Record WInv (w : win) (hist : list Z) : Prop := mkWInv {
  wi_n : 0 < w_n w;
  wi_buf : length (w_buf w) = w_n w;
  wi_size : w_size w = Nat.min (length hist) (w_n w);
  wi_head : w_head w < w_n w;
  wi_head0 : w_size w < w_n w -> w_head w = 0;
  wi_vals : w_values w = lastn (w_n w) hist
}.

Lemma w_push_inv v t w hist : WInv w hist -> WInv (w_push v t w) (hist ++ [v]).
Proof.
  intros [P B S H H0 V]. unfold w_push.
  destruct (Nat.ltb_spec (w_size w) (w_n w)) as [L|L];
    constructor; cbn [w_n w_buf w_size w_head]; rewrite ?set_nth_length, ?app_length; cbn [length]; auto; try lia.
  - rewrite lastn_snoc_short, <- V by lia. apply ring_snoc; assumption.
  - apply Nat.mod_upper_bound. lia.
  - rewrite lastn_snoc_full, <- V by lia. unfold w_values. replace (w_size w) with (w_n w) by lia.
    apply ring_rotate; assumption.
Qed.

(* reference: what a cycle's mutations mean for the list of values pushed since the last clear.
   One window tick per evaluation time; a clear may be followed by one push.  (ticked, cleared, hist) *)
Definition spec_wop (o : wop) (st : bool * bool * list Z) : bool * bool * list Z :=
  let '(ticked, cl, hist) := st in
  match o with
  | WPush v => if ticked && negb cl then st else (true, false, hist ++ [v])
  | WClear => if ticked then st else (true, true, [])
  | WNop => st
  end.
Definition spec_wcycle (ops : list wop) (hist : list Z) : bool * list Z :=
  let '(ticked, _, h) := fold_left (fun st o => spec_wop o st) ops (false, false, hist) in (ticked, h).
Fixpoint spec_whist (h : list (Z * list wop)) (hist : list Z) : list Z :=
  match h with
  | [] => hist
  | (_, ops) :: r => spec_whist r (snd (spec_wcycle ops hist))
  end.

Fixpoint wincreasing (t0 : Z) (h : list (Z * list wop)) : Prop :=
  match h with
  | [] => True
  | (t, _) :: r => (t0 < t)%Z /\ wincreasing t r
  end.

(* the window of period [n] and minimum [m] holds [hist] and was not modified after [tl] *)
Definition wrep n m tl (w : win) (hist : list Z) : Prop :=
  WInv w hist /\ w_n w = n /\ w_min w = m /\ (w_lmt w <= tl)%Z.

Lemma w_push_rep n m tl v t w hist : wrep n m tl w hist -> wrep n m tl (w_push v t w) (hist ++ [v]).
Proof.
  intros (I & N & M & L). split; [apply w_push_inv, I|]. unfold w_push. destruct (w_size w <? w_n w); auto.
Qed.

Lemma w_clear_rep n m tl t w hist : wrep n m tl w hist -> wrep n m tl (w_clear t w) [].
Proof.
  intros ([P B S H H0 V] & N & M & L). split; [|auto].
  constructor; cbn [w_n w_buf w_size w_head length]; auto; lia.
Qed.

(* within the cycle at time [t]: the view's state against the reference's.  [ticked] says whether the window was
   already modified at [t]; the two cleared flags need only agree once it was, since neither is read before. *)
Definition wsim n m t (st : bool * win) (sp : bool * bool * list Z) : Prop :=
  let '(cl, w) := st in let '(ticked, scl, hist) := sp in
  wrep n m t w hist /\ ticked = (w_lmt w =? t)%Z /\ (ticked = true -> scl = cl).

Lemma wsim_tick n m t c w hist : wrep n m t w hist -> wsim n m t (c, w_mark t w) (true, c, hist).
Proof.
  intros ([P B S H H0 V] & N & M & L). unfold w_mark.
  destruct (Z.leb_spec t (w_lmt w)); repeat split; auto; cbn [w_lmt]; lia.
Qed.

Lemma win_op_sim n m t : t <> MIN_DT -> forall st sp o,
  wsim n m t st sp -> wsim n m t (snd (win_op t o st)) (spec_wop o sp).
Proof.
  intros NZ [cl w] [[ticked scl] hist] o K. pose proof K as (I & T & C).
  assert (E : w_modified t w = ticked).
  { unfold w_modified. destruct (Z.eqb_spec t MIN_DT); [contradiction|]. symmetry. exact T. }
  destruct o as [v| |]; cbn [win_op spec_wop]; rewrite ?E.
  - replace (ticked && negb scl) with (ticked && negb cl) by (destruct ticked; [rewrite C|]; reflexivity).
    destruct (ticked && negb cl); cbn [snd]; [exact K|].
    apply wsim_tick, w_push_rep, I.
  - destruct ticked; cbn [snd]; [exact K|].
    apply wsim_tick, (w_clear_rep n m t t w hist), I.
  - exact K.
Qed.

Lemma win_cycle_inv n m tl t ops w hist : wrep n m tl w hist -> (tl < t)%Z -> t <> MIN_DT ->
  wrep n m t (win_cycle t ops w) (snd (spec_wcycle ops hist)).
Proof.
  intros (I & N & M & L) TL NZ. unfold win_cycle, spec_wcycle.
  pose proof (fold_left_sim (wsim n m t) _ _ (win_op_sim n m t NZ) ops (false, w) (false, false, hist)) as G.
  destruct (fold_left _ ops (false, w)) as [cl' w'], (fold_left _ ops (false, false, hist)) as [[tk sc] h'].
  apply G. split; [|split; [lia|reflexivity]]. split; [exact I|]. repeat split; auto; lia.
Qed.

Lemma win_run_inv n m h : forall w hist tl,
  wrep n m tl w hist -> (MIN_DT <= tl)%Z -> wincreasing tl h ->
  exists tl', wrep n m tl' (fold_left (fun w c => win_cycle (fst c) (snd c) w) h w) (spec_whist h hist).
Proof.
  induction h as [|[t ops] r IH]; intros w hist tl I P W; cbn [fold_left spec_whist fst snd]; [exists tl; exact I|].
  destruct W as [W1 W2]. apply (IH _ _ t); [apply (win_cycle_inv n m tl) | | ]; auto; unfold MIN_DT in *; lia.
Qed.

Lemma window_is_lastn_gen n m h :
  0 < n -> wincreasing MIN_DT h ->
  w_values (win_run n m h) = lastn n (spec_whist h []) /\
  w_size (win_run n m h) = Nat.min (length (spec_whist h [])) n /\
  w_min (win_run n m h) = m.
Proof.
  intros P W. unfold win_run.
  destruct (win_run_inv n m h (win_empty n m) [] MIN_DT) as (tl & [_ _ S _ _ V] & N & M & _); [|lia|exact W|].
  - split; [|cbn; auto with zarith]. constructor; cbn; auto using repeat_length; lia.
  - rewrite N in *. auto.
Qed.
