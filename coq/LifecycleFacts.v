(* Proofs about the lifecycle mirror model (property C14).  Every graph of the tree has its own
   automaton [astep], run on the projection of the event log on that graph.
   Two passes go over the model.  The first needs no hypothesis on the state: what a stop or a start
   throws is what the first hook that fired threw ([thrown]), and which kinds of notification an
   operation can emit ([emits]; hence [never_leaks] in every world).  The second carries, from a new
   executor on, the flags the code keeps against the automaton state of every graph ([SimN], the
   [*_spec] lemmas); what an evaluation throws is proved there, because it needs that invariant.
   Then the automaton alone: its moves as the relation [tr], invariants of words over it ([AI], [BAL],
   [settled]), the acceptor; the last lemmas join the two halves for the model's own log. *)
Require Import Base Lifecycle.
From Coq Require Import Arith.
Local Open Scope nat_scope.

Lemma path_eqb_refl p : path_eqb p p = true.
Proof. induction p as [|x p IH]; simpl; auto. rewrite Nat.eqb_refl; auto. Qed.

Lemma path_eqb_eq a b : path_eqb a b = true <-> a = b.
Proof.
  revert b; induction a as [|x a IH]; intros [|y b]; simpl; split; intro H; try congruence; auto.
  - apply andb_prop in H as [H1 H2]. apply Nat.eqb_eq in H1. apply IH in H2. congruence.
  - inversion H; subst. rewrite Nat.eqb_refl. apply IH. reflexivity.
Qed.

Lemma path_eqb_neq a b : a <> b -> path_eqb a b = false.
Proof. intro H. destruct (path_eqb a b) eqn:E; auto. apply path_eqb_eq in E. contradiction. Qed.

Definition prefix (p q : path) : Prop := exists r, q = p ++ r.

Lemma prefix_refl p : prefix p p.
Proof. exists []. rewrite app_nil_r; auto. Qed.

Lemma prefix_app p r : prefix p (p ++ r).
Proof. exists r; auto. Qed.

Lemma prefix_trans a b c : prefix a b -> prefix b c -> prefix a c.
Proof. intros [r1 ->] [r2 ->]. exists (r1 ++ r2). rewrite app_assoc; auto. Qed.

(* the region of node i of graph gp: the paths (gp ++ [i]) ++ r *)
Lemma region_neq (gp : path) i r : (gp ++ [i]) ++ r <> gp.
Proof.
  intro H. apply (f_equal (@length nat)) in H. rewrite !app_length in H. simpl in H. lia.
Qed.

Lemma not_prefix_child gp i : ~ prefix (gp ++ [i]) gp.
Proof. intros [r H]. symmetry in H. revert H. apply region_neq. Qed.

Lemma prefix_sibling gp i j r : prefix (gp ++ [i]) ((gp ++ [j]) ++ r) -> i = j.
Proof.
  intros [s H]. rewrite <- !app_assoc in H. apply app_inv_head in H. simpl in H. congruence.
Qed.

Lemma other_region (gp : path) i j s : i <> j -> ~ prefix (gp ++ [j]) ((gp ++ [i]) ++ s).
Proof. intros Hij Hp. apply prefix_sibling in Hp. congruence. Qed.

Lemma snoc_not_nil (p : path) i : path_eqb (p ++ [i]) [] = false.
Proof. destruct p; reflexivity. Qed.

Lemma node_ind' (P : node -> Prop) :
  (forall per st nx cs ce cp, P (Plain per st nx cs ce cp)) ->
  (forall st gs gt ch, Forall P ch -> P (Nest st gs gt ch)) ->
  forall n, P n.
Proof.
  intros HP HN. fix IH 1. intros [per st nx cs ce cp|st gs gt ch].
  - apply HP.
  - apply HN. induction ch as [|c r IHr]; constructor; auto.
Qed.

Lemma Forall_all {X} (P : X -> Prop) l : (forall x, P x) -> Forall P l.
Proof. intro H. apply Forall_forall. auto. Qed.

Definition hook_phase (k : ekind) : option phase :=
  match k with HS => Some PStart | HE => Some PEval | HP => Some PStop | _ => None end.

Definition is_fired (pl : plan) (e : event) : bool :=
  match hook_phase (e_kind e) with Some ph => pl (e_path e) ph (e_k e) | None => false end.

Definition fired (pl : plan) (ev : list event) : list event := filter (is_fired pl) ev.

Lemma fired_app pl a b : fired pl (a ++ b) = fired pl a ++ fired pl b.
Proof. apply filter_app. Qed.

Lemma fired_opt {X} pl (o : option X) k t p n : hook_phase k = None -> fired pl (opt_ev o (Ev k t p n)) = [].
Proof. unfold fired, is_fired. destruct o; simpl; auto. intros ->. reflexivity. Qed.

Lemma fired_head_true pl ev e0 rest : fired pl ev = e0 :: rest -> is_fired pl e0 = true.
Proof.
  intro H. assert (In e0 (fired pl ev)) by (rewrite H; left; auto).
  unfold fired in H0. apply filter_In in H0. tauto.
Qed.

Lemma fired_hook pl k t p n ph :
  hook_phase k = Some ph -> fired pl [Ev k t p n] = if pl p ph n then [Ev k t p n] else [].
Proof. unfold fired, is_fired. simpl. intros ->. destruct (pl p ph n); reflexivity. Qed.

Lemma fired_nil pl : fired pl [] = [].
Proof. reflexivity. Qed.

Lemma fired_obs pl k t p n l : hook_phase k = None -> fired pl (Ev k t p n :: l) = fired pl l.
Proof. unfold fired, is_fired. simpl. intros ->. reflexivity. Qed.

Global Hint Rewrite fired_app fired_nil app_nil_r : fired.
Global Hint Rewrite fired_obs @fired_opt using reflexivity : fired.

(* es: the hooks that threw, in order (a [fired pl ev]) *)
Definition reports (ph : phase) (p : path) (f : option failure) (es : list event) : Prop :=
  match f, es with
  | None, [] => True
  | Some fl, e :: _ =>
      f_exn fl = XFault (e_path e) ph (e_k e) /\ hook_phase (e_kind e) = Some ph /\ prefix p (e_path e)
  | _, _ => False
  end.

Lemma reports_none ph p es : reports ph p None es -> es = [].
Proof. destruct es; simpl; tauto. Qed.

Lemma reports_app ph p fl a b : reports ph p (Some fl) a -> reports ph p (Some fl) (a ++ b).
Proof. destruct a; simpl; tauto. Qed.

Lemma reports_under ph p fl es p' ph' k :
  reports ph p (Some fl) es -> f_exn fl = XFault p' ph' k -> prefix p p'.
Proof.
  destruct es; simpl; [tauto|]. intros (H1 & _ & H3) Hx. rewrite H1 in Hx. inversion Hx; subst; auto.
Qed.

Definition noted (root : bool) (gp : path) (ph : phase) (f : option failure) : Prop :=
  root = true -> forall fl, f = Some fl ->
  exists j, f_note fl = Some (j, ph) /\ forall p' ph' k, f_exn fl = XFault p' ph' k -> prefix (gp ++ [j]) p'.

Lemma noted_none root gp ph : noted root gp ph None.
Proof. intros _ fl X. discriminate X. Qed.

Lemma reports_node ph gp i root f es :
  reports ph (gp ++ [i]) f es ->
  reports ph gp (option_map (annotate root i ph) f) es /\ noted root gp ph (option_map (annotate root i ph) f).
Proof.
  intro F. destruct f as [g|]; [|split; [exact F|apply noted_none]]. split.
  - destruct es as [|e es]; simpl in *; [exact F|]. destruct F as (H1 & H2 & H3).
    split; [destruct root; exact H1|]. split; [exact H2|]. exact (prefix_trans _ _ _ (prefix_app gp [i]) H3).
  - intros -> fl E. inversion E; subst. exists i. split; [reflexivity|].
    intros p' ph' k. apply (reports_under _ _ _ _ _ _ _ F).
Qed.

Definition reported (pl : plan) (ev : list event) (fl : failure) : Prop :=
  exists p' ph k e0 rest j,
    f_exn fl = XFault p' ph k /\ fired pl ev = e0 :: rest /\ e_path e0 = p' /\ e_k e0 = k /\
    hook_phase (e_kind e0) = Some ph /\ pl p' ph k = true /\ f_note fl = Some (j, ph) /\ prefix [j] p'.

Definition outcome (pl : plan) (ev : list event) (f : option failure) : Prop :=
  match f with None => fired pl ev = [] | Some fl => reported pl ev fl end.

Lemma mk_outcome pl ph ev f :
  reports ph [] f (fired pl ev) -> noted true [] ph f -> outcome pl ev f.
Proof.
  destruct f as [fl|]; [|intros F _; exact (reports_none _ _ _ F)].
  intros F N. destruct (N eq_refl fl eq_refl) as (j & Hn & Hp).
  destruct (fired pl ev) as [|e0 rest] eqn:E; simpl in F; [tauto|]. destruct F as (H1 & H2 & _).
  exists (e_path e0), ph, (e_k e0), e0, rest, j. repeat split; auto.
  - pose proof (fired_head_true _ _ _ _ E) as Hf. unfold is_fired in Hf. rewrite H2 in Hf. exact Hf.
  - eapply Hp; eauto.
Qed.

Lemma reported_app pl a b fl : reported pl a fl -> reported pl (a ++ b) fl.
Proof.
  intros (p' & ph & k & e0 & rest & j & H1 & H2 & H3).
  exists p', ph, k, e0, (rest ++ fired pl b), j. rewrite fired_app, H2. auto.
Qed.

Lemma outcome_app pl a b f : fired pl a = [] -> outcome pl b f -> outcome pl (a ++ b) f.
Proof.
  intros Ha. destruct f as [fl|]; simpl; rewrite ?fired_app, ?Ha; auto.
  intros (p' & ph & k & e0 & rest & j & H1 & H2 & H3). exists p', ph, k, e0, rest, j.
  rewrite fired_app, Ha. auto.
Qed.

Definition emits (K : ekind -> bool) (ev : list event) : Prop := forallb (fun e => K (e_kind e)) ev = true.

Definition KS0 (k : ekind) : bool := match k with BPG | APG | BPN | APN | HP => true | _ => false end.
Definition KS (k : ekind) : bool := match k with BPG | APG | PGF | BPN | APN | PNF | HP => true | _ => false end.
Definition KT0 (k : ekind) : bool := match k with BSG | ASG | BSN | ASN | HS => true | _ => false end.
Definition KTA (k : ekind) : bool :=
  match k with BSG | ASG | SGF | BSN | ASN | SNF | HS | BPN | APN | HP => true | _ => false end.
Definition KTS (k : ekind) : bool := KT0 k || KS k.

Definition no_stop_faults (pl : plan) : Prop := forall p k, pl p PStop k = false.
Definition no_start_faults (pl : plan) : Prop := forall p k, pl p PStart k = false.

Definition allbut (K : ekind -> bool) : Prop :=
  forall k, k <> SNF -> k <> PNF -> K k = true.

Lemma emits_nil K : emits K [].
Proof. reflexivity. Qed.
Lemma emits_app K a b : emits K a -> emits K b -> emits K (a ++ b).
Proof. unfold emits. intros Ha Hb. rewrite forallb_app, Ha, Hb. reflexivity. Qed.
Lemma emits_cons K e l : K (e_kind e) = true -> emits K l -> emits K (e :: l).
Proof. unfold emits. simpl. intros -> ->. reflexivity. Qed.
Lemma emits_opt {X} K (o : option X) k t p n : (o <> None -> K k = true) -> emits K (opt_ev o (Ev k t p n)).
Proof. destruct o; simpl; intro H; [apply emits_cons; [apply H; discriminate|]|]; apply emits_nil. Qed.

Lemma reports_fired pl ph p fl ev : reports ph p (Some fl) (fired pl ev) -> exists q k, pl q ph k = true.
Proof.
  destruct (fired pl ev) as [|e es] eqn:E; simpl; [tauto|]. intros (_ & H & _).
  apply fired_head_true in E. unfold is_fired in E. rewrite H in E. eauto.
Qed.

(* K: a set of kinds the operations are shown to stay within.  Used at all kinds (for what is thrown:
   [stop_world_FE], [start_world_FE]) and, for [never_leaks], at all but "stop node failed" and at all but
   "start node failed": a kind may be left out only if the plan cannot cause it (HnoP, HnoT) *)
Section LifeEmits.
  Variable pl : plan.
  Variable K : ekind -> bool.
  Hypothesis Kall : allbut K.
  Hypothesis HnoT : K SNF = false -> no_start_faults pl.
  Hypothesis HnoP : K PNF = false -> no_stop_faults pl.

  Local Hint Resolve emits_nil emits_app emits_cons : emits.
  Local Hint Extern 1 (K _ = true) => apply Kall; discriminate : emits.

  (* a stop or start that fails emits "stop node failed" or "start node failed": then K must allow it *)
  Lemma fails_K ph k p g ev :
    (K k = false -> forall q n, pl q ph n = false) -> reports ph p g (fired pl ev) -> g <> None -> K k = true.
  Proof.
    intros Hno F Hg. destruct (K k) eqn:E; auto. destruct g as [fl|]; [|congruence].
    apply reports_fired in F as (q & n & F). rewrite (Hno eq_refl) in F. discriminate F.
  Qed.

  Definition thrown (ph : phase) (op1 : path -> Z -> node -> nres) (c : node) : Prop :=
    forall p u c' e g, op1 p u c = (c', e, g) -> reports ph p g (fired pl e) /\ emits K e.

  Lemma stop_loop_thrown stop1 root gp t : forall l i l' ev f,
    Forall (thrown PStop stop1) l -> stop_loop stop1 root gp t i l = (l', ev, f) ->
    (reports PStop gp f (fired pl ev) /\ noted root gp PStop f) /\ emits K ev.
  Proof.
    induction l as [|c r IH]; intros i l' ev f Hs Hrun; simpl in Hrun.
    - inversion Hrun; subst. exact (conj (conj I (noted_none _ _ _)) (emits_nil K)).
    - inversion Hs as [|? ? Hc Hr]; subst.
      destruct (stop_loop stop1 root gp t (S i) r) as [[r' ev1] f1] eqn:E1.
      destruct (stop1 (gp ++ [i]) t c) as [[c' ev2] f2] eqn:E2.
      inversion Hrun; subst; clear Hrun.
      destruct (IH _ _ _ _ Hr E1) as [[F1 N1] M1]. destruct (Hc _ _ _ _ _ E2) as [F2 M2].
      pose proof (fails_K _ PNF _ _ _ HnoP F2) as N2.
      split; [|auto 8 using @emits_opt with emits].
      autorewrite with fired. destruct f1 as [fl1|]; simpl.
      + split; [apply reports_app; exact F1|exact N1].
      + rewrite (reports_none _ _ _ F1). apply reports_node. exact F2.
  Qed.

  Lemma stop_graph_thrown stop1 root gp gs gt ch gs' gt' ch' ev f :
    Forall (thrown PStop stop1) ch -> stop_graph_with stop1 root gp gs gt ch = (gs', gt', ch', ev, f) ->
    (reports PStop gp f (fired pl ev) /\ noted root gp PStop f) /\ emits K ev.
  Proof.
    unfold stop_graph_with. intros Hs Hrun. destruct gs.
    - destruct (stop_loop stop1 root gp gt 0 ch) as [[l' ev1] f1] eqn:E1. inversion Hrun; subst.
      destruct (stop_loop_thrown _ _ _ _ _ _ _ _ _ Hs E1) as [F M].
      pose proof (fails_K _ PNF _ _ _ HnoP (proj1 F)) as N.
      split; [autorewrite with fired; exact F|auto 8 using @emits_opt with emits].
    - inversion Hrun; subst. exact (conj (conj I (noted_none _ _ _)) (emits_nil K)).
  Qed.

  Lemma stop_node_thrown : forall n, thrown PStop (stop_node pl) n.
  Proof.
    induction n as [per st nx cs ce cp|st gs gt ch IH] using node_ind'; intros p t c' ev f Hrun; simpl in Hrun.
    - destruct st; inversion Hrun; subst; [|exact (conj I (emits_nil K))]. split; [|auto with emits].
      rewrite (fired_hook pl HP t p cp PStop eq_refl). destruct (pl p PStop cp); simpl; auto using prefix_refl.
    - destruct st; [|inversion Hrun; subst; exact (conj I (emits_nil K))].
      destruct (stop_graph_with (fun q u c => stop_node pl q u c) false p gs gt ch)
        as [[[[gs' gt'] ch'] ev'] f'] eqn:E.
      inversion Hrun; subst. destruct (stop_graph_thrown _ _ _ _ _ _ _ _ _ _ _ IH E) as [[F _] M]. auto.
  Qed.

  Lemma start_loop_thrown start1 stop1 root gp t : (forall c, thrown PStop stop1 c) -> forall l i l' ev fr,
    Forall (thrown PStart start1) l -> start_loop start1 stop1 root gp t i l = (l', ev, fr) ->
    (reports PStart gp (option_map fst fr) (fired pl ev) /\ noted root gp PStart (option_map fst fr)) /\ emits K ev.
  Proof.
    intro Hp. induction l as [|c r IH]; intros i l' ev fr Hs Hrun; simpl in Hrun.
    - inversion Hrun; subst. exact (conj (conj I (noted_none _ _ _)) (emits_nil K)).
    - inversion Hs as [|? ? Hc Hr]; subst.
      destruct (start1 (gp ++ [i]) t c) as [[c1 ev1] f1] eqn:E1. destruct (Hc _ _ _ _ _ E1) as [F1 M1].
      pose proof (fails_K _ SNF _ _ _ HnoT F1) as N1.
      destruct f1 as [f1|].
      + inversion Hrun; subst; clear Hrun. assert (K SNF = true) by (apply N1; discriminate).
        split; [|auto 8 with emits]. autorewrite with fired. simpl. exact (reports_node _ _ _ root _ _ F1).
      + apply reports_none in F1.
        destruct (start_loop start1 stop1 root gp t (S i) r) as [[r' ev2] f2] eqn:E2.
        destruct (IH _ _ _ _ Hr E2) as [[F2 N2] M2].
        (* the stop of node i in the rollback (only one of the three results of the tail calls it) *)
        destruct (stop1 (gp ++ [i]) t c1) as [[c2 ev3] f3] eqn:E3.
        destruct (Hp _ _ _ _ _ _ E3) as [F3 M3]. pose proof (fails_K _ PNF _ _ _ HnoP F3) as N3.
        destruct f2 as [[f2 [|]]|]; inversion Hrun; subst; clear Hrun;
          (split; [autorewrite with fired; rewrite F1; simpl; split; [|exact N2]|auto 12 using @emits_opt with emits]).
        * exact F2.
        * apply reports_app. exact F2.
        * exact F2.
  Qed.

  Lemma start_graph_thrown start1 stop1 root gp gs gt ch t gs' gt' ch' ev f :
    (forall c, thrown PStop stop1 c) -> Forall (thrown PStart start1) ch ->
    start_graph_with start1 stop1 root gp gs gt ch t = (gs', gt', ch', ev, f) ->
    (reports PStart gp f (fired pl ev) /\ noted root gp PStart f) /\ emits K ev.
  Proof.
    unfold start_graph_with. intros Hp Hs Hrun.
    destruct gs; [inversion Hrun; subst; exact (conj (conj I (noted_none _ _ _)) (emits_nil K))|].
    destruct (start_loop start1 stop1 root gp t 0 ch) as [[l' ev1] fr] eqn:E1.
    destruct (start_loop_thrown _ _ _ _ _ Hp _ _ _ _ _ Hs E1) as [F M].
    destruct fr as [[f0 ab]|]; inversion Hrun; subst; (split; [autorewrite with fired; exact F|]); auto 8 with emits.
  Qed.

  Lemma start_node_thrown : forall n, thrown PStart (start_node pl) n.
  Proof.
    induction n as [per st nx cs ce cp|st gs gt ch IH] using node_ind'; intros p t c' ev f Hrun; simpl in Hrun.
    - destruct st; [inversion Hrun; subst; exact (conj I (emits_nil K))|].
      destruct (pl p PStart cs) eqn:Ep; inversion Hrun; subst; (split; [|auto with emits]);
        rewrite (fired_hook pl HS t p cs PStart eq_refl), Ep; simpl; auto using prefix_refl.
    - destruct st; [inversion Hrun; subst; exact (conj I (emits_nil K))|].
      destruct (start_graph_with (fun q u c => start_node pl q u c) (stop_node pl) false p gs gt ch t)
        as [[[[gs' gt'] ch'] ev'] f'] eqn:E.
      inversion Hrun; subst. destruct (start_graph_thrown _ _ _ _ _ _ _ _ _ _ _ _ _ stop_node_thrown IH E) as [[F _] M]. auto.
  Qed.

  Definition eval_K (eval1 : path -> Z -> node -> nres) (c : node) : Prop :=
    forall p u c' e g, eval1 p u c = (c', e, g) -> emits K e.

  Lemma eval_loop_K eval1 due1 root gp t : forall l i l' ev f,
    Forall (eval_K eval1) l ->
    eval_loop eval1 due1 root gp t i l = (l', ev, f) -> emits K ev.
  Proof.
    induction l as [|c r IH]; intros i l' ev f Hs Hrun; simpl in Hrun.
    - inversion Hrun; subst. apply emits_nil.
    - inversion Hs as [|? ? Hc Hr]; subst.
      destruct (due1 t c); [destruct (eval1 (gp ++ [i]) t c) as [[c1 ev1] [f1|]] eqn:E1|];
        [|destruct (eval_loop eval1 due1 root gp t (S i) r) as [[r' ev2] f2] eqn:E2..];
        inversion Hrun; subst; eauto 8 with emits.
  Qed.

  Lemma eval_graph_K eval1 due1 root gp gs gt ch t gs' gt' ch' ev f :
    Forall (eval_K eval1) ch ->
    eval_graph_with eval1 due1 root gp gs gt ch t = (gs', gt', ch', ev, f) -> emits K ev.
  Proof.
    unfold eval_graph_with. intros Hs Hrun. destruct gs; [|inversion Hrun; apply emits_nil].
    destruct (eval_loop eval1 due1 root gp t 0 ch) as [[l' ev1] f1] eqn:E1.
    inversion Hrun; subst. eauto 8 using eval_loop_K with emits.
  Qed.

  Lemma eval_node_K : forall n p u c' e g, eval_node pl p u n = (c', e, g) -> emits K e.
  Proof using Kall.
    induction n as [per st nx cs ce cp|st gs gt ch IH] using node_ind'; intros p t c' ev f Hrun; simpl in Hrun.
    - destruct st; [destruct (pl p PEval ce)|]; inversion Hrun; subst; auto with emits.
    - destruct st; [|inversion Hrun; subst; apply emits_nil].
      destruct (eval_graph_with (fun q u c => eval_node pl q u c) due false p gs gt ch t)
        as [[[[gs' gt'] ch'] ev'] f'] eqn:E.
      inversion Hrun; subst. eapply eval_graph_K; [exact IH|exact E].
  Qed.

  Lemma dispose_loop_K dispose1 gp : forall l i l' ev,
    Forall (fun c => forall p c' e, dispose1 p c = (c', e) -> emits K e) l ->
    dispose_loop dispose1 gp i l = (l', ev) -> emits K ev.
  Proof.
    induction l as [|c r IH]; intros i l' ev Hs Hrun; simpl in Hrun.
    - inversion Hrun; subst. apply emits_nil.
    - inversion Hs as [|? ? Hc Hr]; subst.
      destruct (dispose_loop dispose1 gp (S i) r) as [r' ev1] eqn:E1.
      destruct (dispose1 (gp ++ [i]) c) as [c' ev2] eqn:E2.
      inversion Hrun; subst. eauto with emits.
  Qed.

  Lemma dispose_node_K : forall n p c' ev, dispose_node pl p n = (c', ev) -> emits K ev.
  Proof.
    induction n as [per st nx cs ce cp|st gs gt ch IH] using node_ind'; intros p c' ev Hrun; simpl in Hrun.
    - inversion Hrun; subst. apply emits_nil.
    - destruct gs.
      + destruct (stop_graph_with (stop_node pl) false p true gt ch) as [[[[gs' gt'] ch'] ev'] f'] eqn:E.
        inversion Hrun; subst. exact (proj2 (stop_graph_thrown _ _ _ _ _ _ _ _ _ _ _ (Forall_all _ _ stop_node_thrown) E)).
      + destruct (dispose_loop (fun q c => dispose_node pl q c) p 0 ch) as [ch' ev'] eqn:E.
        inversion Hrun; subst. eapply dispose_loop_K; [exact IH|exact E].
  Qed.

  Lemma stop_world_thrown w w' ev f : stop_world pl w = (w', ev, f) -> outcome pl ev f /\ emits K ev.
  Proof.
    unfold stop_world. intro H.
    destruct (stop_graph_with (stop_node pl) true [] (w_gs w) (w_gt w) (w_nodes w)) as [[[[gs gt] ch] ev'] f'] eqn:E.
    inversion H; subst. destruct (stop_graph_thrown _ _ _ _ _ _ _ _ _ _ _ (Forall_all _ _ stop_node_thrown) E) as [[F N] M].
    split; [exact (mk_outcome _ _ _ _ F N)|exact M].
  Qed.

  Lemma cycles_K sp e : forall fuel lo w w' ev f, cycles pl sp e fuel lo w = (w', ev, f) -> emits K ev.
  Proof.
    induction fuel as [|fuel IH]; intros lo w w' ev f H; simpl in H; [inversion H; apply emits_nil|].
    destruct (min_next_list lo (w_nodes w)); [|inversion H; apply emits_nil].
    destruct (e <=? z)%Z; [inversion H; apply emits_nil|].
    destruct (eval_graph_with (eval_node pl) due true [] (w_gs w) (w_gt w) (w_nodes w) z) as [[[[gs gt] ch] ev1] f1] eqn:E.
    assert (M1 : emits K ev1).
    { eapply eval_graph_K; [|exact E]. apply Forall_all. exact eval_node_K. }
    destruct f1; [inversion H; subst; auto|].
    destruct (stop_requested sp ev1); [inversion H; subst; auto|].
    destruct (cycles pl sp e fuel (z + 1)%Z (W gs gt ch)) as [[w2 ev2] f2] eqn:E2.
    inversion H; subst. eauto with emits.
  Qed.

  Lemma life_K sp cfg w : emits K (full_log pl sp cfg w).
  Proof.
    unfold full_log, life. destruct (run pl sp cfg w) as [[w1 ev1] f] eqn:E1.
    destruct (release pl w1) as [w2 ev2] eqn:E2.
    apply emits_app.
    - unfold run in E1. destruct (c_end cfg <=? c_start cfg)%Z; [inversion E1; apply emits_nil|].
      destruct (start_graph_with (start_node pl) (stop_node pl) true [] (w_gs w) (w_gt w) (w_nodes w) (c_start cfg))
        as [[[[gs gt] ch] ev0] f0] eqn:E0.
      assert (M0 : emits K ev0).
      { exact (proj2 (start_graph_thrown _ _ _ _ _ _ _ _ _ _ _ _ _ stop_node_thrown (Forall_all _ _ start_node_thrown) E0)). }
      destruct f0; [inversion E1; subst; auto|].
      destruct (cycles pl sp (c_end cfg) (c_fuel cfg) (c_start cfg) (W gs gt ch)) as [[w1' ev1'] f1] eqn:Ec.
      pose proof (cycles_K _ _ _ _ _ _ _ _ Ec) as Mc.
      (* the stop of the world after the cycles (in one of the three cases below it does not happen) *)
      destruct (stop_world pl w1') as [[w2' ev2'] f2] eqn:Es. pose proof (proj2 (stop_world_thrown _ _ _ _ Es)) as Ms.
      destruct f1; [destruct (c_cleanup cfg)|]; inversion E1; subst; auto with emits.
    - unfold release in E2. destruct (stop_world pl w1) as [[w1' ev1'] f1] eqn:Es.
      destruct (dispose_loop (dispose_node pl) [] 0 (w_nodes w1')) as [ch ev3] eqn:Ed.
      inversion E2; subst. apply emits_app; [eapply stop_world_thrown; eauto|].
      eapply dispose_loop_K; [|exact Ed]. apply Forall_all, dispose_node_K.
  Qed.
End LifeEmits.

Lemma stop_world_FE pl w w' ev f : stop_world pl w = (w', ev, f) -> outcome pl ev f.
Proof. apply (stop_world_thrown pl (fun _ => true)); [intros k _ _; reflexivity|discriminate..]. Qed.

Lemma start_world_FE pl gs gt ch t gs' gt' ch' ev f :
  start_graph_with (start_node pl) (stop_node pl) true [] gs gt ch t = (gs', gt', ch', ev, f) -> outcome pl ev f.
Proof.
  intro E. assert (Kall : allbut (fun _ => true)) by (intros k _ _; reflexivity).
  edestruct (start_graph_thrown pl (fun _ => true) Kall) as [[F N] _];
    [| |apply stop_node_thrown|apply Forall_all, start_node_thrown|exact E|exact (mk_outcome _ _ _ _ F N)];
    auto; discriminate.
Qed.

Lemma graph_word_app gq a b : graph_word gq (a ++ b) = graph_word gq a ++ graph_word gq b.
Proof. unfold graph_word. rewrite filter_app, map_app. reflexivity. Qed.

Lemma graph_word_nil gq : graph_word gq [] = [].
Proof. reflexivity. Qed.

Lemma arun_app a w1 w2 : arun a (w1 ++ w2) = arun (arun a w1) w2.
Proof. unfold arun. apply fold_left_app. Qed.

Lemma arun_hook a hk i w a' :
  (w = [] \/ w = [SN hk i]) -> astep a (SN hk i) = a' -> arun a w = a \/ arun a w = a'.
Proof. intros [->| ->] H; simpl; auto. Qed.

Lemma gw_graph_ev gq k t gp n :
  is_graph_kind k = true ->
  graph_word gq [Ev k t gp n] = if path_eqb gp gq then [SG k] else [].
Proof.
  intro Hk. unfold graph_word, well_addressed, owner, sym_of. simpl. rewrite Hk. simpl.
  destruct (path_eqb gp gq); simpl; rewrite ?Hk; reflexivity.
Qed.

Lemma gw_node_ev gq k t gp i n :
  is_graph_kind k = false ->
  graph_word gq [Ev k t (gp ++ [i]) n] = if path_eqb gp gq then [SN k i] else [].
Proof.
  intro Hk. unfold graph_word, well_addressed, owner, sym_of, index_of. simpl. rewrite Hk. simpl.
  rewrite snoc_not_nil, removelast_last. simpl.
  destruct (path_eqb gp gq); simpl; rewrite ?Hk, ?last_last; reflexivity.
Qed.

Lemma gw_graph_self k t gp n : is_graph_kind k = true -> graph_word gp [Ev k t gp n] = [SG k].
Proof. intro Hk. rewrite gw_graph_ev, path_eqb_refl; auto. Qed.

Lemma gw_node_self k t gp i n : is_graph_kind k = false -> graph_word gp [Ev k t (gp ++ [i]) n] = [SN k i].
Proof. intro Hk. rewrite gw_node_ev, path_eqb_refl; auto. Qed.

Lemma gw_opt_self {X} (o : option X) k t gp i n :
  is_graph_kind k = false -> graph_word gp (opt_ev o (Ev k t (gp ++ [i]) n)) = if o then [SN k i] else [].
Proof. destruct o; simpl; auto using gw_node_self. Qed.

Global Hint Rewrite graph_word_app arun_app : gw.
Global Hint Rewrite gw_graph_self gw_node_self @gw_opt_self using reflexivity : gw.

Lemma graph_word_no_owner gq L : ~ In gq (map owner L) -> graph_word gq L = [].
Proof.
  unfold graph_word. induction L as [|e L IH]; simpl; auto. intro H.
  destruct (path_eqb (owner e) gq) eqn:E.
  - apply path_eqb_eq in E. exfalso. apply H. auto.
  - rewrite andb_false_r. apply IH. tauto.
Qed.

Definition under (p : path) (ev : list event) : Prop :=
  forall e, In e ev -> well_addressed e = true /\ prefix p (owner e).

Lemma under_app p a b : under p a -> under p b -> under p (a ++ b).
Proof. intros Ha Hb e He. apply in_app_or in He as [He|He]; auto. Qed.

Lemma under_nil p : under p [].
Proof. intros e []. Qed.

Lemma under_word_nil p ev gq : under p ev -> ~ prefix p gq -> graph_word gq ev = [].
Proof.
  intros Hu Hn. apply graph_word_no_owner. rewrite in_map_iff. intros (e & <- & He). apply Hn, (Hu e He).
Qed.

Lemma under_graph_ev k t gp n : is_graph_kind k = true -> under gp [Ev k t gp n].
Proof.
  intros Hk e [<-|[]]. unfold well_addressed, owner. simpl. rewrite Hk. split; auto. apply prefix_refl.
Qed.

Lemma under_node_ev k t gp i n : is_graph_kind k = false -> under gp [Ev k t (gp ++ [i]) n].
Proof.
  intros Hk e [<-|[]]. unfold well_addressed, owner. simpl. rewrite Hk, snoc_not_nil, removelast_last.
  split; auto. apply prefix_refl.
Qed.

Lemma under_weaken p q ev : prefix p q -> under q ev -> under p ev.
Proof. intros Hp Hu e He. destruct (Hu e He) as [Hw Ho]. split; auto. eapply prefix_trans; eauto. Qed.

Definition after (A : path -> ast) (ev : list event) : path -> ast :=
  fun gq => arun (A gq) (graph_word gq ev).

Lemma after_nil A : after A [] = A.
Proof. reflexivity. Qed.

Lemma after_app A a b gq : after A (a ++ b) gq = after (after A a) b gq.
Proof. unfold after. rewrite graph_word_app, arun_app. reflexivity. Qed.

Lemma after_same A ev gq : graph_word gq ev = [] -> after A ev gq = A gq.
Proof. unfold after. intros ->. reflexivity. Qed.

Lemma after_frame A p ev gq : under p ev -> ~ prefix p gq -> after A ev gq = A gq.
Proof. intros Hu Hn. apply after_same. apply (under_word_nil p ev gq Hu Hn). Qed.

Section ForallI.
  Variable P : nat -> node -> Prop.
  Fixpoint ForallI (i : nat) (l : list node) : Prop :=
    match l with [] => True | c :: r => P i c /\ ForallI (S i) r end.
End ForallI.

Lemma ForallI_impl (P Q : nat -> node -> Prop) l : forall i,
  (forall j c, i <= j -> In c l -> P j c -> Q j c) -> ForallI P i l -> ForallI Q i l.
Proof.
  induction l as [|c r IH]; simpl; intros i H HP; auto. destruct HP as [H1 H2]. split.
  - apply H; auto.
  - apply IH; auto. intros j c' Hj Hin. apply H; auto. lia.
Qed.

Lemma ForallI_nth (P : nat -> node -> Prop) l : forall i j c,
  ForallI P i l -> nth_error l j = Some c -> P (i + j) c.
Proof.
  induction l as [|x r IH]; intros i [|j] c H Hn; simpl in *; try discriminate.
  - inversion Hn; subst. rewrite Nat.add_0_r. tauto.
  - replace (i + S j) with (S i + j) by lia. apply IH; tauto.
Qed.

Fixpoint clean (n : node) : bool :=
  match n with
  | Plain _ st _ _ _ _ => negb st
  | Nest st gs _ ch => negb st && negb gs && forallb clean ch
  end.

Definition node_stopped (n : node) : bool := negb (node_started n).

Definition quiet (A : path -> ast) (p : path) : Prop := forall r, A (p ++ r) = AFresh.

Definition gstate_ok (A : path -> ast) (gp : path) (gs : bool) (ch : list node) : Prop :=
  if gs then A gp = AStarted (length ch) /\ forallb node_started ch = true
  else (ast_leaked (A gp) = true /\ forallb node_stopped ch = false)
       \/ (quiet A gp /\ forallb clean ch = true)
       \/ (ast_done (A gp) = true /\ forallb node_stopped ch = true).

Fixpoint SimN (A : path -> ast) (p : path) (n : node) : Prop :=
  match n with
  | Plain _ _ _ _ _ _ => quiet A p
  | Nest st gs _ ch =>
      st = gs /\ ForallI (fun i c => SimN A (p ++ [i]) c) 0 ch /\
      (forall i, length ch <= i -> quiet A (p ++ [i])) /\ gstate_ok A p gs ch
  end.

Definition SimL (A : path -> ast) (gp : path) (i : nat) (l : list node) : Prop :=
  ForallI (fun j c => SimN A (gp ++ [j]) c) i l.

Definition SimG (A : path -> ast) (gp : path) (gs : bool) (ch : list node) : Prop :=
  SimL A gp 0 ch /\ (forall i, length ch <= i -> quiet A (gp ++ [i])) /\ gstate_ok A gp gs ch.

Lemma quiet_ext A A' p : (forall r, A (p ++ r) = A' (p ++ r)) -> quiet A p -> quiet A' p.
Proof. intros H Q r. rewrite <- H. apply Q. Qed.

Lemma quiet_sub A p r : quiet A p -> quiet A (p ++ r).
Proof. intros Q s. rewrite <- app_assoc. apply Q. Qed.

Lemma SimN_ext n : forall A A' p, (forall r, A (p ++ r) = A' (p ++ r)) -> SimN A p n -> SimN A' p n.
Proof.
  induction n as [per st nx cs ce cp|st gs gt ch IH] using node_ind'; intros A A' p HA; simpl.
  - apply quiet_ext; auto.
  - intros (H1 & H2 & H3 & H4). split; auto. split; [|split].
    + revert H2. apply ForallI_impl. intros j c _ Hin. rewrite Forall_forall in IH.
      apply IH; auto. intro s. rewrite <- !app_assoc. apply HA.
    + intros i Hi. eapply quiet_ext; [|apply H3; auto]. intro s. rewrite <- !app_assoc. apply HA.
    + unfold gstate_ok in *. pose proof (HA []) as H0. rewrite app_nil_r in H0. rewrite <- H0.
      destruct gs; auto. destruct H4 as [H4|[[H4 H5]|H4]]; auto. right; left. split; auto.
      eapply quiet_ext; eauto.
Qed.

Lemma SimL_ext A A' gp l i :
  (forall j r, i <= j -> A ((gp ++ [j]) ++ r) = A' ((gp ++ [j]) ++ r)) -> SimL A gp i l -> SimL A' gp i l.
Proof. intro HA. apply ForallI_impl. intros j c Hj _. apply SimN_ext. intro r. apply HA; auto. Qed.

Lemma SimG_ext A A' gp gs ch : (forall r, A (gp ++ r) = A' (gp ++ r)) -> SimG A gp gs ch -> SimG A' gp gs ch.
Proof. intros HA Hs. apply (SimN_ext (Nest gs gs 0%Z ch) A A' gp HA (conj eq_refl Hs)). Qed.

Lemma clean_quiet_SimN n : forall A p, clean n = true -> quiet A p -> SimN A p n.
Proof.
  induction n as [per st nx cs ce cp|st gs gt ch IH] using node_ind'; intros A p Hc Q; simpl in *; auto.
  apply andb_prop in Hc as [Hc Hch]. apply andb_prop in Hc as [Hst Hgs].
  destruct st, gs; try discriminate. split; auto. split; [|split].
  - clear - Hch IH Q. generalize 0. induction ch as [|c r IHr]; intro i; simpl in *; auto.
    apply andb_prop in Hch as [Hc Hr]. inversion IH; subst. split; auto using quiet_sub.
  - intros i _. apply quiet_sub; auto.
  - simpl. right; left. split; auto.
Qed.

Lemma clean_SimL A gp l : forall i,
  forallb clean l = true -> (forall j, i <= j -> quiet A (gp ++ [j])) -> SimL A gp i l.
Proof.
  unfold SimL. induction l as [|c r IH]; simpl; auto. intros i Hc Hq.
  apply andb_prop in Hc as [H1 H2]. split.
  - apply clean_quiet_SimN; auto.
  - apply IH; auto. intros j Hj. apply Hq. lia.
Qed.

Lemma clean_stopped c : clean c = true -> node_stopped c = true.
Proof.
  destruct c; simpl; unfold node_stopped; simpl; auto.
  intro H. apply andb_prop in H as [H _]. apply andb_prop in H as [H _]. exact H.
Qed.

Lemma forallb_impl {X} (f g : X -> bool) l :
  (forall x, f x = true -> g x = true) -> forallb f l = true -> forallb g l = true.
Proof. intros H. rewrite !forallb_forall. auto. Qed.

Lemma clean_all_stopped l : forallb clean l = true -> forallb node_stopped l = true.
Proof. apply forallb_impl. apply clean_stopped. Qed.

Lemma clean_Nest_inv st gs gt ch :
  clean (Nest st gs gt ch) = true -> st = false /\ gs = false /\ forallb clean ch = true.
Proof.
  simpl. intro H. apply andb_prop in H as [H H3]. apply andb_prop in H as [H1 H2].
  destruct st, gs; try discriminate; auto.
Qed.

Definition NoBad (A : path -> ast) (p : path) : Prop := forall r, ast_bad (A (p ++ r)) = false.

Lemma below_ind (P : path -> Prop) p n :
  P p -> (forall i s, i < n -> P ((p ++ [i]) ++ s)) -> (forall i s, n <= i -> P ((p ++ [i]) ++ s)) ->
  forall r, P (p ++ r).
Proof.
  intros H0 H1 H2 [|i s]; [rewrite app_nil_r; exact H0|]. change (P (p ++ [i] ++ s)). rewrite app_assoc.
  destruct (lt_dec i n); [apply H1|apply H2]; lia.
Qed.

Lemma SimN_NoBad n : forall A p, SimN A p n -> NoBad A p.
Proof.
  induction n as [per st nx cs ce cp|st gs gt ch IH] using node_ind'; intros A p H; simpl in *.
  - intro r. rewrite H. reflexivity.
  - destruct H as (H1 & H2 & H3 & H4). refine (below_ind (fun q => ast_bad (A q) = false) p (length ch) _ _ _).
    + unfold gstate_ok in H4. destruct gs; [destruct H4 as [-> _]; reflexivity|].
      destruct H4 as [[H4 _]|[[H4 _]|[H4 _]]].
      * destruct (A p); simpl in *; congruence.
      * specialize (H4 []). rewrite app_nil_r in H4. rewrite H4. reflexivity.
      * destruct (A p); simpl in *; congruence.
    + intros i s Hi. destruct (nth_error ch i) as [c|] eqn:E; [|apply nth_error_None in E; lia].
      rewrite Forall_forall in IH. apply (IH c); [eapply nth_error_In; eauto|].
      apply (ForallI_nth _ _ 0 i c H2 E).
    + intros i s Hi. rewrite (H3 i Hi). reflexivity.
Qed.

(* events of an operation on node i of graph gp: inside the node's own region, except for at
   most one user-hook event, which belongs to gp *)
Definition nloc (gp : path) (i : nat) (hk : ekind) (ev : list event) : Prop :=
  forallb well_addressed ev = true /\
  (forall gq, ~ prefix (gp ++ [i]) gq -> gq <> gp -> graph_word gq ev = []) /\
  (graph_word gp ev = [] \/ graph_word gp ev = [SN hk i]).

Definition gloc (gp : path) (lo hi : nat) (ev : list event) : Prop :=
  forallb well_addressed ev = true /\
  (forall gq, gq <> gp -> (forall j, lo <= j < hi -> ~ prefix (gp ++ [j]) gq) -> graph_word gq ev = []).

Lemma gloc_nil gp lo hi : gloc gp lo hi [].
Proof. split; auto. Qed.

Lemma gloc_app gp lo hi a b : gloc gp lo hi a -> gloc gp lo hi b -> gloc gp lo hi (a ++ b).
Proof.
  intros [Ha1 Ha2] [Hb1 Hb2]. split.
  - rewrite forallb_app, Ha1, Hb1. reflexivity.
  - intros gq H1 H2. rewrite graph_word_app, Ha2, Hb2; auto.
Qed.

Lemma gloc_widen gp lo hi lo' hi' ev :
  gloc gp lo hi ev -> hi <= lo \/ lo' <= lo /\ hi <= hi' -> gloc gp lo' hi' ev.
Proof. intros [Ha Hb] H. split; auto. intros gq Hq Hj. apply Hb; auto. intros j Hj'. apply Hj. lia. Qed.

Lemma gloc_node_ev gp lo hi k t i n : is_graph_kind k = false -> gloc gp lo hi [Ev k t (gp ++ [i]) n].
Proof.
  intro Hk. split.
  - simpl. unfold well_addressed. simpl. rewrite Hk, snoc_not_nil. reflexivity.
  - intros gq Hq _. rewrite gw_node_ev; auto. rewrite path_eqb_neq; auto.
Qed.

Lemma gloc_graph_ev gp lo hi k t n : is_graph_kind k = true -> gloc gp lo hi [Ev k t gp n].
Proof.
  intro Hk. split.
  - simpl. unfold well_addressed. simpl. rewrite Hk. reflexivity.
  - intros gq Hq _. rewrite gw_graph_ev; auto. rewrite path_eqb_neq; auto.
Qed.

Lemma gloc_opt_ev {X} gp lo hi (o : option X) e : gloc gp lo hi [e] -> gloc gp lo hi (opt_ev o e).
Proof. destruct o; simpl; auto using gloc_nil. Qed.

Lemma nloc_gloc gp i hk ev lo hi : nloc gp i hk ev -> lo <= i < hi -> gloc gp lo hi ev.
Proof. intros (H1 & H2 & H3) Hi. split; [exact H1|]. intros gq Hq Hj. apply H2; auto. Qed.

Lemma nloc_nil gp i hk : nloc gp i hk [].
Proof. split; [|split]; auto. Qed.

Lemma nloc_hook gp i hk t k : is_graph_kind hk = false -> nloc gp i hk [Ev hk t (gp ++ [i]) k].
Proof.
  intro Hk. destruct (gloc_node_ev gp 0 0 hk t i k Hk) as [W G]. split; [exact W|]. split.
  - intros gq _ Hq. apply G; auto. intros j Hj. lia.
  - right. apply gw_node_self; auto.
Qed.

Lemma gloc_outside gp lo hi ev gq : gloc gp lo hi ev -> ~ prefix gp gq -> graph_word gq ev = [].
Proof.
  intros [_ H] Hn. apply H.
  - intros ->. apply Hn. apply prefix_refl.
  - intros j _ Hp. apply Hn. eapply prefix_trans; [|exact Hp]. apply prefix_app.
Qed.

Lemma gloc_nloc gp i hk lo hi ev : gloc (gp ++ [i]) lo hi ev -> nloc gp i hk ev.
Proof.
  intro G. split; [apply G|]. split.
  - intros gq Hn _. exact (gloc_outside _ _ _ _ _ G Hn).
  - left. apply (gloc_outside _ _ _ _ _ G), not_prefix_child.
Qed.

Lemma under_nloc gp i hk ev : under (gp ++ [i]) ev -> nloc gp i hk ev.
Proof.
  intro Hu. split; [|split].
  - apply forallb_forall. intros e He. apply Hu; auto.
  - intros gq Hn _. eapply under_word_nil; eauto.
  - left. eapply under_word_nil; eauto. apply not_prefix_child.
Qed.

Lemma under_gloc gp lo hi ev : under gp ev -> lo = 0 -> gloc gp lo hi ev -> True.
Proof. auto. Qed.

Global Hint Resolve gloc_nil gloc_app gloc_node_ev gloc_graph_ev : loc.
Global Hint Resolve gloc_opt_ev | 2 : loc.
Global Hint Extern 3 (gloc _ _ _ _) =>
  match goal with
  | H : gloc _ _ _ _ |- _ => apply (gloc_widen _ _ _ _ _ _ H); lia
  | H : nloc _ _ _ _ |- _ => apply (nloc_gloc _ _ _ _ _ _ H); lia
  end : loc.

Lemma gloc_region gp lo hi ev j r : gloc gp lo hi ev -> j < lo \/ hi <= j -> graph_word ((gp ++ [j]) ++ r) ev = [].
Proof.
  intros [_ H] Hj. apply H; [apply region_neq|]. intros k Hk Hp. apply prefix_sibling in Hp. lia.
Qed.

Lemma quiet_frame A gp lo hi ev j :
  gloc gp lo hi ev -> j < lo \/ hi <= j -> quiet A (gp ++ [j]) -> quiet (after A ev) (gp ++ [j]).
Proof. intros G Hj. apply quiet_ext. intro r. symmetry. apply after_same. eapply gloc_region; eauto. Qed.

Lemma SimN_frame A gp lo hi ev j n :
  gloc gp lo hi ev -> j < lo \/ hi <= j -> SimN A (gp ++ [j]) n -> SimN (after A ev) (gp ++ [j]) n.
Proof. intros G Hj. apply SimN_ext. intro r. symmetry. apply after_same. eapply gloc_region; eauto. Qed.

Lemma SimL_frame A gp lo hi ev i l : gloc gp lo hi ev -> hi <= i -> SimL A gp i l -> SimL (after A ev) gp i l.
Proof. intros G Hi. apply ForallI_impl. intros j c Hj _. apply (SimN_frame _ _ _ _ _ _ _ G). lia. Qed.

Lemma SimN_after_app A a b p n : SimN (after (after A a) b) p n <-> SimN (after A (a ++ b)) p n.
Proof. split; apply SimN_ext; intro r; rewrite after_app; reflexivity. Qed.

Lemma SimL_after_app A a b gp i l : SimL (after (after A a) b) gp i l <-> SimL (after A (a ++ b)) gp i l.
Proof. split; apply SimL_ext; intros j r _; rewrite after_app; reflexivity. Qed.

Lemma quiet_after_app A a b p : quiet (after (after A a) b) p <-> quiet (after A (a ++ b)) p.
Proof. split; apply quiet_ext; intro r; rewrite after_app; reflexivity. Qed.

(* h: whether the user hook ran; its event belongs to gp's own word and stands between the notifications *)
Lemma bracket A gp i hk pre ev post n :
  gloc gp 0 0 pre -> gloc gp 0 0 post -> nloc gp i hk ev -> SimN (after A ev) (gp ++ [i]) n ->
  gloc gp i (S i) (pre ++ ev ++ post) /\ SimN (after A (pre ++ ev ++ post)) (gp ++ [i]) n /\
  exists h : bool, graph_word gp (pre ++ ev ++ post) =
                   graph_word gp pre ++ (if h then [SN hk i] else []) ++ graph_word gp post.
Proof.
  intros Gpre Gpost N Hn. split; [auto with loc|]. split.
  - revert Hn. apply SimN_ext. intro r. unfold after.
    rewrite !graph_word_app, (gloc_region _ _ _ _ i r Gpre), (gloc_region _ _ _ _ i r Gpost), app_nil_r by lia.
    reflexivity.
  - destruct N as (_ & _ & [W|W]); [exists false|exists true]; rewrite !graph_word_app, W; reflexivity.
Qed.

Lemma graph_bracket A gp pre ev post l n :
  gloc gp 0 0 pre -> gloc gp 0 0 post -> gloc gp 0 n ev ->
  SimL (after (after A pre) ev) gp 0 l -> (forall i, n <= i -> quiet A (gp ++ [i])) ->
  gloc gp 0 n (pre ++ ev ++ post) /\ SimL (after A (pre ++ ev ++ post)) gp 0 l /\
  (forall i, n <= i -> quiet (after A (pre ++ ev ++ post)) (gp ++ [i])) /\
  after A (pre ++ ev ++ post) gp = arun (after (after A pre) ev gp) (graph_word gp post).
Proof.
  intros Gpre Gpost Gev Hs Hq. assert (G : gloc gp 0 n (pre ++ ev ++ post)) by auto with loc.
  split; [exact G|]. split; [|split].
  - apply -> SimL_after_app. apply -> SimL_after_app. apply (SimL_frame _ _ _ _ _ _ _ Gpost); auto.
  - intros i Hi. apply (quiet_frame _ _ _ _ _ _ G); auto.
  - rewrite !after_app. reflexivity.
Qed.

(* one step of the automaton on a symbol whose node index is the expected one *)
Ltac aut := repeat (progress (simpl; rewrite ?Nat.eqb_refl, ?path_eqb_refl, ?orb_true_r, ?orb_false_r)); try reflexivity.

Lemma app_bracket {X} (a c : X) (b d : list X) : a :: b ++ c :: d = (a :: b ++ [c]) ++ d.
Proof. simpl. rewrite <- app_assoc. reflexivity. Qed.

Definition stop_spec (stop1 : path -> Z -> node -> nres) (c : node) : Prop :=
  forall gp i t A c' ev f,
    SimN A (gp ++ [i]) c -> stop1 (gp ++ [i]) t c = (c', ev, f) ->
    nloc gp i HP ev /\ SimN (after A ev) (gp ++ [i]) c' /\ node_started c' = false.

Lemma stop_bracket stop1 c gp i t A c' ev f :
  stop_spec stop1 c -> SimN A (gp ++ [i]) c -> stop1 (gp ++ [i]) t c = (c', ev, f) ->
  let B := Ev BPN t (gp ++ [i]) 0 :: ev ++ opt_ev f (Ev PNF t (gp ++ [i]) 0) ++ [Ev APN t (gp ++ [i]) 0] in
  gloc gp i (S i) B /\ SimN (after A B) (gp ++ [i]) c' /\ node_started c' = false /\
  exists h : bool, graph_word gp B =
    SN BPN i :: (if h then [SN HP i] else []) ++ (if f then [SN PNF i] else []) ++ [SN APN i].
Proof.
  intros Hc Hs E. destruct (Hc gp i t A c' ev f Hs E) as (N & Hs' & St).
  edestruct (bracket A gp i HP [Ev BPN t (gp ++ [i]) 0] ev
              (opt_ev f (Ev PNF t (gp ++ [i]) 0) ++ [Ev APN t (gp ++ [i]) 0]) c') as (G & Hs'' & h & W);
    auto with loc.
  refine (conj G (conj Hs'' (conj St _))). exists h. simpl app in W. rewrite W. autorewrite with gw. reflexivity.
Qed.

Lemma orb_first {X} (x : bool) (f1 f2 : option X) g :
  x || is_some (first_of f1 (option_map g f2)) = (x || is_some f1) || is_some f2.
Proof. destruct x, f1, f2; reflexivity. Qed.

Lemma stop_loop_spec stop1 root gp t m : forall l i A x l' ev f,
  Forall (stop_spec stop1) l ->
  SimL A gp i l ->
  A gp = AStopping m (i + length l) x ->
  stop_loop stop1 root gp t i l = (l', ev, f) ->
  gloc gp i (i + length l) ev /\ SimL (after A ev) gp i l' /\ length l' = length l /\
  forallb node_stopped l' = true /\ after A ev gp = AStopping m i (x || is_some f).
Proof.
  induction l as [|c r IH]; intros i A x l' ev f Hspec Hsim HA Hrun; cbn [stop_loop length forallb] in *.
  - inversion Hrun; subst. rewrite Nat.add_0_r in HA. rewrite orb_false_r. repeat split; auto.
  - destruct (stop_loop stop1 root gp t (S i) r) as [[r' ev1] f1] eqn:E1.
    destruct (stop1 (gp ++ [i]) t c) as [[c' ev2] f2] eqn:E2.
    inversion Hrun; subst; clear Hrun. inversion Hspec as [|? ? Hc Hr]; subst.
    destruct Hsim as [Hsc Hsr]. rewrite <- Nat.add_succ_comm in *.
    destruct (IH (S i) A x r' ev1 f1 Hr Hsr HA E1) as (G1 & S1 & L1 & C1 & A1).
    destruct (stop_bracket _ _ _ _ t (after A ev1) _ _ _ Hc
                (SimN_frame _ _ _ _ _ _ _ G1 (or_introl (le_n _)) Hsc) E2) as (GB & SB & St & h & WB).
    split; [auto with loc|]. split; [|split; [|split]].
    + split; [apply -> SimN_after_app; exact SB|]. apply -> SimL_after_app. apply (SimL_frame _ _ _ _ _ _ _ GB); auto.
    + simpl. lia.
    + cbn [forallb]. unfold node_stopped at 1. rewrite St, C1; auto.
    + rewrite orb_first, after_app. unfold after at 1. rewrite A1, WB. destruct h, f2; aut.
Qed.

Lemma stop_graph_spec stop1 root gp gs gt ch A gs' gt' ch' ev f :
  Forall (stop_spec stop1) ch -> SimG A gp gs ch ->
  stop_graph_with stop1 root gp gs gt ch = (gs', gt', ch', ev, f) ->
  gloc gp 0 (length ch) ev /\ gs' = false /\ SimG (after A ev) gp false ch'.
Proof.
  intros Hspec (Hsim & Hq & Hok) Hrun. unfold stop_graph_with in Hrun. destruct gs.
  - destruct (stop_loop stop1 root gp gt 0 ch) as [[l' ev1] f1] eqn:E1.
    inversion Hrun; subst; clear Hrun. destruct Hok as [HA _].
    edestruct (stop_loop_spec stop1 root gp gt' (length ch) ch 0 (after A [Ev BPG gt' gp 0]) false ch' ev1 f Hspec)
      as (G1 & S1 & L1 & C1 & A1); auto.
    { apply (SimL_frame _ _ 0 0); auto with loc. }
    { unfold after. autorewrite with gw. rewrite HA. reflexivity. }
    edestruct (graph_bracket A gp [Ev BPG gt' gp 0] ev1 (opt_ev f (Ev PGF gt' gp 0) ++ [Ev APG gt' gp 0]) ch')
      as (G & Hs & Hq' & HA'); eauto with loc.
    refine (conj G (conj eq_refl (conj Hs (conj _ _)))); [rewrite L1; exact Hq'|].
    right; right. split; [|exact C1].
    simpl app in HA'. rewrite HA', A1. destruct f; simpl opt_ev; autorewrite with gw; reflexivity.
  - inversion Hrun; subst. rewrite after_nil. repeat split; auto using gloc_nil.
Qed.

Lemma stop_node_spec pl : forall n, stop_spec (stop_node pl) n.
Proof.
  induction n as [per st nx cs ce cp|st gs gt ch IH] using node_ind';
    intros gp i t A c' ev f Hsim Hrun; simpl in Hrun.
  - destruct st; inversion Hrun; subst; clear Hrun.
    + split; [apply nloc_hook; auto|]. split; [|reflexivity].
      apply (quiet_frame _ _ 0 0); auto with loc; lia.
    + rewrite after_nil. repeat split; auto using nloc_nil.
  - destruct st.
    + destruct Hsim as (Hst & Hg).
      destruct (stop_graph_with (fun q u c => stop_node pl q u c) false (gp ++ [i]) gs gt ch)
        as [[[[gs' gt'] ch'] ev'] f'] eqn:E.
      inversion Hrun; subst; clear Hrun.
      destruct (stop_graph_spec _ _ _ _ _ _ _ _ _ _ _ _ IH Hg E) as (G & -> & Sg).
      split; [eapply gloc_nloc; eauto|]. split; [split; auto|reflexivity].
    + inversion Hrun; subst. rewrite after_nil. split; [apply nloc_nil|]. split; [exact Hsim|reflexivity].
Qed.

Definition start_spec (start1 : path -> Z -> node -> nres) (c : node) : Prop :=
  forall gp i t A c' ev f,
    clean c = true -> quiet A (gp ++ [i]) ->
    start1 (gp ++ [i]) t c = (c', ev, f) ->
    nloc gp i HS ev /\ SimN (after A ev) (gp ++ [i]) c' /\
    node_started c' = negb (is_some f).

(* m is the node whose start failed; in the aborted case c is the node whose failing stop ended the
   rollback: the nodes from c on are stopped again, those below c stay started, hence the two clauses on
   the flags ([gstate_ok] wants "all stopped" of a graph that is done, "not all" of one that leaked) *)
Definition start_post (A' : path -> ast) (gp : path) (i n : nat) (l' : list node)
           (fr : option (failure * bool)) : Prop :=
  match fr with
  | None => A' gp = AStarting (i + n) /\ forallb node_started l' = true
  | Some (_, false) => (exists m, A' gp = ARoll m i) /\ forallb node_stopped l' = true
  | Some (_, true) => exists m c, i <= c /\ A' gp = ARollAborted m c /\
                      (c = i -> forallb node_stopped l' = true) /\
                      (i < c -> forallb node_stopped l' = false)
  end.

Lemma start_loop_spec start1 stop1 root gp t :
  (forall c, stop_spec stop1 c) ->
  forall l i A l' ev fr,
  Forall (start_spec start1) l ->
  forallb clean l = true -> (forall j, i <= j -> quiet A (gp ++ [j])) -> A gp = AStarting i ->
  start_loop start1 stop1 root gp t i l = (l', ev, fr) ->
  gloc gp i (i + length l) ev /\ length l' = length l /\ SimL (after A ev) gp i l' /\
  start_post (after A ev) gp i (length l) l' fr.
Proof.
  intros Hstop. induction l as [|c r IH]; intros i A l' ev fr Hspec Hcl Hq HA Hrun;
    cbn [start_loop length forallb] in *.
  - inversion Hrun; subst. rewrite after_nil. simpl. rewrite Nat.add_0_r. auto using gloc_nil.
  - apply andb_prop in Hcl as [Hclc Hclr]. inversion Hspec as [|? ? Hc Hr]; subst.
    destruct (start1 (gp ++ [i]) t c) as [[c1 ev1] f1] eqn:E1.
    destruct (Hc gp i t A c1 ev1 f1 Hclc (Hq i (le_n i)) E1) as (N1 & S1 & St1).
    (* the start of node i between its notifications, closed by "failed" or "after start" *)
    set (Bs := Ev BSN t (gp ++ [i]) 0 :: ev1 ++ [Ev (if f1 then SNF else ASN) t (gp ++ [i]) 0]).
    destruct (bracket A gp i HS [Ev BSN t (gp ++ [i]) 0] ev1 [Ev (if f1 then SNF else ASN) t (gp ++ [i]) 0] c1)
      as (G & Hs & h & W); auto with loc; [destruct f1; auto with loc|]. simpl app in G, Hs, W. fold Bs in G, Hs, W.
    assert (Hq' : forall j, i < j -> quiet (after A Bs) (gp ++ [j])).
    { intros j Hj. apply (quiet_frame _ _ _ _ _ _ G); [lia|apply Hq; lia]. }
    assert (HB : after A Bs gp = if f1 then ARoll i i else AStarting (S i)).
    { unfold after. rewrite W, HA. destruct h, f1; autorewrite with gw; aut. }
    destruct f1 as [f1|].
    + inversion Hrun; subst; clear Hrun.
      split; [auto with loc|]. split; [reflexivity|]. split; [split; [exact Hs|apply clean_SimL; auto]|].
      split; [exists i; exact HB|].
      cbn [forallb]. unfold node_stopped at 1. rewrite St1. apply clean_all_stopped; auto.
    + destruct (start_loop start1 stop1 root gp t (S i) r) as [[r' ev2] f2] eqn:E2.
      destruct (IH (S i) (after A Bs) r' ev2 f2 Hr Hclr Hq' HB E2) as (G2 & L2 & S2 & P2).
      assert (Hs2 : SimN (after (after A Bs) ev2) (gp ++ [i]) c1) by (apply (SimN_frame _ _ _ _ _ _ _ G2); auto).
      rewrite <- Nat.add_succ_comm.
      destruct f2 as [[f [|]]|].
      * (* the rollback was already cut short further on *)
        inversion Hrun; subst; clear Hrun. rewrite app_bracket. fold Bs.
        split; [auto with loc|]. split; [simpl; lia|].
        split; [apply -> SimL_after_app; split; auto|].
        destruct P2 as (m & c0 & Hc0 & HA3 & _ & _). exists m, c0. rewrite after_app.
        split; [lia|]. split; [exact HA3|]. split; [lia|].
        intros _. cbn [forallb]. unfold node_stopped at 1. rewrite St1. reflexivity.
      * (* roll this node back *)
        destruct (stop1 (gp ++ [i]) t c1) as [[c2 ev3] f3] eqn:E3.
        inversion Hrun; subst; clear Hrun. rewrite app_bracket. fold Bs.
        destruct P2 as [[m HA3] Hst3].
        destruct (stop_bracket _ _ _ _ t _ _ _ _ (Hstop c1) Hs2 E3) as (GB & SB & St5 & h5 & WB).
        split; [auto with loc|]. split; [simpl; lia|]. split.
        -- apply -> SimL_after_app. apply -> SimL_after_app.
           split; [exact SB|apply (SimL_frame _ _ _ _ _ _ _ GB); auto].
        -- assert (Hall : forallb node_stopped (c2 :: r') = true).
           { cbn [forallb]. unfold node_stopped at 1. rewrite St5, Hst3. reflexivity. }
           destruct f3; unfold start_post, is_some; [exists m, i; split; [lia|split; [|split; [intros _; exact Hall|intro; lia]]]|split; [exists m|exact Hall]];
             rewrite !after_app; unfold after at 1; rewrite HA3, WB; destruct h5; aut.
      * (* everything started *)
        inversion Hrun; subst; clear Hrun. rewrite app_bracket. fold Bs. destruct P2 as [HA3 Hst3].
        split; [auto with loc|]. split; [simpl; lia|].
        split; [apply -> SimL_after_app; split; auto|].
        split; [rewrite after_app, HA3; f_equal; lia|]. cbn [forallb]. rewrite St1, Hst3. reflexivity.
Qed.

Lemma start_graph_spec start1 stop1 root gp gt ch t A gs' gt' ch' ev f :
  (forall c, stop_spec stop1 c) -> Forall (start_spec start1) ch ->
  forallb clean ch = true -> quiet A gp ->
  start_graph_with start1 stop1 root gp false gt ch t = (gs', gt', ch', ev, f) ->
  gloc gp 0 (length ch) ev /\ gs' = negb (is_some f) /\ SimG (after A ev) gp gs' ch'.
Proof.
  intros Hstop Hspec Hcl Hq Hrun. unfold start_graph_with in Hrun.
  destruct (start_loop start1 stop1 root gp t 0 ch) as [[l' ev1] fr] eqn:E1.
  edestruct (start_loop_spec start1 stop1 root gp t Hstop ch 0 (after A [Ev BSG gt gp 0]) l' ev1 fr Hspec Hcl)
    as (G1 & L1 & S1 & P1); [| |exact E1|].
  { intros j _. apply (quiet_frame _ _ 0 0); [auto with loc|lia|apply quiet_sub; auto]. }
  { unfold after. autorewrite with gw. rewrite <- (app_nil_r gp), Hq. reflexivity. }
  remember (if fr then SGF else ASG) as k eqn:Ek.
  assert (Hk : is_graph_kind k = true) by (subst k; destruct fr; reflexivity).
  edestruct (graph_bracket A gp [Ev BSG gt gp 0] ev1 [Ev k t gp 0] l' (length ch)) as (G & Hs & Hq' & HA);
    eauto with loc; [intros; apply quiet_sub; auto|].
  simpl app in G, Hs, Hq', HA. rewrite <- L1 in Hq'. rewrite gw_graph_self in HA by exact Hk.
  destruct fr as [[f0 ab]|]; simpl in Ek; subst k; inversion Hrun; subst; clear Hrun.
  - refine (conj G (conj eq_refl (conj Hs (conj Hq' _)))). unfold gstate_ok. rewrite HA. destruct ab.
    + destruct P1 as (m & c & _ & -> & Hz & Hnz). destruct c as [|c]; [right; right|left]; split; auto. apply Hnz. lia.
    + destruct P1 as [[m ->] Hall]. right; right. split; auto.
  - refine (conj G (conj eq_refl (conj Hs (conj Hq' _)))). unfold gstate_ok. rewrite HA.
    destruct P1 as [-> Hall]. simpl. rewrite L1. auto.
Qed.

Lemma start_node_spec pl : forall n, start_spec (start_node pl) n.
Proof.
  induction n as [per st nx cs ce cp|st gs gt ch IH] using node_ind';
    intros gp i t A c' ev f Hcl Hq Hrun; simpl in Hrun.
  - simpl in Hcl. destruct st; [discriminate|].
    destruct (pl (gp ++ [i]) PStart cs); inversion Hrun; subst; clear Hrun;
      (split; [apply nloc_hook; auto|]); (split; [|reflexivity]);
      apply (quiet_frame _ _ 0 0); auto with loc; lia.
  - apply clean_Nest_inv in Hcl as (-> & -> & Hcl).
    destruct (start_graph_with (fun q u c => start_node pl q u c) (stop_node pl) false (gp ++ [i]) false gt ch t)
      as [[[[gs' gt'] ch'] ev'] f'] eqn:E.
    inversion Hrun; subst; clear Hrun.
    destruct (start_graph_spec _ _ _ _ _ _ _ _ _ _ _ _ _ (stop_node_spec pl) IH Hcl Hq E) as (G & Hgs & Sg).
    split; [eapply gloc_nloc; eauto|]. split; [split; auto|]. reflexivity.
Qed.

(* [reports] stands here and not in the first pass: without the invariant an evaluation can throw
   "graph must be started" with no hook fired (a started node has its graph started) *)
Definition eval_spec pl (eval1 : path -> Z -> node -> nres) (c : node) : Prop :=
  forall gp i t A c' ev f,
    SimN A (gp ++ [i]) c -> node_started c = true ->
    eval1 (gp ++ [i]) t c = (c', ev, f) ->
    nloc gp i HE ev /\ SimN (after A ev) (gp ++ [i]) c' /\ node_started c' = true /\
    reports PEval (gp ++ [i]) f (fired pl ev).

Lemma eval_loop_spec pl eval1 due1 root gp t m : forall l i A pos l' ev f,
  Forall (eval_spec pl eval1) l ->
  SimL A gp i l -> forallb node_started l = true ->
  A gp = ACycle m pos -> pos <= i -> i + length l <= m ->
  eval_loop eval1 due1 root gp t i l = (l', ev, f) ->
  gloc gp i (i + length l) ev /\ length l' = length l /\ SimL (after A ev) gp i l' /\
  forallb node_started l' = true /\ (exists pos', after A ev gp = ACycle m pos') /\
  reports PEval gp f (fired pl ev) /\ noted root gp PEval f.
Proof.
  induction l as [|c r IH]; intros i A pos l' ev f Hspec Hsim Hst HA Hpos Hm Hrun;
    cbn [eval_loop length forallb] in *.
  - inversion Hrun; subst. rewrite after_nil. repeat split; eauto using noted_none.
  - inversion Hspec as [|? ? Hc Hr]; subst. destruct Hsim as [Hsc Hsr].
    apply andb_prop in Hst as [Hstc Hstr]. rewrite <- Nat.add_succ_comm in *.
    destruct (due1 t c).
    + destruct (eval1 (gp ++ [i]) t c) as [[c1 ev1] f1] eqn:E1.
      destruct (Hc gp i t A c1 ev1 f1 Hsc Hstc E1) as (N1 & S1 & St1 & F1).
      edestruct (bracket A gp i HE [Ev BEN t (gp ++ [i]) 0] ev1 [Ev AEN t (gp ++ [i]) 0] c1)
        as (G & Hs & h & W); auto with loc. simpl app in G, Hs, W.
      set (Be := Ev BEN t (gp ++ [i]) 0 :: ev1 ++ [Ev AEN t (gp ++ [i]) 0]) in *.
      assert (HB : after A Be gp = ACycle m (S i)).
      { unfold after. rewrite W, HA. autorewrite with gw. simpl.
        replace (pos <=? i) with true by (symmetry; apply Nat.leb_le; auto).
        replace (i <? m) with true by (symmetry; apply Nat.ltb_lt; lia). destruct h; aut. }
      assert (Sr : SimL (after A Be) gp (S i) r) by (apply (SimL_frame _ _ _ _ _ _ _ G); auto).
      assert (FB : fired pl Be = fired pl ev1) by (unfold Be; autorewrite with fired; reflexivity).
      destruct f1 as [f1|].
      * inversion Hrun; subst; clear Hrun. split; [auto with loc|]. split; [reflexivity|].
        split; [split; auto|]. cbn [forallb]. rewrite St1, Hstr. split; [reflexivity|].
        split; [exists (S i); exact HB|]. fold Be. rewrite FB. exact (reports_node _ _ _ root _ _ F1).
      * destruct (eval_loop eval1 due1 root gp t (S i) r) as [[r' ev2] f2] eqn:E2.
        inversion Hrun; subst; clear Hrun. rewrite app_bracket. fold Be.
        destruct (IH (S i) (after A Be) (S i) r' ev2 f Hr Sr Hstr HB (le_n _) Hm E2)
          as (G3 & L3 & S3 & St3 & [pos' HA3] & F3).
        split; [auto with loc|]. split; [simpl; lia|]. split.
        -- apply -> SimL_after_app. split; [apply (SimN_frame _ _ _ _ _ _ _ G3); auto|exact S3].
        -- cbn [forallb]. rewrite St1, St3. split; [reflexivity|].
           split; [exists pos'; rewrite after_app; auto|].
           rewrite fired_app, FB, (reports_none _ _ _ F1). exact F3.
    + destruct (eval_loop eval1 due1 root gp t (S i) r) as [[r' ev2] f2] eqn:E2.
      inversion Hrun; subst; clear Hrun.
      destruct (IH (S i) A pos r' ev f Hr Hsr Hstr HA (Nat.le_le_succ_r _ _ Hpos) Hm E2)
        as (G3 & L3 & S3 & St3 & P3 & F3).
      split; [auto with loc|]. split; [simpl; lia|].
      split; [split; [apply (SimN_frame _ _ _ _ _ _ _ G3); auto|exact S3]|].
      cbn [forallb]. rewrite Hstc, St3. auto.
Qed.

Lemma eval_graph_spec pl eval1 due1 root gp gt ch t A gs' gt' ch' ev f :
  Forall (eval_spec pl eval1) ch -> SimG A gp true ch ->
  eval_graph_with eval1 due1 root gp true gt ch t = (gs', gt', ch', ev, f) ->
  gloc gp 0 (length ch) ev /\ gs' = true /\ SimG (after A ev) gp true ch' /\
  reports PEval gp f (fired pl ev) /\ noted root gp PEval f.
Proof.
  intros Hspec (Hsim & Hq & HA & Hst) Hrun. unfold eval_graph_with in Hrun.
  destruct (eval_loop eval1 due1 root gp t 0 ch) as [[l' ev1] f1] eqn:E1.
  inversion Hrun; subst; clear Hrun.
  edestruct (eval_loop_spec pl eval1 due1 root gp gt' (length ch) ch 0 (after A [Ev BGE gt' gp 0]) 0 ch' ev1 f Hspec)
    as (G1 & L1 & S1 & St1 & [pos' HA1] & F1); [| exact Hst | | | |exact E1|]; auto.
  { apply (SimL_frame _ _ 0 0); auto with loc. }
  { unfold after. autorewrite with gw. rewrite HA. reflexivity. }
  edestruct (graph_bracket A gp [Ev BGE gt' gp 0] ev1 [Ev AGE gt' gp 0] ch') as (G & Hs & Hq' & HA'); eauto with loc.
  refine (conj G (conj eq_refl (conj (conj Hs (conj _ _)) _))); [rewrite L1; exact Hq'| |].
  - unfold gstate_ok. simpl app in HA'. rewrite HA', HA1, L1. autorewrite with gw. auto.
  - autorewrite with fired. exact F1.
Qed.

Lemma eval_node_spec pl : forall n, eval_spec pl (eval_node pl) n.
Proof.
  induction n as [per st nx cs ce cp|st gs gt ch IH] using node_ind';
    intros gp i t A c' ev f Hsim Hst Hrun; simpl in Hrun, Hst; subst st.
  - destruct (pl (gp ++ [i]) PEval ce) eqn:Ep; inversion Hrun; subst; clear Hrun;
      (split; [apply nloc_hook; auto|]); (split; [apply (quiet_frame _ _ 0 0); auto with loc; lia|]);
      (split; [reflexivity|]); rewrite (fired_hook pl HE t _ ce PEval eq_refl), Ep; simpl; auto using prefix_refl.
  - destruct Hsim as (<- & Hg).
    destruct (eval_graph_with (fun q u c => eval_node pl q u c) due false (gp ++ [i]) true gt ch t)
      as [[[[gs' gt'] ch'] ev'] f'] eqn:E.
    inversion Hrun; subst; clear Hrun.
    destruct (eval_graph_spec _ _ _ _ _ _ _ _ _ _ _ _ _ _ IH Hg E) as (G & -> & Sg & F & _).
    split; [eapply gloc_nloc; eauto|]. split; [split; auto|]. split; [reflexivity|exact F].
Qed.

Definition SimW (A : path -> ast) (w : world) : Prop := SimG A [] (w_gs w) (w_nodes w).

Definition A0 : path -> ast := fun _ => AFresh.

Definition Aof (L : list event) : path -> ast := after A0 L.

Lemma Aof_eq L gq : Aof L gq = arun AFresh (graph_word gq L).
Proof. reflexivity. Qed.

Definition no_leak (L : list event) : Prop := forall gl, ast_leaked (Aof L gl) = false.

Definition wloc (ev : list event) : Prop := forallb well_addressed ev = true.

Lemma gloc_wloc gp lo hi ev : gloc gp lo hi ev -> wloc ev.
Proof. intros [H _]. exact H. Qed.

Lemma wloc_app a b : wloc a -> wloc b -> wloc (a ++ b).
Proof. unfold wloc. intros Ha Hb. rewrite forallb_app, Ha, Hb. reflexivity. Qed.

Lemma SimW_after_app A a b w : SimW (after (after A a) b) w -> SimW (after A (a ++ b)) w.
Proof. apply SimG_ext. intro r. rewrite after_app. reflexivity. Qed.

Lemma stop_world_spec pl A w w' ev f :
  SimW A w -> stop_world pl w = (w', ev, f) ->
  wloc ev /\ SimW (after A ev) w' /\ w_gs w' = false.
Proof.
  intros Hs Hrun. unfold stop_world in Hrun.
  destruct (stop_graph_with (stop_node pl) true [] (w_gs w) (w_gt w) (w_nodes w)) as [[[[gs gt] ch] ev'] f'] eqn:E.
  inversion Hrun; subst; clear Hrun.
  destruct (stop_graph_spec _ _ _ _ _ _ _ _ _ _ _ _ (Forall_all _ _ (stop_node_spec pl)) Hs E)
    as (G & -> & Sg).
  split; [eapply gloc_wloc; eauto|]. split; [exact Sg|reflexivity].
Qed.

Lemma cycles_spec pl sp e : forall fuel lo A w w' ev f,
  SimW A w -> w_gs w = true -> cycles pl sp e fuel lo w = (w', ev, f) ->
  wloc ev /\ SimW (after A ev) w' /\ reports PEval [] f (fired pl ev) /\ noted true [] PEval f.
Proof.
  assert (Hidle : forall A w, SimW A w ->
            wloc [] /\ SimW (after A []) w /\ reports PEval [] None (fired pl []) /\ noted true [] PEval None).
  { intros A w Hsim. exact (conj eq_refl (conj Hsim (conj I (noted_none _ _ _)))). }
  induction fuel as [|fuel IH]; intros lo A w w' ev f Hsim Hgs Hrun; simpl in Hrun.
  - inversion Hrun; subst. auto.
  - destruct (min_next_list lo (w_nodes w)) as [nx|]; [|inversion Hrun; subst; auto].
    destruct (e <=? nx)%Z; [inversion Hrun; subst; auto|].
    destruct (eval_graph_with (eval_node pl) due true [] (w_gs w) (w_gt w) (w_nodes w) nx)
      as [[[[gs gt] ch] ev1] f1] eqn:E.
    unfold SimW in Hsim. rewrite Hgs in *.
    destruct (eval_graph_spec _ _ _ _ _ _ _ _ _ _ _ _ _ _ (Forall_all _ _ (eval_node_spec pl)) Hsim E)
      as (G & -> & Sg & F1).
    assert (Hw : wloc ev1) by (eapply gloc_wloc; eauto).
    destruct f1 as [x|]; [inversion Hrun; subst; auto|].
    destruct (stop_requested sp ev1); [inversion Hrun; subst; auto|].
    destruct (cycles pl sp e fuel (nx + 1)%Z (W true gt ch)) as [[w2 ev2] f2] eqn:E2.
    inversion Hrun; subst; clear Hrun.
    destruct (IH _ _ (W true gt ch) _ _ _ Sg eq_refl E2) as (Wl & S2 & F2).
    split; [apply wloc_app; auto|]. split; [apply SimW_after_app; exact S2|].
    rewrite fired_app, (reports_none _ _ _ (proj1 F1)). exact F2.
Qed.

Definition fresh_world (w : world) : Prop := w_gs w = false /\ forallb clean (w_nodes w) = true.

Lemma SimW_init w : fresh_world w -> SimW A0 w.
Proof.
  intros [Hgs Hcl]. assert (Q : forall p, quiet A0 p) by (intros p r; reflexivity). split; [|split]; auto.
  - apply clean_SimL; auto.
  - rewrite Hgs. right; left. auto.
Qed.

(* third conjunct: [run] leaves the root graph started in one case only, an evaluation error with
   clean-up on error off (there is no stop_graph guard then); the stop is left to [release] *)
Lemma run_spec pl sp cfg w w1 ev f :
  fresh_world w -> run pl sp cfg w = (w1, ev, f) ->
  wloc ev /\ SimW (Aof ev) w1 /\
  (w_gs w1 = true -> c_cleanup cfg = false /\ exists fl i, f = Some fl /\ f_note fl = Some (i, PEval)) /\
  ((c_start cfg < c_end cfg)%Z -> outcome pl ev f).
Proof.
  intros Hf Hrun. unfold run in Hrun. pose proof Hf as [Hgs Hcl].
  destruct (Z.leb_spec (c_end cfg) (c_start cfg)).
  { inversion Hrun; subst. split; [reflexivity|]. split; [apply SimW_init; exact Hf|]. split; [congruence|lia]. }
  rewrite Hgs in Hrun.
  destruct (start_graph_with (start_node pl) (stop_node pl) true [] false (w_gt w) (w_nodes w) (c_start cfg))
    as [[[[gs gt] ch] ev0] f0] eqn:E0.
  destruct (start_graph_spec _ _ _ _ _ _ _ A0 _ _ _ _ _ (stop_node_spec pl) (Forall_all _ _ (start_node_spec pl))
              Hcl (fun r => eq_refl) E0) as (G0 & Hgs0 & S0).
  apply gloc_wloc in G0.
  pose proof (start_world_FE _ _ _ _ _ _ _ _ _ _ E0) as O0.
  destruct f0 as [f0|]; simpl in Hgs0; subst gs.
  - inversion Hrun; subst; clear Hrun. split; auto. split; auto. split; [discriminate|auto].
  - destruct (cycles pl sp (c_end cfg) (c_fuel cfg) (c_start cfg) (W true gt ch)) as [[w1' ev1] f1] eqn:E1.
    destruct (cycles_spec _ _ _ _ _ _ (W true gt ch) _ _ _ S0 eq_refl E1) as (Wl1 & S1 & F1 & N1).
    pose proof (mk_outcome _ _ _ _ F1 N1) as O1.
    apply SimW_after_app in S1. assert (Wl01 : wloc (ev0 ++ ev1)) by (apply wloc_app; auto).
    (* the stop of the world after the cycles (in one of the three cases below it does not happen) *)
    destruct (stop_world pl w1') as [[w2 ev2] f2] eqn:E2.
    destruct (stop_world_spec _ _ _ _ _ _ S1 E2) as (Wl2 & S2 & G2). apply SimW_after_app in S2.
    assert (Wl : wloc ((ev0 ++ ev1) ++ ev2)) by (apply wloc_app; auto). rewrite <- app_assoc in S2, Wl.
    destruct f1 as [f1|]; [destruct (c_cleanup cfg) eqn:Ecl|].
    + inversion Hrun; subst; clear Hrun. split; auto. split; auto. split; [congruence|].
      intros _. apply outcome_app; [exact O0|]. apply reported_app. exact O1.
    + inversion Hrun; subst; clear Hrun. split; auto. split; auto. split.
      * intros _. split; auto. destruct (N1 eq_refl f1 eq_refl) as (i & Hi & _). eauto.
      * intros _. apply outcome_app; [exact O0|exact O1].
    + inversion Hrun; subst; clear Hrun. split; auto. split; auto. split; [congruence|].
      intros _. apply outcome_app; [exact O0|]. apply outcome_app; [exact O1|]. eapply stop_world_FE; eauto.
Qed.

Definition dispose_spec (dispose1 : path -> node -> node * list event) (c : node) : Prop :=
  forall gp i A c' ev,
    SimN A (gp ++ [i]) c -> dispose1 (gp ++ [i]) c = (c', ev) ->
    wloc ev /\ (forall gq, ~ prefix (gp ++ [i]) gq -> graph_word gq ev = []) /\
    NoBad (after A ev) (gp ++ [i]) /\
    ((forall gl, ast_leaked (A gl) = false) -> node_started c = false ->
     ev = [] /\ forall r, ast_final (A ((gp ++ [i]) ++ r)) = true).

Lemma dispose_loop_spec dispose1 gp : forall l i A l' ev,
  Forall (dispose_spec dispose1) l -> SimL A gp i l ->
  dispose_loop dispose1 gp i l = (l', ev) ->
  wloc ev /\
  (forall gq, (forall j, i <= j < i + length l -> ~ prefix (gp ++ [j]) gq) -> graph_word gq ev = []) /\
  (forall j, i <= j < i + length l -> NoBad (after A ev) (gp ++ [j])) /\
  ((forall gl, ast_leaked (A gl) = false) -> forallb node_stopped l = true ->
   ev = [] /\ forall j r, i <= j < i + length l -> ast_final (A ((gp ++ [j]) ++ r)) = true).
Proof.
  induction l as [|c r IH]; intros i A l' ev Hspec Hsim Hrun; cbn [dispose_loop length forallb] in *.
  - inversion Hrun; subst. split; [reflexivity|]. split; [auto|]. split; [intros; lia|]. split; auto. intros; lia.
  - inversion Hspec as [|? ? Hc Hr]; subst. destruct Hsim as [Hsc Hsr].
    destruct (dispose_loop dispose1 gp (S i) r) as [r' ev1] eqn:E1.
    destruct (dispose1 (gp ++ [i]) c) as [c' ev2] eqn:E2.
    inversion Hrun; subst; clear Hrun.
    destruct (IH (S i) A r' ev1 Hr Hsr E1) as (W1 & F1 & B1 & C1).
    assert (Hsc1 : SimN (after A ev1) (gp ++ [i]) c).
    { revert Hsc. apply SimN_ext. intro s. symmetry. apply after_same, F1. intros j Hj. apply other_region. lia. }
    destruct (Hc gp i (after A ev1) c' ev2 Hsc1 E2) as (W2 & F2 & B2 & C2).
    split; [apply wloc_app; auto|]. split; [|split].
    + intros gq Hgq. rewrite graph_word_app, F1, F2; auto; [apply Hgq; lia|intros j Hj; apply Hgq; lia].
    + intros j Hj s. rewrite after_app. destruct (Nat.eq_dec j i) as [->|Hne]; [apply B2|].
      rewrite after_same; [apply B1; lia|]. apply F2, other_region. auto.
    + intros Hnl Hst. apply andb_prop in Hst as [Hstc Hstr]. destruct (C1 Hnl Hstr) as [-> Hf1].
      apply negb_true_iff in Hstc. destruct (C2 Hnl Hstc) as [-> Hf2]. split; auto.
      intros j s Hj. destruct (Nat.eq_dec j i) as [->|Hne]; [apply Hf2|apply Hf1; lia].
Qed.

Lemma gstate_rest_final A gp ch :
  gstate_ok A gp false ch -> (forall gl, ast_leaked (A gl) = false) ->
  ast_final (A gp) = true /\ forallb node_stopped ch = true.
Proof.
  intros [[H _]|[[H Hc]|[H Hs]]] Hnl.
  - rewrite Hnl in H. discriminate.
  - specialize (H []). rewrite app_nil_r in H. rewrite H. split; auto. apply clean_all_stopped; auto.
  - split; auto. destruct (A gp); simpl in *; congruence.
Qed.

Lemma dispose_graph_spec dispose1 gp ch A ch' ev :
  Forall (dispose_spec dispose1) ch -> SimG A gp false ch ->
  dispose_loop dispose1 gp 0 ch = (ch', ev) ->
  wloc ev /\ (forall gq, ~ prefix gp gq -> graph_word gq ev = []) /\ NoBad (after A ev) gp /\
  ((forall gl, ast_leaked (A gl) = false) -> ev = [] /\ forall r, ast_final (A (gp ++ r)) = true).
Proof.
  intros Hspec (Hsim & Hq & Hok) E. destruct (dispose_loop_spec _ _ _ _ _ _ _ Hspec Hsim E) as (W1 & F1 & B1 & C1).
  split; [exact W1|]. split; [|split].
  - intros gq Hgq. apply F1. intros j _ Hp. apply Hgq. eapply prefix_trans; [apply prefix_app|exact Hp].
  - refine (below_ind (fun q => ast_bad (after A ev q) = false) gp (length ch) _ _ _).
    + rewrite after_same; [|apply F1; intros j _; apply not_prefix_child].
      rewrite <- (app_nil_r gp). apply (SimN_NoBad (Nest false false 0%Z ch) A gp). split; [|split]; auto.
    + intros j s Hj. apply B1. lia.
    + intros j s Hj. rewrite after_same; [rewrite (Hq j Hj); reflexivity|]. apply F1. intros k Hk. apply other_region. lia.
  - intros Hnl. destruct (gstate_rest_final _ _ _ Hok Hnl) as [Hf Hs]. destruct (C1 Hnl Hs) as [-> Hfin].
    split; auto. refine (below_ind (fun q => ast_final (A q) = true) gp (length ch) _ _ _).
    + exact Hf.
    + intros j s Hj. apply Hfin. lia.
    + intros j s Hj. rewrite (Hq j Hj). reflexivity.
Qed.

Lemma dispose_node_spec pl : forall n, dispose_spec (dispose_node pl) n.
Proof.
  induction n as [per st nx cs ce cp|st gs gt ch IH] using node_ind';
    intros gp i A c' ev Hsim Hrun; simpl in Hrun.
  - inversion Hrun; subst. split; [reflexivity|]. split; [auto|]. split; [intro r; rewrite after_nil, Hsim; auto|].
    intros _ _. split; auto. intro r. rewrite (Hsim r). reflexivity.
  - destruct Hsim as (<- & Hg). destruct st.
    + destruct (stop_graph_with (stop_node pl) false (gp ++ [i]) true gt ch) as [[[[gs' gt'] ch'] ev'] f'] eqn:E.
      inversion Hrun; subst; clear Hrun.
      destruct (stop_graph_spec _ _ _ _ _ _ _ _ _ _ _ _ (Forall_all _ _ (stop_node_spec pl)) Hg E)
        as (G & -> & Sg).
      split; [eapply gloc_wloc; eauto|]. split; [intros gq Hgq; eapply gloc_outside; eauto|]. split.
      * apply (SimN_NoBad (Nest false false gt ch')). split; auto.
      * intros _ H. discriminate H.
    + destruct (dispose_loop (fun q c => dispose_node pl q c) (gp ++ [i]) 0 ch) as [ch' ev'] eqn:E.
      inversion Hrun; subst; clear Hrun.
      destruct (dispose_graph_spec _ _ _ _ _ _ IH Hg E) as (W1 & F1 & B1 & C1). auto.
Qed.

Lemma arun_bad w : arun ABad w = ABad.
Proof. induction w; simpl; auto. Qed.

Lemma over_sticky a w : ast_done a || ast_leaked a = true -> ast_bad (arun a w) = false -> w = [].
Proof.
  destruct w as [|s w]; auto. simpl. intros Ha H. exfalso.
  destruct a; try discriminate Ha; destruct s; simpl in H; rewrite arun_bad in H; discriminate.
Qed.

(* a leaked graph accepts nothing more: a leak part of the way through a log is still there at its end *)
Lemma no_leak_prefix A ev1 ev2 :
  (forall gq, ast_bad (after A (ev1 ++ ev2) gq) = false) ->
  (forall gl, ast_leaked (after A (ev1 ++ ev2) gl) = false) -> forall gl, ast_leaked (after A ev1 gl) = false.
Proof.
  intros Hb Hn gl. specialize (Hb gl). specialize (Hn gl). rewrite after_app in Hb, Hn.
  unfold after at 1 in Hb. unfold after at 1 in Hn.
  destruct (after A ev1 gl); auto. apply over_sticky in Hb; [|reflexivity]. rewrite Hb in Hn. exact Hn.
Qed.

Lemma release_spec pl A w w' ev :
  SimW A w -> release pl w = (w', ev) ->
  wloc ev /\ (forall gq, ast_bad (after A ev gq) = false) /\
  ((forall gl, ast_leaked (after A ev gl) = false) -> forall gq, ast_final (after A ev gq) = true) /\
  (w_gs w = false -> (forall gl, ast_leaked (A gl) = false) -> ev = [] /\ forall gq, ast_final (A gq) = true).
Proof.
  intros Hsim Hrun. unfold release in Hrun.
  destruct (stop_world pl w) as [[w1 ev1] f1] eqn:E1.
  destruct (dispose_loop (dispose_node pl) [] 0 (w_nodes w1)) as [ch ev2] eqn:E2.
  inversion Hrun; subst; clear Hrun.
  destruct (stop_world_spec _ _ _ _ _ _ Hsim E1) as (W1 & S1 & G1). unfold SimW in S1. rewrite G1 in S1.
  destruct (dispose_graph_spec _ _ _ _ _ _ (Forall_all _ _ (dispose_node_spec pl)) S1 E2) as (W2 & _ & B2 & C2).
  assert (Hnb : forall gq, ast_bad (after A (ev1 ++ ev2) gq) = false) by (intro gq; rewrite after_app; apply B2).
  split; [apply wloc_app; auto|]. split; [exact Hnb|]. split.
  - intros Hnl. destruct (C2 (no_leak_prefix _ _ _ Hnb Hnl)) as [-> Hf]. rewrite app_nil_r. exact Hf.
  - intros Hgs Hnl.
    assert (Hev1 : ev1 = [] /\ w1 = w).
    { unfold stop_world in E1. unfold stop_graph_with in E1. rewrite Hgs in E1. inversion E1; subst.
      destruct w; simpl in *; subst; auto. }
    destruct Hev1 as [-> ->]. apply (C2 Hnl).
Qed.

(* the fourth conjunct excludes exactly the case of [run_spec]'s third: otherwise the release finds
   everything stopped and adds nothing to the log *)
Theorem life_facts pl sp cfg w ev1 f w1 ev2 w2 :
  fresh_world w ->
  life pl sp cfg w = (ev1, f, w1, ev2, w2) ->
  wloc (ev1 ++ ev2) /\
  (forall gq, ast_bad (Aof (ev1 ++ ev2) gq) = false) /\
  (no_leak (ev1 ++ ev2) -> forall gq, ast_final (Aof (ev1 ++ ev2) gq) = true) /\
  ((c_cleanup cfg = true \/ (forall fl i, f = Some fl -> f_note fl <> Some (i, PEval))) ->
   no_leak ev1 -> ev2 = [] /\ forall gq, ast_final (Aof ev1 gq) = true).
Proof.
  intros Hf Hlife. unfold life in Hlife.
  destruct (run pl sp cfg w) as [[w1' ev1'] f'] eqn:E1.
  destruct (release pl w1') as [w2' ev2'] eqn:E2.
  inversion Hlife; subst; clear Hlife.
  destruct (run_spec _ _ _ _ _ _ _ Hf E1) as (W1 & S1 & T1 & _).
  destruct (release_spec _ _ _ _ _ S1 E2) as (W2 & B2 & C2 & R2).
  split; [apply wloc_app; auto|]. split; [|split].
  - intro gq. unfold Aof. rewrite after_app. apply B2.
  - intros Hnl gq. unfold Aof. rewrite after_app. apply C2. intro gl. specialize (Hnl gl).
    unfold Aof in Hnl. rewrite after_app in Hnl. exact Hnl.
  - intros Hc Hnl. apply R2; auto.
    destruct (w_gs w1) eqn:Eg; auto. destruct (T1 eq_refl) as (Hcu & fl & i & -> & Hn).
    destruct Hc as [Hc|Hc]; [congruence|]. exfalso. eapply Hc; eauto.
Qed.

(* equality of kinds through their wire codes: it computes on closed kinds, which is all [sel] and
   [gsel] need *)
Definition ekind_eqb (a b : ekind) : bool := (kind_code a =? kind_code b)%Z.

Lemma ekind_eqb_refl k : ekind_eqb k k = true.
Proof. unfold ekind_eqb. apply Z.eqb_refl. Qed.

Definition sel (k : ekind) (s : sym) : list nat :=
  match s with SN k' i => if ekind_eqb k' k then [i] else [] | SG _ => [] end.
Definition idxs (k : ekind) (w : list sym) : list nat := flat_map (sel k) w.

Lemma idxs_app k a b : idxs k (a ++ b) = idxs k a ++ idxs k b.
Proof. unfold idxs. apply flat_map_app. Qed.

Lemma arun_snoc a w s : arun a (w ++ [s]) = astep (arun a w) s.
Proof. rewrite arun_app. reflexivity. Qed.

(* the moves of the automaton, one constructor per line of [astep] *)
Inductive tr : ast -> sym -> ast -> Prop :=
| t_bsg : tr AFresh (SG BSG) (AStarting 0)
| t_bsn m : tr (AStarting m) (SN BSN m) (AInStart m false)
| t_asg m : tr (AStarting m) (SG ASG) (AStarted m)
| t_hs m : tr (AInStart m false) (SN HS m) (AInStart m true)
| t_asn m h : tr (AInStart m h) (SN ASN m) (AStarting (S m))
| t_snf m h : tr (AInStart m h) (SN SNF m) (ARoll m m)
| t_rbpn m c : tr (ARoll m (S c)) (SN BPN c) (ARollIn m (S c) false false)
| t_rsgf m : tr (ARoll m 0) (SG SGF) (ADone m)
| t_rhp m c : tr (ARollIn m (S c) false false) (SN HP c) (ARollIn m (S c) true false)
| t_rpnf m c h : tr (ARollIn m (S c) h false) (SN PNF c) (ARollIn m (S c) h true)
| t_rapn m c h : tr (ARollIn m (S c) h false) (SN APN c) (ARoll m c)
| t_rapnx m c h : tr (ARollIn m (S c) h true) (SN APN c) (ARollAborted m c)
| t_asgf m : tr (ARollAborted m 0) (SG SGF) (ADone m)
| t_lsgf m c : tr (ARollAborted m (S c)) (SG SGF) (ALeaked m (S c))
| t_bge m : tr (AStarted m) (SG BGE) (ACycle m 0)
| t_bpg m : tr (AStarted m) (SG BPG) (AStopping m m false)
| t_ben m pos i : pos <= i < m -> tr (ACycle m pos) (SN BEN i) (AInEval m i false)
| t_age m pos : tr (ACycle m pos) (SG AGE) (AStarted m)
| t_he m i : tr (AInEval m i false) (SN HE i) (AInEval m i true)
| t_aen m i h : tr (AInEval m i h) (SN AEN i) (ACycle m (S i))
| t_pbpn m c x : tr (AStopping m (S c) x) (SN BPN c) (AStopIn m (S c) false false x)
| t_apg m : tr (AStopping m 0 false) (SG APG) (ADone m)
| t_pgf m : tr (AStopping m 0 true) (SG PGF) (AStopFailed m)
| t_fapg m : tr (AStopFailed m) (SG APG) (ADone m)
| t_php m c x : tr (AStopIn m (S c) false false x) (SN HP c) (AStopIn m (S c) true false x)
| t_ppnf m c h x : tr (AStopIn m (S c) h false x) (SN PNF c) (AStopIn m (S c) h true true)
| t_papn m c h x1 x : tr (AStopIn m (S c) h x1 x) (SN APN c) (AStopping m c x).

Lemma astep_tr a s : ast_bad (astep a s) = false -> tr a s (astep a s).
Proof.
  destruct a; destruct s as [k|k j]; destruct k; try discriminate; simpl;
    repeat match goal with
      | |- context[match ?x with _ => _ end] =>
          first [is_var x; destruct x | match x with Nat.eqb ?i ?j => destruct (Nat.eqb_spec i j); subst end
                | destruct x eqn:?]; simpl; try discriminate
      end; intros _; constructor.
  apply andb_prop in Heqb as [H1 H2]. apply Nat.leb_le in H1. apply Nat.ltb_lt in H2. auto.
Qed.

Lemma step_not_bad a s w : ast_bad (arun (astep a s) w) = false -> ast_bad (astep a s) = false.
Proof. destruct (astep a s); auto. rewrite arun_bad. auto. Qed.

(* [run_inv], [run_pres]: induction over a word read by the automaton ([arun], not the executor's [run]) *)
Lemma run_inv (I : ast -> list sym -> Prop) :
  I AFresh [] -> (forall a s a' w, tr a s a' -> I a w -> I a' (w ++ [s])) ->
  forall w, ast_bad (arun AFresh w) = false -> I (arun AFresh w) w.
Proof.
  intros H0 Hs. induction w as [|s w IH] using rev_ind; intro H; [exact H0|].
  rewrite arun_snoc in H |- *. apply (Hs (arun AFresh w)); [apply astep_tr; exact H|]. apply IH. destruct (arun AFresh w); auto.
Qed.

Lemma run_pres (P : ast -> Prop) (Q : sym -> Prop) :
  (forall a s a', tr a s a' -> Q s -> P a -> P a') ->
  forall w a, (forall s, In s w -> Q s) -> P a -> ast_bad (arun a w) = false -> P (arun a w).
Proof.
  intros Hs. induction w as [|s w IH]; simpl; intros a HQ Ha Hb; auto.
  apply IH; auto. apply (Hs a s); auto. apply astep_tr. eapply step_not_bad; eauto.
Qed.

Definition m_of (a : ast) : nat :=
  match a with
  | AFresh | ABad => 0
  | AStarting m | AInStart m _ | ARoll m _ | ARollIn m _ _ _ | ARollAborted m _ | AStarted m
  | ACycle m _ | AInEval m _ _ | AStopping m _ _ | AStopIn m _ _ _ _ | AStopFailed m | ADone m | ALeaked m _ => m
  end.

(* nodes c_of a .. m-1 have had their stop attempt *)
Definition c_of (a : ast) : nat :=
  match a with
  | AFresh | ABad => 0
  | AStarting m | AInStart m _ | AStarted m | ACycle m _ | AInEval m _ _ => m
  | ARoll _ c | ARollAborted _ c | AStopping _ c _ | ALeaked _ c => c
  | ARollIn _ c _ _ | AStopIn _ c _ _ _ => pred c
  | AStopFailed _ | ADone _ => 0
  end.

Definition AI (a : ast) (w : list sym) : Prop :=
  idxs ASN w = seq 0 (m_of a) /\ idxs BPN w = rev (seq (c_of a) (m_of a - c_of a)) /\
  c_of a <= m_of a /\ match a with AInEval m i _ => i < m | _ => True end.

Lemma rev_seq_snoc c m : S c <= m -> rev (seq (S c) (m - S c)) ++ [c] = rev (seq c (m - c)).
Proof.
  intro H. replace (m - c) with (S (m - S c)) by lia. simpl. reflexivity.
Qed.

Lemma AI_step a s a' w : tr a s a' -> AI a w -> AI a' (w ++ [s]).
Proof.
  unfold AI. intros T (Ha & Hb & Hc & Hd). rewrite !idxs_app, Ha, Hb.
  destruct T; simpl in *; rewrite ?app_nil_r, ?Nat.sub_diag, ?Nat.sub_0_r;
    repeat split; auto; try lia; try (apply rev_seq_snoc; lia).
  symmetry. apply (seq_S m 0).
Qed.

Lemma AI_run w : ast_bad (arun AFresh w) = false -> AI (arun AFresh w) w.
Proof. apply run_inv; [repeat split; auto|exact AI_step]. Qed.

Lemma word_order w : ast_bad (arun AFresh w) = false ->
  exists m c, c <= m /\ idxs ASN w = seq 0 m /\ idxs BPN w = rev (seq c (m - c)).
Proof.
  intro H. destruct (AI_run w H) as (H1 & H2 & H3 & _). eauto.
Qed.

Lemma final_not_bad a : ast_final a = true -> ast_bad a = false.
Proof. destruct a; auto; discriminate. Qed.

Lemma word_closed w : ast_final (arun AFresh w) = true ->
  exists m, idxs ASN w = seq 0 m /\ idxs BPN w = rev (seq 0 m).
Proof.
  intro H. destruct (AI_run w (final_not_bad _ H)) as (H1 & H2 & _). exists (m_of (arun AFresh w)).
  destruct (arun AFresh w); try discriminate; simpl in *; rewrite ?Nat.sub_0_r in H2; auto.
Qed.

Definition settled (m : nat) (a : ast) : Prop :=
  m_of a = m /\ match a with AFresh | AStarting _ | AInStart _ _ | ABad => False | _ => True end.

Lemma settled_step m a s a' : tr a s a' -> settled m a -> settled m a'.
Proof. intros T. destruct T; unfold settled; simpl; tauto. Qed.

Lemma settled_run m w a : settled m a -> ast_bad (arun a w) = false -> settled m (arun a w).
Proof. apply (run_pres (settled m) (fun _ => True)); auto. intros; eapply settled_step; eauto. Qed.

Lemma settled_final m a : settled m a -> ast_final a = true -> a = ADone m.
Proof. destruct a; unfold settled; simpl; try discriminate; try tauto. intros [-> _] _. reflexivity. Qed.

Lemma word_split w1 s w2 : ast_bad (arun AFresh (w1 ++ s :: w2)) = false ->
  exists a a', tr a s a' /\ AI a w1 /\ arun AFresh (w1 ++ s :: w2) = arun a' w2 /\ AI (arun a' w2) (w1 ++ s :: w2).
Proof.
  intro H. pose proof (AI_run _ H) as H2. rewrite arun_app in *. simpl in *.
  exists (arun AFresh w1), (astep (arun AFresh w1) s). split; [apply astep_tr; eapply step_not_bad; eauto|].
  split; [|auto]. apply AI_run. apply step_not_bad in H. destruct (arun AFresh w1); auto.
Qed.

Lemma seq_app_nil m l : seq 0 m ++ l = seq 0 m -> l = [].
Proof. intro H. rewrite <- (app_nil_r (seq 0 m)) in H at 2. apply app_inv_head in H. auto. Qed.

Lemma word_failed_start w1 k w2 :
  ast_bad (arun AFresh (w1 ++ SN SNF k :: w2)) = false ->
  idxs ASN w1 = seq 0 k /\ idxs BPN w1 = [] /\ idxs ASN w2 = [] /\
  exists c, c <= k /\ idxs BPN w2 = rev (seq c (k - c)) /\
            (ast_final (arun AFresh (w1 ++ SN SNF k :: w2)) = true -> c = 0).
Proof.
  intro H. destruct (word_split _ _ _ H) as (a & a' & T & (A1 & B1 & _) & E & A2 & B2 & C2 & _). rewrite E in *.
  inversion T; subst. simpl in A1, B1. rewrite Nat.sub_diag in B1.
  pose proof (settled_run k w2 (ARoll k k) (conj eq_refl I) H) as Hf.
  rewrite (proj1 Hf), idxs_app in *. simpl in A2, B2. rewrite A1 in A2. rewrite B1 in B2.
  apply seq_app_nil in A2. repeat split; auto.
  exists (c_of (arun (ARoll k k) w2)). repeat split; auto.
  intro Hfin. rewrite (settled_final _ _ Hf Hfin). reflexivity.
Qed.

Lemma apg_done a a' : tr a (SG APG) a' -> a' = ADone (m_of a).
Proof. intro T. inversion T; reflexivity. Qed.

Lemma word_stop_pass w1 w2 :
  ast_bad (arun AFresh (w1 ++ SG BPG :: w2)) = false ->
  exists m, idxs ASN w1 = seq 0 m /\ idxs BPN w1 = [] /\
            (In (SG APG) w2 \/ ast_final (arun AFresh (w1 ++ SG BPG :: w2)) = true -> idxs BPN w2 = rev (seq 0 m)).
Proof.
  intro H. destruct (word_split _ _ _ H) as (a & a' & T & (A1 & B1 & _) & E & A2 & B2 & _). rewrite E in *.
  inversion T; subst. simpl in A1, B1. rewrite Nat.sub_diag in B1. exists m. repeat split; auto. intro Hend.
  pose proof (settled_run m w2 (AStopping m m false) (conj eq_refl I) H) as Hf.
  assert (Hd : arun (AStopping m m false) w2 = ADone m).
  { destruct Hend as [Hin|Hfin]; [|apply settled_final; auto].
    apply in_split in Hin as (u & v & ->). rewrite arun_app in *. simpl in *.
    pose proof (step_not_bad _ _ _ H) as Hs.
    assert (Hu : settled m (arun (AStopping m m false) u)).
    { apply settled_run; [split; auto|]. destruct (arun (AStopping m m false) u); auto. }
    rewrite (apg_done _ _ (astep_tr _ _ Hs)), (proj1 Hu) in *. apply over_sticky in H; [|reflexivity]. subst v. reflexivity. }
  rewrite Hd, idxs_app in B2. simpl in B2. rewrite B1, Nat.sub_0_r in B2. exact B2.
Qed.

Lemma word_eval_in_lifetime w1 k i w2 :
  (k = BEN \/ k = HE) ->
  ast_bad (arun AFresh (w1 ++ SN k i :: w2)) = false ->
  In i (idxs ASN w1) /\ ~ In i (idxs BPN w1).
Proof.
  intros Hk H. destruct (word_split _ _ _ H) as (a & a' & T & (A1 & B1 & _ & X1) & _). rewrite A1, B1.
  destruct Hk; subst k; inversion T; subst; simpl in *; rewrite Nat.sub_diag; (split; [apply in_seq; lia|auto]).
Qed.

Lemma nodup_paths_in p l : In p (nodup_paths l) <-> In p l.
Proof.
  induction l as [|x r IH]; simpl; [tauto|].
  destruct (existsb (path_eqb x) r) eqn:E.
  - rewrite IH. apply (existsb_eqb_In _ path_eqb_eq) in E. split; auto. intros [->|H]; auto.
  - simpl. rewrite IH. tauto.
Qed.

(* declarative reading of the acceptor [log_wf] / [log_closed], over EVERY graph path *)
Definition LogWf (L : list event) : Prop :=
  (forall e, In e L -> well_addressed e = true) /\ forall gq, ast_bad (Aof L gq) = false.
Definition LogClosed (L : list event) : Prop := forall gq, ast_final (Aof L gq) = true.

(* a path that owns no event of the log is a fresh graph: checking the owners checks every path *)
Lemma owners_all (P : ast -> bool) L : P AFresh = true ->
  forallb (fun gp => P (arun AFresh (graph_word gp L))) (owners L) = true <-> forall gq, P (Aof L gq) = true.
Proof.
  intro H0. rewrite forallb_forall. split; [|intros H gq _; apply H].
  intros H gq. rewrite Aof_eq. destruct (in_dec (list_eq_dec Nat.eq_dec) gq (map owner L)) as [Hin|Hn].
  - apply H. unfold owners. apply nodup_paths_in. auto.
  - rewrite graph_word_no_owner; auto.
Qed.

Lemma log_wf_iff L : log_wf L = true <-> LogWf L.
Proof.
  unfold log_wf, LogWf. rewrite andb_true_iff, forallb_forall.
  pose proof (owners_all (fun a => negb (ast_bad a)) L eq_refl) as O. simpl in O. rewrite O.
  split; intros [H1 H2]; (split; [exact H1|]); intro gq; apply negb_true_iff, H2.
Qed.

Lemma log_closed_iff L : log_closed L = true <-> LogClosed L.
Proof. apply (owners_all ast_final). reflexivity. Qed.

Lemma lifecycle_ok_iff L : lifecycle_ok L = true <-> LogWf L /\ LogClosed L.
Proof. unfold lifecycle_ok. rewrite andb_true_iff, log_wf_iff, log_closed_iff. tauto. Qed.


(* the automaton can reach a leaked state only through "stop node failed" and through
   "start node failed" *)
Definition leakpath (a : ast) : bool :=
  match a with ARollIn _ _ _ true | ARollAborted _ _ | ALeaked _ _ => true | _ => false end.
Definition rollpath (a : ast) : bool :=
  match a with ARoll _ _ | ARollIn _ _ _ _ | ARollAborted _ _ | ALeaked _ _ => true | _ => false end.

Lemma leakpath_step a s a' : tr a s a' -> (forall i, s <> SN PNF i) -> leakpath a = false -> leakpath a' = false.
Proof. intros T Hs. destruct T; simpl; auto. exfalso. eapply Hs; reflexivity. Qed.

Lemma rollpath_step a s a' : tr a s a' -> (forall i, s <> SN SNF i) -> rollpath a = false -> rollpath a' = false.
Proof. intros T Hs. destruct T; simpl; auto. exfalso. eapply Hs; reflexivity. Qed.

Lemma graph_word_kind gq L k i : In (SN k i) (graph_word gq L) -> exists e, In e L /\ e_kind e = k.
Proof.
  unfold graph_word. rewrite in_map_iff. intros (e & He & Hin). apply filter_In in Hin as [Hin _].
  exists e. split; auto. unfold sym_of in He. destruct (is_graph_kind (e_kind e)); inversion He; auto.
Qed.

(* a property of states that only a symbol of kind k can switch on stays off in logs without that kind *)
Lemma stays_off (P : ast -> bool) k K L gq :
  P AFresh = false -> P ABad = false ->
  (forall a s a', tr a s a' -> (forall i, s <> SN k i) -> P a = false -> P a' = false) ->
  emits K L -> K k = false -> P (Aof L gq) = false.
Proof.
  intros H0 Hb Hs E Hk. rewrite Aof_eq. destruct (ast_bad (arun AFresh (graph_word gq L))) eqn:B.
  { destruct (arun AFresh _); try discriminate B. exact Hb. }
  apply (run_pres (fun a => P a = false) (fun s => forall i, s <> SN k i)); auto.
  intros s Hin i ->. apply graph_word_kind in Hin as (e & He & Hek).
  unfold emits in E. rewrite forallb_forall in E. specialize (E e He). congruence.
Qed.

Definition gsel (k : ekind) (s : sym) : nat := match s with SG k' => if ekind_eqb k' k then 1 else 0 | SN _ _ => 0 end.
Definition gcnt (k : ekind) (w : list sym) : nat := list_sum (map (gsel k) w).

Lemma gcnt_app k a b : gcnt k (a ++ b) = gcnt k a + gcnt k b.
Proof. unfold gcnt. rewrite map_app, list_sum_app. reflexivity. Qed.

Definition open_s (a : ast) : list nat := match a with AInStart m _ => [m] | _ => [] end.
Definition open_e (a : ast) : list nat := match a with AInEval _ i _ => [i] | _ => [] end.
Definition open_p (a : ast) : list nat := match a with ARollIn _ c _ _ | AStopIn _ c _ _ _ => [pred c] | _ => [] end.
Definition pre_fail (a : ast) : bool := match a with AFresh | AStarting _ | AInStart _ _ => true | _ => false end.
Definition gopen_s (a : ast) : nat :=
  match a with AStarting _ | AInStart _ _ | ARoll _ _ | ARollIn _ _ _ _ | ARollAborted _ _ => 1 | _ => 0 end.
Definition gopen_e (a : ast) : nat := match a with ACycle _ _ | AInEval _ _ _ => 1 | _ => 0 end.
Definition gopen_p (a : ast) : nat := match a with AStopping _ _ _ | AStopIn _ _ _ _ _ | AStopFailed _ => 1 | _ => 0 end.

(* the second clause is there for the first: at the "after start node" of node m the first asks for
   BSN = (ASN ++ [m]) ++ SNF, which follows from BSN = ASN ++ SNF ++ [m] only because no start has
   failed yet *)
Definition BAL (a : ast) (w : list sym) : Prop :=
  idxs BSN w = idxs ASN w ++ idxs SNF w ++ open_s a /\
  (pre_fail a = true -> idxs SNF w = []) /\
  idxs BEN w = idxs AEN w ++ open_e a /\
  idxs BPN w = idxs APN w ++ open_p a /\
  gcnt BSG w = gcnt ASG w + gcnt SGF w + gopen_s a /\
  gcnt BGE w = gcnt AGE w + gopen_e a /\
  gcnt BPG w = gcnt APG w + gopen_p a.

Lemma BAL_step a s a' w : tr a s a' -> BAL a w -> BAL a' (w ++ [s]).
Proof.
  unfold BAL. intros T (H1 & H2 & H3 & H4 & H5 & H6 & H7). rewrite !idxs_app, !gcnt_app, H1, H3, H4.
  unfold gcnt in *. destruct T; simpl in *; try rewrite H2 by reflexivity; rewrite ?app_nil_r, <- ?app_assoc;
    repeat split; auto; try lia; discriminate.
Qed.

Definition ast_rest (a : ast) : bool :=
  match a with AFresh | AStarted _ | ADone _ | ALeaked _ _ => true | _ => false end.

Lemma word_balanced w : ast_rest (arun AFresh w) = true ->
  idxs BSN w = idxs ASN w ++ idxs SNF w /\ idxs BEN w = idxs AEN w /\ idxs BPN w = idxs APN w /\
  gcnt BSG w = gcnt ASG w + gcnt SGF w /\ gcnt BGE w = gcnt AGE w /\ gcnt BPG w = gcnt APG w.
Proof.
  intro H. assert (Hb : ast_bad (arun AFresh w) = false) by (destruct (arun AFresh w); auto; discriminate).
  destruct (run_inv BAL ltac:(repeat split; auto) BAL_step w Hb) as (H1 & _ & H3 & H4 & H5 & H6 & H7).
  destruct (arun AFresh w); simpl in *; try discriminate; rewrite ?app_nil_r, ?Nat.add_0_r in *; auto 10.
Qed.

Definition starts_of (gp : path) (L : list event) : list nat := idxs ASN (graph_word gp L).
Definition stops_of (gp : path) (L : list event) : list nat := idxs BPN (graph_word gp L).

Definition KnoPNF (k : ekind) : bool := match k with PNF => false | _ => true end.
Definition KnoSNF (k : ekind) : bool := match k with SNF => false | _ => true end.

Theorem never_leaks pl sp cfg w :
  no_stop_faults pl \/ no_start_faults pl ->
  no_leak (full_log pl sp cfg w).
Proof.
  intros [H|H] gl.
  - assert (L : leakpath (Aof (full_log pl sp cfg w) gl) = false).
    { apply (stays_off leakpath PNF KnoPNF); auto; [exact leakpath_step|].
      apply life_K; auto; [intros k H1 H2; destruct k; auto; congruence|discriminate]. }
    destruct (Aof _ gl); auto; discriminate.
  - assert (L : rollpath (Aof (full_log pl sp cfg w) gl) = false).
    { apply (stays_off rollpath SNF KnoSNF); auto; [exact rollpath_step|].
      apply life_K; auto; [intros k H1 H2; destruct k; auto; congruence|discriminate]. }
    destruct (Aof _ gl); auto; discriminate.
Qed.

Lemma full_log_life pl sp cfg w : exists ev1 f w1 ev2 w2,
  life pl sp cfg w = (ev1, f, w1, ev2, w2) /\ full_log pl sp cfg w = ev1 ++ ev2.
Proof.
  unfold full_log. destruct (life pl sp cfg w) as [[[[ev1 f] w1] ev2] w2]. exists ev1, f, w1, ev2, w2. auto.
Qed.

Lemma full_log_wf pl sp cfg w : fresh_world w -> LogWf (full_log pl sp cfg w).
Proof.
  intro Hf. destruct (full_log_life pl sp cfg w) as (ev1 & f & w1 & ev2 & w2 & Hl & ->).
  destruct (life_facts _ _ _ _ _ _ _ _ _ Hf Hl) as (W & B & _). split; auto.
  intros e He. unfold wloc in W. rewrite forallb_forall in W. auto.
Qed.

Lemma full_log_closed pl sp cfg w : fresh_world w -> no_leak (full_log pl sp cfg w) -> LogClosed (full_log pl sp cfg w).
Proof.
  intros Hf Hn. destruct (full_log_life pl sp cfg w) as (ev1 & f & w1 & ev2 & w2 & Hl & E).
  rewrite E in *. destruct (life_facts _ _ _ _ _ _ _ _ _ Hf Hl) as (_ & _ & C & _). unfold LogClosed. apply C. exact Hn.
Qed.
