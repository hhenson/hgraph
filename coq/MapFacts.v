(* MapFacts.v — theorems about the specification model MapSpec (property C10):
   the key set is mirrored, keys are isolated, a re-added key is fresh.  They hold for every body
   family, every key universe and every history. *)
Require Import Base MapSpec.

(* every branch of [key_step] *)
Ltac ks_cases :=
  unfold key_step;
  repeat match goal with
         | |- context [match ?x with _ => _ end] => destruct x eqn:?
         end.

Section Facts.
Context {S : Type}.

Definition ev_of (j : Z) (evs : list (Z * kev)) : option kev :=
  option_map snd (find (fun p => fst p =? j) evs).

(* newest cycle first *)
Definition key_trace (j : Z) (log : list (Z * bool * list (Z * kev))) : list (Z * option kev) :=
  map (fun te => (fst (fst te), ev_of j (snd te))) log.

Lemma run_cycle_at (B : Z -> body S) r c j :
  let step := fun ks => key_step (B j) (c_t c) (c_bc c j) j ks (ops_on j (c_ops c)) in
  kget j (r_st (run_cycle B r c)) = option_map (fun ks => fst (step ks)) (kget j (r_st r)) /\
  key_trace j (r_log (run_cycle B r c)) = (c_t c, option_map (fun ks => snd (step ks)) (kget j (r_st r))) :: key_trace j (r_log r).
Proof.
  cbn [run_cycle r_st r_log key_trace map fst snd]. unfold ev_of, cycle, next_state, events.
  induction (r_st r) as [|[k ks] l IH]; cbn [map kget find fst snd option_map]; [auto|].
  destruct (k =? j) eqn:E; [|exact IH]. assert (k = j) by lia. subst k. auto.
Qed.

Lemma kget_run_cycle (B : Z -> body S) r c j :
  kget j (r_st (run_cycle B r c)) =
  option_map (fun ks => fst (key_step (B j) (c_t c) (c_bc c j) j ks (ops_on j (c_ops c)))) (kget j (r_st r)).
Proof. apply run_cycle_at. Qed.

(* the dictionaries seen globally; the specification keeps, per key, the list of that key's values *)
Definition dicts := nat -> Z -> option Z.
Definition dset (d : nat) (k : Z) (v : option Z) (D : dicts) : dicts :=
  fun d' k' => if Nat.eqb d' d && (k' =? k) then v else D d' k'.
Definition apply_dop (D : dicts) (o : nat * Z * Z * Z) : dicts :=
  match o with (d, c, k, v) => if c =? 1 then dset d k (Some v) D else if c =? 2 then dset d k None D else D end.
Definition dicts_after (h : list cyc) : dicts :=
  fold_left (fun D c => fold_left apply_dop (c_ops c) D) h (fun _ _ => None).

Lemma apply_ops_global i j ops : forall cur (D : dicts),
  fst cur = D i j -> fst (apply_ops i (ops_on j ops) cur) = fold_left apply_dop ops D i j.
Proof.
  induction ops as [|[[[d c] k] v] r IH]; intros cur D H; [exact H|].
  unfold ops_on. cbn [map filter fst snd fold_left]. fold (ops_on j r).
  assert (Hd : apply_dop D (d, c, k, v) i j =
               if (k =? j) && Nat.eqb d i then (if c =? 1 then Some v else if c =? 2 then None else D i j) else D i j).
  { unfold apply_dop, dset. rewrite (Nat.eqb_sym d i), (Z.eqb_sym k j), andb_comm. destruct (c =? 1), (c =? 2), (_ && _); reflexivity. }
  destruct (k =? j); cbn [map apply_ops fst snd]; [destruct (Nat.eqb d i)|]; apply IH; rewrite Hd; cbn [andb]; [|exact H|exact H].
  destruct (c =? 1), (c =? 2); [reflexivity|reflexivity|reflexivity|exact H].
Qed.

Lemma new_vals_global j ops (D : dicts) : forall vals i x,
  (forall x, (x < length vals)%nat -> nth x vals None = D (i + x)%nat j) -> (x < length vals)%nat ->
  nth x (map fst (new_vals i vals (ops_on j ops))) None = fold_left apply_dop ops D (i + x)%nat j.
Proof.
  induction vals as [|v r IH]; intros i x Hv Hx; [inversion Hx|]. cbn [new_vals map]. destruct x as [|x]; cbn [nth].
  - specialize (Hv 0%nat Hx). rewrite Nat.add_0_r in *. apply apply_ops_global. exact Hv.
  - rewrite <- Nat.add_succ_comm. apply IH; [|cbn in Hx; lia].
    intros y Hy. rewrite Nat.add_succ_comm. apply (Hv (Datatypes.S y)). cbn. lia.
Qed.

Lemma new_vals_length i (vals : list (option Z)) ops : length (new_vals i vals ops) = length vals.
Proof. revert i; induction vals as [|v r IH]; intros i; cbn; auto. Qed.

Lemma key_step_vals (B : body S) t bc j ks ops :
  k_vals (fst (key_step B t bc j ks ops)) = map fst (new_vals 0 (k_vals ks) ops).
Proof. ks_cases; reflexivity. Qed.

Definition bound_somewhere (vals : list (option Z)) : bool := existsb is_some vals.

Definition kinv (ks : kstate S) : Prop :=
  is_some (k_inst ks) = bound_somewhere (k_vals ks) /\ (k_valid ks = true -> is_some (k_inst ks) = true).

Lemma any_bound_map (nv : list (option Z * bool)) : any_bound nv = bound_somewhere (map fst nv).
Proof. unfold any_bound, bound_somewhere. induction nv as [|p r IH]; cbn; [reflexivity|]. rewrite IH. reflexivity. Qed.

Lemma key_step_kinv (B : body S) t bc j ks ops : kinv (fst (key_step B t bc j ks ops)).
Proof.
  unfold kinv. rewrite key_step_vals, <- any_bound_map. ks_cases; cbn [fst k_inst k_valid is_some]; split; try reflexivity; try discriminate; auto.
Qed.

Lemma unbound_repeat ndict : bound_somewhere (repeat None ndict) = false.
Proof. unfold bound_somewhere. induction ndict; cbn; auto. Qed.

Lemma kinv_init ndict : kinv (kinit (S:=S) ndict).
Proof. split; [symmetry; apply unbound_repeat|discriminate]. Qed.

Lemma kget_start ndict keys j :
  kget j (r_st (start_state (S:=S) ndict keys)) = if existsb (Z.eqb j) keys then Some (kinit ndict) else None.
Proof.
  cbn [start_state r_st]. induction keys as [|k r IH]; cbn [map kget existsb fst snd]; [reflexivity|].
  rewrite (Z.eqb_sym j k). destruct (k =? j); [reflexivity|exact IH].
Qed.

Lemma existsb_keys j (keys : list Z) : In j keys -> existsb (Z.eqb j) keys = true.
Proof. apply existsb_eqb_In, Z.eqb_eq. Qed.

Lemma run_snoc (B : Z -> body S) r h c : run B r (h ++ [c]) = run_cycle B (run B r h) c.
Proof. unfold run. rewrite fold_left_app. reflexivity. Qed.

Lemma reach_ind (B : Z -> body S) ndict keys j (P : list cyc -> kstate S -> Prop) :
  P [] (kinit ndict) ->
  (forall h c ks, P h ks -> P (h ++ [c]) (fst (key_step (B j) (c_t c) (c_bc c j) j ks (ops_on j (c_ops c))))) ->
  forall h ks, kget j (r_st (run B (start_state ndict keys) h)) = Some ks -> P h ks.
Proof.
  intros H0 Hstep. induction h as [|c h IH] using rev_ind; intros ks H.
  - cbn [run fold_left] in H. rewrite kget_start in H. destruct (existsb _ _); [|discriminate]. injection H as <-. exact H0.
  - rewrite run_snoc, kget_run_cycle in H.
    destruct (kget j (r_st (run B (start_state ndict keys) h))) as [ks0|]; [|discriminate]. injection H as <-. auto.
Qed.

Lemma reach_kinv (B : Z -> body S) ndict keys h j ks :
  kget j (r_st (run B (start_state ndict keys) h)) = Some ks -> kinv ks.
Proof. apply (reach_ind B ndict keys j (fun _ => kinv)); [apply kinv_init|intros; apply key_step_kinv]. Qed.

Lemma reach_vals (B : Z -> body S) ndict keys h j ks :
  kget j (r_st (run B (start_state ndict keys) h)) = Some ks ->
  length (k_vals ks) = ndict /\ forall i, (i < ndict)%nat -> nth i (k_vals ks) None = dicts_after h i j.
Proof.
  revert h ks. apply (reach_ind B ndict keys j).
  - split; [apply repeat_length|]. intros i _. unfold dicts_after. cbn [kinit k_vals fold_left]. revert i. induction ndict as [|n IHn]; intros [|i]; cbn; auto.
  - intros h0 c ks0 [Hl Hv]. rewrite key_step_vals. split; [rewrite map_length, new_vals_length; exact Hl|].
    intros i Hi. unfold dicts_after. rewrite fold_left_app. apply (new_vals_global j _ (dicts_after h0) _ 0%nat); rewrite Hl; auto.
Qed.

Lemma bound_somewhere_spec (vals : list (option Z)) :
  bound_somewhere vals = true <-> exists i, (i < length vals)%nat /\ nth i vals None <> None.
Proof.
  unfold bound_somewhere. rewrite existsb_exists. split.
  - intros (v & Hin & Hv). destruct (In_nth _ _ None Hin) as (i & Hi & <-). exists i. split; [exact Hi|].
    destruct (nth i vals None); [discriminate|discriminate Hv].
  - intros (i & Hi & Hn). exists (nth i vals None). split; [apply nth_In, Hi|]. destruct (nth i vals None); [reflexivity|contradiction].
Qed.

Definition same_for (j : Z) (c1 c2 : cyc) : Prop :=
  c_t c1 = c_t c2 /\ c_bc c1 j = c_bc c2 j /\ ops_on j (c_ops c1) = ops_on j (c_ops c2).

Definition agree_on (j : Z) (r1 r2 : run_state S) : Prop :=
  kget j (r_st r1) = kget j (r_st r2).

(* nothing is assumed of the other keys: their operations, bodies, states and failures are arbitrary *)
Lemma isolated_gen (B1 B2 : Z -> body S) j : forall h1 h2 r1 r2,
  B1 j = B2 j -> agree_on j r1 r2 -> Forall2 (same_for j) h1 h2 ->
  key_trace j (r_log r1) = key_trace j (r_log r2) ->
  agree_on j (run B1 r1 h1) (run B2 r2 h2) /\
  key_trace j (r_log (run B1 r1 h1)) = key_trace j (r_log (run B2 r2 h2)).
Proof.
  intros h1 h2 r1 r2 HB Ha HF. revert r1 r2 Ha. unfold agree_on.
  induction HF as [|c1 c2 h1 h2 (Ht & Hc & Ho) HF IH]; intros r1 r2 Ha Htr; [split; assumption|].
  cbn [run fold_left]. destruct (run_cycle_at B1 r1 c1 j) as [K1 T1]. destruct (run_cycle_at B2 r2 c2 j) as [K2 T2]. cbn zeta in *.
  apply IH; [rewrite K1, K2|rewrite T1, T2, Htr]; rewrite HB, Ha, Ht, Hc, Ho; reflexivity.
Qed.

Lemma new_vals_nil i (vals : list (option Z)) : new_vals i vals [] = map (fun v => (v, false)) vals.
Proof. revert i; induction vals as [|v r IH]; intros i; cbn; [reflexivity|]. rewrite IH. reflexivity. Qed.

Lemma any_mod_unticked (vals : list (option Z)) bc : any_mod (map (fun v => (v, false)) vals ++ bc) = any_mod bc.
Proof. unfold any_mod. induction vals as [|v r IH]; cbn [map app existsb fst snd]; [reflexivity|]. rewrite andb_false_r. exact IH. Qed.

Lemma untouched_cycle_identity (B : body S) t bc j ks :
  kinv ks ->
  any_mod bc = false ->
  match k_inst ks with Some s => wake_due B s t = false | None => True end ->
  key_step B t bc j ks [] = (ks, no_ev).
Proof.
  intros [Hl Hv] Hbc Hw. unfold key_step. rewrite new_vals_nil, any_mod_unticked, Hbc, any_bound_map, map_map. cbn [fst]. rewrite map_id, <- Hl.
  destruct ks as [vals [s|] valid]; cbn [k_vals k_inst k_valid is_some negb orb] in *; [rewrite Hw; reflexivity|].
  destruct valid; [discriminate (Hv eq_refl)|reflexivity].
Qed.

Lemma absent_is_initial (B : Z -> body S) ndict keys h j ks :
  kget j (r_st (run B (start_state ndict keys) h)) = Some ks ->
  k_inst ks = None -> ks = kinit ndict.
Proof.
  intros H Hn. destruct (reach_kinv _ _ _ _ _ _ H) as [Hl Hv]. destruct (reach_vals _ _ _ _ _ _ H) as [Hlen _].
  destruct ks as [vals inst valid]. cbn [k_inst k_vals k_valid] in *. subst inst ndict. cbn [is_some] in *.
  unfold kinit. f_equal; [|destruct valid; [discriminate (Hv eq_refl)|reflexivity]].
  clear Hv H. induction vals as [|[v|] r IH]; [reflexivity|discriminate Hl|]. cbn [length repeat]. f_equal. apply IH, Hl.
Qed.

Lemma kget_run_none (B : Z -> body S) j h : forall r,
  kget j (r_st r) = None -> kget j (r_st (run B r h)) = None.
Proof.
  induction h as [|c h IH]; intros r H; [exact H|]. cbn [run fold_left]. apply IH.
  rewrite kget_run_cycle, H. reflexivity.
Qed.

Lemma same_for_refl j h : Forall2 (same_for j) h h.
Proof. induction h; constructor; [repeat split|assumption]. Qed.

Definition clear_log (r : run_state S) : run_state S := mkR (r_st r) (r_primed r) [].
Definition fresh_state (ndict : nat) (keys : list Z) : run_state S :=
  mkR (map (fun k => (k, kinit ndict)) keys) false [].

Definition restrict_to (j : Z) (c : cyc) : cyc :=
  mkCyc (c_t c) (c_bc c) (filter (fun o => snd (fst o) =? j) (c_ops c)).

Lemma same_for_restrict j h : Forall2 (same_for j) h (map (restrict_to j) h).
Proof.
  induction h as [|c r IH]; cbn [map]; constructor; [|exact IH].
  unfold same_for, restrict_to. cbn [c_t c_bc c_ops]. repeat split. unfold ops_on.
  induction (c_ops c) as [|[[[d cd] k] v] l IHl]; [reflexivity|]. cbn [filter fst snd map].
  destruct (k =? j) eqn:E; cbn [filter fst snd map]; rewrite ?E; cbn [map]; [f_equal|]; exact IHl.
Qed.

End Facts.
