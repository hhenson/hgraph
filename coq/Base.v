(* Base.v — shared vocabulary of every model: time, the wire format of the
   correspondence check (lists of lists of Z), small list utilities, and the list
   lemmas that several families use.  No proofs about the code live here. *)
From Coq Require Export ZArith List Bool Lia.
Export ListNotations.
Open Scope Z_scope.

(* Time is microseconds since the epoch, as in include/hgraph/util/date_time.h. *)
Definition MIN_DT : Z := 0.                  (* "never" sentinel: min_time() *)
Definition MIN_ST : Z := 1.                  (* min_start_time() *)
Definition MIN_TD : Z := 1.                  (* smallest_time_increment() *)
(* 2300-01-01T00:00:00 in microseconds: 120530 days * 86400 s * 10^6 *)
Definition MAX_DT : Z := 10413792000000000.  (* max_time() *)
Definition MAX_ET : Z := MAX_DT - 1.

(* The wire format: a case and an observation are both lists of lines, a line
   is a list of integers.  Every family exports [run : wire -> wire]. *)
Definition line := list Z.
Definition wire := list line.

Definition b2z (b : bool) : Z := if b then 1 else 0.
Definition z2b (z : Z) : bool := negb (z =? 0).

Definition hdz (l : list Z) : Z := match l with x :: _ => x | [] => 0 end.
Definition nthz (n : nat) (l : list Z) : Z := nth n l 0.

Fixpoint zmin_list (d : Z) (l : list Z) : Z :=
  match l with [] => d | x :: r => Z.min x (zmin_list d r) end.

Fixpoint update {A} (n : nat) (f : A -> A) (l : list A) : list A :=
  match l, n with
  | [], _ => []
  | x :: r, O => f x :: r
  | x :: r, S k => x :: update k f r
  end.

Definition set_nth {A} (n : nat) (v : A) (l : list A) : list A := update n (fun _ => v) l.

Lemma update_length {A} n f (l : list A) : length (update n f l) = length l.
Proof. revert n; induction l as [|x r IH]; intros [|n]; simpl; auto. Qed.

Lemma nth_update_same {A} n f (l : list A) d : (n < length l)%nat -> nth n (update n f l) d = f (nth n l d).
Proof. revert n; induction l as [|x r IH]; intros [|n] H; simpl in *; try lia; auto. apply IH; lia. Qed.

Lemma nth_update_other {A} n m f (l : list A) d : n <> m -> nth m (update n f l) d = nth m l d.
Proof. revert n m; induction l as [|x r IH]; intros [|n] [|m] H; simpl; auto; try congruence. Qed.

Lemma nth_update {A} i m f (l : list A) d :
  nth m (update i f l) d = if (m =? i)%nat && (i <? length l)%nat then f (nth m l d) else nth m l d.
Proof.
  destruct (Nat.eqb_spec m i) as [->|H]; [|apply nth_update_other; auto].
  destruct (Nat.ltb_spec i (length l)); [apply nth_update_same; auto|].
  rewrite !nth_overflow; rewrite ?update_length; auto.
Qed.

Lemma update_twice {A} n f h k (l : list A) : (forall x, f (h x) = k x) -> update n f (update n h l) = update n k l.
Proof. intros H. revert n; induction l as [|x r IH]; intros [|n]; simpl; auto; f_equal; auto. Qed.

Lemma set_nth_length {A} i (v : A) l : length (set_nth i v l) = length l.
Proof. apply update_length. Qed.

Lemma nth_error_update_same {A} n f (l : list A) v : nth_error l n = Some v -> nth_error (update n f l) n = Some (f v).
Proof. revert n. induction l as [|x r IH]; intros [|n] H; simpl in *; try discriminate; [congruence|auto]. Qed.

Lemma nth_error_update_other {A} n m f (l : list A) : n <> m -> nth_error (update n f l) m = nth_error l m.
Proof. revert n m. induction l as [|x r IH]; intros [|n] [|m] H; simpl; auto; congruence. Qed.

Lemma nth_error_app_some {A} (l l' : list A) i v : nth_error l i = Some v -> nth_error (l ++ l') i = Some v.
Proof. revert i; induction l as [|y t IH]; intros [|i]; simpl; try discriminate; auto. Qed.

Lemma nth_error_app_len {A} (pfx : list A) y r : nth_error (pfx ++ y :: r) (length pfx) = Some y.
Proof. induction pfx as [|a p IH]; cbn; [reflexivity|exact IH]. Qed.

Lemma nth_error_snoc_inv {A} (l : list A) x i v :
  nth_error (l ++ [x]) i = Some v -> nth_error l i = Some v \/ (i = length l /\ v = x).
Proof.
  intros H. destruct (Nat.lt_ge_cases i (length l)) as [Hlt|Hge].
  - rewrite nth_error_app1 in H by assumption. auto.
  - rewrite nth_error_app2 in H by assumption. destruct (i - length l)%nat as [|[|n]] eqn:E; try discriminate.
    simpl in H. right. split; [lia|congruence].
Qed.

Lemma nth_map_seq {A} (f : nat -> A) a n i d : (i < n)%nat -> nth i (map f (seq a n)) d = f (a + i)%nat.
Proof.
  intros H. rewrite (nth_indep _ d (f 0%nat)) by (rewrite map_length, seq_length; exact H).
  rewrite map_nth. rewrite seq_nth by exact H. reflexivity.
Qed.

Lemma NoDup_app_intro {A} (l1 l2 : list A) :
  NoDup l1 -> NoDup l2 -> (forall x, In x l1 -> In x l2 -> False) -> NoDup (l1 ++ l2).
Proof.
  induction l1 as [|x r IH]; intros N1 N2 D; simpl; auto.
  inversion N1; subst. constructor.
  - rewrite in_app_iff. intros [H|H]; auto. apply (D x); simpl; auto.
  - apply IH; auto. intros y Y1 Y2. apply (D y); simpl; auto.
Qed.

Lemma existsb_eqb_In {A} (eqb : A -> A -> bool) :
  (forall x y, eqb x y = true <-> x = y) -> forall k l, existsb (eqb k) l = true <-> In k l.
Proof.
  intros E k l. rewrite existsb_exists. split; [intros (x & Hx & He); apply E in He; subst; exact Hx|].
  intros H. exists k. split; [exact H|apply E; reflexivity].
Qed.

Lemma fold_left_ind {A B} (f : A -> B -> A) (P : A -> Prop) l :
  (forall a x, In x l -> P a -> P (f a x)) -> forall a, P a -> P (fold_left f l a).
Proof.
  induction l as [|x r IH]; intros Hf a Ha; simpl; [exact Ha|].
  apply IH; [intros b y Hy; apply Hf; right; exact Hy|]. apply Hf; [left; reflexivity|exact Ha].
Qed.

(* the fold by which a graph seeds its cached next time: the earliest element not before [now], or [acc] *)
Lemma seed_fold now l : forall acc,
  let m := fold_left (fun acc sc => if (now <=? sc) && (sc <? acc) then sc else acc) l acc in
  m <= acc /\ (m = acc \/ now <= m) /\ forall x, In x l -> now <= x -> m <= x.
Proof.
  induction l as [|y r IH]; intros acc; simpl; [repeat split; [lia|auto|tauto]|].
  destruct (IH (if (now <=? y) && (y <? acc) then y else acc)) as (A & B & C).
  destruct (_ && _) eqn:E; (repeat split; [lia|destruct B; [auto|]; lia|intros x [->|Hin] Hx; [lia|auto]]).
Qed.
