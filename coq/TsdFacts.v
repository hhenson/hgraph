(* TsdFacts.v — the TSD<int, TS<int>> storage of Coll.v: the invariant, what a storage operation does to the rows, what
   the reads return; at the end the histories and the value-step predicate of the trace theorems in TsdValueFacts.v. *)
Require Import Base Coll CollFacts.
From Coq Require Import Arith.
Local Open Scope nat_scope.

Definition dst (s : tsd) (i : nat) : slot := slot_at (d_ks s) i.
Definition da (s : tsd) (i : nat) : bool := bit i (d_add s).
Definition dr (s : tsd) (i : nat) : bool := bit i (d_rem s).
Definition dm (s : tsd) (i : nat) : bool := bit i (d_mod s).
Definition dp (s : tsd) (i : nat) : bool := bit i (d_pub s).
Definition dv (s : tsd) (i : nat) : bool := c_valid (child_at s i).

Record row := mkRow { r_s : slot; r_a : bool; r_r : bool; r_m : bool; r_p : bool; r_c : child }.
Definition drow (s : tsd) (i : nat) : row := mkRow (dst s i) (da s i) (dr s i) (dm s i) (dp s i) (child_at s i).

Definition slot_ok (x : sstate) (a r m p v : bool) : Prop :=
  match x with
  | SFree => a = false /\ r = false /\ m = false /\ p = false
  | SLive => r = false /\ (a = true -> p = true) /\ (m = true -> p = true) /\ p = v
  | SPend => a = false /\ m = false /\ p = false /\ (r = true -> v = true)
  end.

Record DInv (s : tsd) : Prop := mkDInv {
  di_k : KInv (d_ks s);
  di_lc : length (d_ch s) = ks_cap (d_ks s);
  di_la : length (d_add s) = ks_cap (d_ks s);
  di_lr : length (d_rem s) = ks_cap (d_ks s);
  di_lm : length (d_mod s) = ks_cap (d_ks s);
  di_lp : length (d_pub s) = ks_cap (d_ks s);
  di_bits : forall i, slot_ok (s_st (dst s i)) (da s i) (dr s i) (dm s i) (dp s i) (dv s i)
}.

Lemma dinv_empty : DInv tsd_empty.
Proof.
  constructor; try reflexivity; [apply kinv_empty|].
  intros i. unfold dst, da, dr, dm, dp, bit, slot_at. simpl. destruct i; simpl; auto.
Qed.

(* to the TSD what [inV], [inA], [inR], [inOld] of CollFacts are to the TSS; a key is a member once it is published,
   that is once its child has a value *)
Definition inP (s : tsd) (k : Z) : Prop := exists i, dst s i = mkSlot SLive k /\ dp s i = true.
Definition inDA (s : tsd) (k : Z) : Prop := exists i, dst s i = mkSlot SLive k /\ da s i = true.
Definition inDR (s : tsd) (k : Z) : Prop := exists i, dst s i = mkSlot SPend k /\ dr s i = true.
Definition inDM (s : tsd) (k : Z) : Prop := exists i, dst s i = mkSlot SLive k /\ dm s i = true.
(* "was a published member when the current delta window opened" *)
Definition inDOld (s : tsd) (k : Z) : Prop :=
  exists i, (dst s i = mkSlot SLive k /\ dp s i = true /\ da s i = false) \/ (dst s i = mkSlot SPend k /\ dr s i = true).

Definition oldp (x : sstate) (a r p : bool) : Prop := (x = SLive /\ p = true /\ a = false) \/ (x = SPend /\ r = true).

Lemma inDOld_rows s k :
  inDOld s k <-> exists i, s_key (dst s i) = k /\ oldp (s_st (dst s i)) (da s i) (dr s i) (dp s i).
Proof.
  split; intros [i Q]; exists i.
  - destruct Q as [[Q A]|[Q A]]; rewrite Q; split; [reflexivity|left|reflexivity|right]; auto.
  - rewrite <- (slot_eta (dst s i)). destruct Q as [<- [[-> A]|[-> A]]]; auto.
Qed.

Lemma inDA_iff s k : DInv s -> (inDA s k <-> inP s k /\ ~ inDOld s k).
Proof.
  intros T. split.
  - intros [i [H1 H2]]. pose proof (di_bits s T i) as B. rewrite H1 in B. cbn in B. destruct B as [_ [B _]].
    split; [exists i; auto|].
    intros [j [[Q1 [Q2 Q3]]|[Q1 Q2]]].
    + assert (i = j) by (apply (slot_uniq _ i j k SLive SLive (di_k s T) H1 Q1); discriminate). subst. congruence.
    + assert (i = j) by (apply (slot_uniq _ i j k SLive SPend (di_k s T) H1 Q1); discriminate). subst. congruence.
  - intros [[i [H1 H2]] N]. exists i. split; auto.
    destruct (da s i) eqn:E; auto. exfalso. apply N. exists i. left. auto.
Qed.

Lemma inDR_iff s k : DInv s -> (inDR s k <-> inDOld s k /\ ~ inP s k).
Proof.
  intros T. split.
  - intros [i [H1 H2]]. split; [exists i; right; auto|].
    intros [j [Q _]]. assert (i = j) by (apply (slot_uniq _ i j k SPend SLive (di_k s T) H1 Q); discriminate). subst. congruence.
  - intros [[i [[Q1 [Q2 Q3]]|[Q1 Q2]]] N].
    + exfalso. apply N. exists i. auto.
    + exists i. auto.
Qed.

Lemma inDM_inP s k : DInv s -> inDM s k -> inP s k.
Proof.
  intros T [i [H1 H2]]. exists i. split; auto.
  pose proof (di_bits s T i) as B. rewrite H1 in B. cbn in B. tauto.
Qed.

Lemma slot_lt s i x k : dst s i = mkSlot x k -> x <> SFree -> i < ks_cap (d_ks s).
Proof. intros H N. apply slot_at_lt_of_state. fold (dst s i). rewrite H. exact N. Qed.

(* [b] carries the vectors of [s], padded to the capacity of the key store [ks'] *)
Definition grown (s : tsd) (ks' : kstore) (b : tsd) : Prop :=
  d_ks b = ks' /\ d_dt b = d_dt s /\ d_lmt b = d_lmt s /\
  length (d_ch b) = ks_cap ks' /\ length (d_add b) = ks_cap ks' /\ length (d_rem b) = ks_cap ks' /\
  length (d_mod b) = ks_cap ks' /\ length (d_pub b) = ks_cap ks' /\
  forall i, da b i = da s i /\ dr b i = dr s i /\ dm b i = dm s i /\ dp b i = dp s i /\ child_at b i = child_at s i.

Lemma d_ensure_grown s ks' :
  DInv s -> ks_cap (d_ks s) <= ks_cap ks' ->
  grown s ks' (d_ensure (mkD ks' (d_ch s) (d_add s) (d_rem s) (d_mod s) (d_pub s) (d_dt s) (d_lmt s) (d_kslmt s))).
Proof.
  intros [_ Lc La Lr Lm Lp _] L. unfold d_ensure, grown, da, dr, dm, dp, child_at.
  cbn [d_ks d_ch d_add d_rem d_mod d_pub d_dt d_lmt d_kslmt]. rewrite Lc, La.
  destruct (Nat.eqb_spec (ks_cap (d_ks s)) (ks_cap ks')) as [Q|Q]; cbn [d_ks d_ch d_add d_rem d_mod d_pub d_dt d_lmt].
  - rewrite <- Q. repeat split; auto.
  - rewrite !resize_length. unfold resize_ch. rewrite app_length, firstn_length, repeat_length, firstn_all2 by lia.
    repeat split; auto; try lia; try (apply bit_resize_grow; lia). apply nth_app_repeat.
Qed.

Lemma grown_self s : DInv s -> grown s (d_ks s) s.
Proof. intros []. repeat split; auto. Qed.

Lemma d_ensure_id x : length (d_ch x) = ks_cap (d_ks x) -> length (d_add x) = ks_cap (d_ks x) -> d_ensure x = x.
Proof. intros H1 H2. unfold d_ensure. rewrite H1, H2, !Nat.eqb_refl. destruct x; reflexivity. Qed.

Lemma d_prepare_same t s : DInv s -> (t <= d_dt s)%Z -> d_prepare t s = s.
Proof.
  intros T H. unfold d_prepare. destruct (Z.leb_spec t (d_dt s)); [|lia]. apply d_ensure_id; [apply (di_lc s T)|apply (di_la s T)].
Qed.

Lemma d_prepare_roll t s :
  DInv s -> (d_dt s < t)%Z ->
  let s1 := d_prepare t s in
  DInv s1 /\ d_dt s1 = t /\ d_lmt s1 = d_lmt s /\
  (forall i, da s1 i = false /\ dr s1 i = false /\ dm s1 i = false /\ dp s1 i = dp s i /\ child_at s1 i = child_at s i) /\
  (forall i, dst s1 i = if pend (dst s i) then free_slot else dst s i).
Proof.
  intros T H. unfold d_prepare. destruct (Z.leb_spec t (d_dt s)); [lia|].
  destruct (k_erase_pending_spec (d_ks s) (di_k s T)) as [K1 [C1 S1]].
  rewrite d_ensure_id by (cbn [d_ks d_ch d_add]; rewrite ?clear_bits_length, C1; first [apply (di_lc s T)|apply (di_la s T)]).
  cbn zeta. split; [|repeat split; unfold da, dr, dm; cbn [d_add d_rem d_mod]; try apply bit_clear; apply S1].
  constructor; cbn [d_ks d_ch d_add d_rem d_mod d_pub]; rewrite ?clear_bits_length, ?C1;
    [exact K1|apply (di_lc s T)|apply (di_la s T)|apply (di_lr s T)|apply (di_lm s T)|apply (di_lp s T)|].
  intros i. unfold dst, da, dr, dm, dp, dv, child_at. cbn [d_ks d_ch d_add d_rem d_mod d_pub]. rewrite !bit_clear, S1.
  pose proof (di_bits s T i) as B. unfold dst, da, dr, dm, dp, dv, child_at in B.
  destruct (s_st (slot_at (d_ks s) i)) eqn:Q; unfold pend; rewrite Q; cbn [sstate_eqb]; rewrite ?Q; cbn; cbn in B; intuition congruence.
Qed.

Definition updc (i : nat) (o : option child) (l : list child) : list child :=
  match o with Some c => set_nth i c l | None => l end.

(* every branch of the storage operations ends in one of these *)
Definition d_put (i : nat) (ao ro mo po : option bool) (co : option child) (lmt kl : Z) (b : tsd) : tsd :=
  mkD (d_ks b) (updc i co (d_ch b)) (updb i ao (d_add b)) (updb i ro (d_rem b)) (updb i mo (d_mod b)) (updb i po (d_pub b))
      (d_dt b) lmt kl.

(* [s'] is [s] but for row [i].  The added and removed marks of the new row are not named: [DInv s'] and the [inDOld]
   clause say all that is used of them.  A user may leave [p] open too: for a live slot [DInv s'] makes it the
   validity of [c]. *)
Definition row_put (s s' : tsd) (i : nat) (x : sstate) (k : Z) (m p : bool) (c : child) : Prop :=
  DInv s' /\ d_dt s' = d_dt s /\ (forall k', inDOld s' k' <-> inDOld s k') /\
  (forall j, j <> i -> drow s' j = drow s j) /\
  dst s' i = mkSlot x k /\ dm s' i = m /\ dp s' i = p /\ child_at s' i = c.

Lemma d_update_slot s ks' b i k x' ao ro mo po co lmt kl :
  DInv s -> grown s ks' b -> k_set (d_ks s) i x' k ks' ->
  let a' := valb ao (da s i) in let r' := valb ro (dr s i) in let m' := valb mo (dm s i) in let p' := valb po (dp s i) in
  let c' := match co with Some c => c | None => child_at s i end in
  slot_ok x' a' r' m' p' (c_valid c') ->
  (oldp x' a' r' p' <-> oldp (s_st (dst s i)) (da s i) (dr s i) (dp s i)) ->
  row_put s (d_put i ao ro mo po co lmt kl b) i x' k m' p' c'.
Proof.
  intros T [E1 [Ed [El [Lc [La [Lr [Lm [Lp EB]]]]]]]] [K' [_ [Li [SL PRE]]]] a' r' m' p' c' OK OLD. set (sf := d_put _ _ _ _ _ _ _ _ _). unfold d_put in sf.
  fold (dst s i) in PRE.
  assert (ROW : forall j, dst sf j = (if j =? i then mkSlot x' k else dst s j) /\
    da sf j = (if j =? i then a' else da s j) /\ dr sf j = (if j =? i then r' else dr s j) /\
    dm sf j = (if j =? i then m' else dm s j) /\ dp sf j = (if j =? i then p' else dp s j) /\
    child_at sf j = (if j =? i then c' else child_at s j)).
  { intros j. unfold dst, da, dr, dm, dp, child_at, sf. cbn [d_ks d_ch d_add d_rem d_mod d_pub]. rewrite E1, SL.
    rewrite (proj2 (updb_spec i ao _ j _ La Li)), (proj2 (updb_spec i ro _ j _ Lr Li)),
            (proj2 (updb_spec i mo _ j _ Lm Li)), (proj2 (updb_spec i po _ j _ Lp Li)).
    destruct (EB j) as [B1 [B2 [B3 [B4 B5]]]]. destruct (EB i) as [C1 [C2 [C3 [C4 C5]]]].
    unfold da, dr, dm, dp, child_at in *. rewrite B1, B2, B3, B4, C1, C2, C3, C4. repeat split; auto.
    unfold c'. destruct co as [c|]; cbn [updc].
    - rewrite nth_set_nth, Lc. apply Nat.ltb_lt in Li. rewrite Li, andb_true_r. destruct (j =? i); auto.
    - rewrite B5. destruct (Nat.eqb_spec j i) as [->|]; auto. }
  assert (T' : DInv sf).
  { constructor.
    - unfold sf. cbn [d_ks]. rewrite E1. exact K'.
    - unfold sf. cbn [d_ks d_ch]. rewrite E1. destruct co; cbn [updc]; rewrite ?set_nth_length; exact Lc.
    - unfold sf. cbn [d_ks d_add]. rewrite E1. apply (updb_spec i ao _ 0 _ La Li).
    - unfold sf. cbn [d_ks d_rem]. rewrite E1. apply (updb_spec i ro _ 0 _ Lr Li).
    - unfold sf. cbn [d_ks d_mod]. rewrite E1. apply (updb_spec i mo _ 0 _ Lm Li).
    - unfold sf. cbn [d_ks d_pub]. rewrite E1. apply (updb_spec i po _ 0 _ Lp Li).
    - intros j. unfold dv. destruct (ROW j) as [R1 [R2 [R3 [R4 [R5 R6]]]]]. rewrite R1, R2, R3, R4, R5, R6.
      destruct (j =? i); [exact OK|apply (di_bits s T)]. }
  split; [exact T'|]. split; [unfold sf; cbn [d_dt]; exact Ed|]. split; [|split].
  - intros k'. rewrite !inDOld_rows. split; intros [j [Ek O]]; exists j; destruct (ROW j) as [R1 [R2 [R3 [_ [R5 _]]]]].
    + rewrite R1 in Ek. rewrite R1, R2, R3, R5 in O. destruct (Nat.eqb_spec j i) as [E|E]; [rewrite E|auto].
      apply OLD in O. split; [|exact O]. rewrite <- Ek. destruct O as [[X _]|[X _]]; rewrite X in PRE; exact PRE.
    + rewrite R1, R2, R3, R5. destruct (Nat.eqb_spec j i) as [E|E]; [rewrite E in Ek, O|auto].
      split; [|apply OLD, O]. rewrite <- Ek. symmetry. destruct O as [[X _]|[X _]]; rewrite X in PRE; exact PRE.
  - intros j Ej. destruct (ROW j) as [R1 [R2 [R3 [R4 [R5 R6]]]]]. apply Nat.eqb_neq in Ej. rewrite Ej in *. unfold drow. congruence.
  - destruct (ROW i) as [R1 [_ [_ [R4 [R5 R6]]]]]. rewrite Nat.eqb_refl in *. auto.
Qed.

Lemma tsd_eta b : mkD (d_ks b) (d_ch b) (d_add b) (d_rem b) (d_mod b) (d_pub b) (d_dt b) (d_lmt b) (d_kslmt b) = b.
Proof. destruct b; reflexivity. Qed.

Local Arguments bit : simpl never.

(* Exposes the next [let] of a model function applied in [H].  [d_insert_key] is a chain of five, each value used
   about ten times, so each is named or simplified before the next is exposed.  The name itself is unfolded in the
   goal, before [H] is introduced: the other way round the kernel evaluates the body instead of unfolding the name. *)
Ltac zeta1 H := match type of H with (let x := ?a in @?f x) = ?R => change (f a = R) in H; cbv beta in H end.

(* Slot [i] of the rolled state [s1] after [d_insert_key t k], inserted or not (the result [ch] is not recorded).  It
   was live: unchanged; pending erase: resurrected with its child, modified exactly if published and the child already
   written in this cycle (restore_modified_on_resurrection, the repair of KF-tsd-set-erase-set-C05); free: the default
   child, not modified. *)
Inductive inserted (t k : Z) (s1 : tsd) (i : nat) (s' : tsd) : Prop :=
  ins_put m p c :
    row_put s1 s' i SLive k m p c -> d_lmt s' = d_lmt s1 ->
    match s_st (dst s1 i) with
    | SLive => dst s1 i = mkSlot SLive k /\ m = dm s1 i /\ p = dp s1 i /\ c = child_at s1 i
    | SPend => dst s1 i = mkSlot SPend k /\ c = child_at s1 i /\ (m = true <-> p = true /\ c_lmt c = t)
    | SFree => c = child0 /\ m = false
    end -> inserted t k s1 i s'.

Lemma d_insert_key_spec t k s i ch s' :
  DInv (d_prepare t s) -> d_insert_key t k s = (i, ch, s') -> inserted t k (d_prepare t s) i s'.
Proof.
  intros T. cbv beta delta [d_insert_key]. intros H. zeta1 H. set (s1 := d_prepare t s) in *.
  destruct (k_insert k (d_ks s1)) as [r ks'] eqn:KI. zeta1 H.
  destruct (k_insert_spec k _ r ks' (di_k s1 T) KI) as [KS PRE].
  pose proof (d_ensure_grown s1 ks' T (proj1 (proj2 KS))) as G. zeta1 H.
  set (b := d_ensure _) in *. clearbody b. set (j := ir_slot r) in *. fold (dst s1 j) in PRE.
  pose proof KS as [_ [_ [Li [_ HM]]]]. fold (dst s1 j) in HM.
  pose proof (di_bits s1 T j) as B. unfold dv in B.
  pose proof G as [_ [_ [GL [Lc [_ [_ [_ [Lp GB]]]]]]]]. destruct (GB j) as [_ [Gr [_ [Gp Gc]]]]. clear GB.
  (* one put, whichever marks are set: left to each leaf are the two side conditions of [d_update_slot] and its case
     of [inserted] *)
  pose proof (fun ao ro mo po co kl OK OLD =>
    ins_put t k s1 j _ _ _ _ (d_update_slot s1 ks' b j k SLive ao ro mo po co (d_lmt b) kl T G KS OK OLD) GL) as STEP.
  apply Nat.ltb_lt in Li. pose proof (slot_eta (dst s1 j)) as Q.
  destruct (s_st (dst s1 j)) eqn:X; destruct PRE as [INS CON]; rewrite INS, CON in H; cbn in H; rewrite ?HM in Q.
  - (* a new slot: its child is not valid yet, nothing is published *)
    destruct B as [A0 [R0 [M0 P0]]].
    fold (dr b j) in H. rewrite Gr, R0, nth_set_nth, Nat.eqb_refl, Lc, Li in H. cbn in H. injection H as <- <- <-.
    apply (STEP None None None None (Some child0)); cbn [valb slot_ok]; unfold oldp; rewrite ?A0, ?R0, ?M0, ?P0; cbn; intuition congruence.
  - injection H as <- <- <-. rewrite <- (tsd_eta b).
    apply (STEP None None None None None); cbn [valb slot_ok]; unfold oldp; cbn in B; intuition congruence.
  - destruct B as [A0 [M0 [P0 RV]]].
    fold (dr b j) (child_at b j) in H. rewrite Gr, Gc in H.
    destruct (dr s1 j) eqn:R; [|destruct (c_valid (child_at s1 j)) eqn:V]; cbn in H;
      rewrite ?bit_set_nth, ?Nat.eqb_refl, ?Lp, ?Li in H; fold (dp b j) (child_at b j) in H; rewrite ?Gp, ?Gc, ?P0 in H;
      cbn [andb] in H; destruct (Z.eqb_spec (c_lmt (child_at s1 j)) t) as [E|E]; cbn in H; injection H as <- <- <-;
      (* removed in this cycle: that mark is dropped; else added if the child has a value; either way the
         modified mark comes back if the child was already written in this cycle *)
      [apply (STEP None (Some false) (Some true) (Some true) None)|apply (STEP None (Some false) None (Some true) None)
      |apply (STEP (Some true) None (Some true) (Some true) None)|apply (STEP (Some true) None None (Some true) None)
      |apply (STEP None None None None None)|apply (STEP None None None None None)];
      cbn [valb slot_ok]; unfold oldp; rewrite ?A0, ?R, ?M0, ?P0; cbn; intuition congruence.
Qed.

(* also when [k] was not live and nothing is removed; the result [ch] is not recorded either *)
Inductive removed (k : Z) (s1 : tsd) : tsd -> Prop :=
| rem_none : removed k s1 s1
| rem_put i p s' :
    dst s1 i = mkSlot SLive k -> d_lmt s' = d_lmt s1 -> row_put s1 s' i SPend k false p (child_at s1 i) -> removed k s1 s'.

Lemma d_remove_key_spec t k s ch s' :
  DInv (d_prepare t s) -> d_remove_key t k s = (ch, s') -> removed k (d_prepare t s) s'.
Proof.
  intros T H. unfold d_remove_key in H. set (s1 := d_prepare t s) in *.
  destruct (find_live (d_ks s1) k) as [i|] eqn:F; [|injection H as <- <-; constructor].
  pose proof (find_live_some _ _ _ F) as LV.
  destruct (k_remove_slot_spec i _ k (di_k s1 T) LV) as [ks' [KR KS]]. rewrite KR in H. cbn [negb] in H. fold (dst s1 i) in LV.
  pose proof (d_ensure_grown s1 ks' T (proj1 (proj2 KS))) as G. set (b := d_ensure _) in *. clearbody b.
  pose proof (di_bits s1 T i) as B. rewrite LV in B. cbn in B. destruct B as [R0 [AP [MP PV]]].
  pose proof G as [_ [_ [_ [_ [_ [_ [_ [_ GB]]]]]]]]. destruct (GB i) as [Ga [_ [_ [Gp _]]]]. clear GB.
  fold (dp b i) (da b i) in H. rewrite Gp, Ga in H.
  (* a published key is withdrawn: added in this cycle it loses that mark, else it is marked removed *)
  assert (E : (ch, s') = (true, d_put i (when (dp s1 i && da s1 i) false) (when (dp s1 i && negb (da s1 i)) true) (Some false)
                                   (when (dp s1 i) false) None (d_lmt b) (rec_mod t (d_kslmt b)) b))
    by (rewrite <- H; destruct (dp s1 i), (da s1 i); reflexivity).
  injection E as -> ->. eapply rem_put; [exact LV|apply G|].
  refine (d_update_slot s1 ks' b i k SPend _ _ _ _ _ _ _ T G KS _ _); rewrite ?LV; unfold oldp, dv in *;
    destruct (dp s1 i), (da s1 i); cbn; intuition congruence.
Qed.

Lemma d_prepare_live t s :
  DInv s -> let s1 := d_prepare t s in
  DInv s1 /\ forall i k, dst s i = mkSlot SLive k -> dst s1 i = mkSlot SLive k /\ child_at s1 i = child_at s i.
Proof.
  intros T. destruct (Z.leb_spec t (d_dt s)) as [L|L].
  - rewrite d_prepare_same by auto. auto.
  - destruct (d_prepare_roll t s T L) as [T1 [_ [_ [B1 S1]]]]. split; [exact T1|].
    intros i k Q. rewrite S1, Q. split; [reflexivity|apply B1].
Qed.

Definition with_child (i : nat) (c : child) (s : tsd) : tsd :=
  mkD (d_ks s) (set_nth i c (d_ch s)) (d_add s) (d_rem s) (d_mod s) (d_pub s) (d_dt s) (d_lmt s) (d_kslmt s).

(* rolling the delta window does not look at the children *)
Lemma d_prepare_with_child t i c s :
  DInv s -> d_prepare t (with_child i c s) = with_child i c (d_prepare t s).
Proof.
  intros T. unfold d_prepare, with_child. cbn [d_ks d_ch d_add d_rem d_mod d_pub d_dt d_lmt d_kslmt].
  destruct (k_erase_pending_spec (d_ks s) (di_k s T)) as [_ [C1 _]].
  destruct (t <=? d_dt s)%Z; rewrite !d_ensure_id; cbn [d_ks d_ch d_add d_rem d_mod d_pub d_dt d_lmt d_kslmt];
    rewrite ?set_nth_length, ?clear_bits_length, ?C1; try reflexivity; first [apply (di_lc s T)|apply (di_la s T)].
Qed.

Lemma tsd_child_write_first t i v s :
  (c_lmt (child_at s i) < t)%Z ->
  tsd_child_write t i v s = d_mark t (d_child_modified i t (with_child i (mkC v t) s)).
Proof.
  intros L. unfold tsd_child_write. destruct (Z.ltb_spec (c_lmt (child_at s i)) t); [|lia].
  cbn [d_ks d_ch d_add d_rem d_mod d_pub d_dt d_lmt d_kslmt]. unfold set_nth.
  rewrite (update_twice _ _ _ (fun _ => mkC v t)); reflexivity.
Qed.

Lemma c_valid_mk v t : (0 < t)%Z -> c_valid (mkC v t) = true.
Proof. intros H. unfold c_valid, MIN_DT. cbn [c_lmt]. destruct (Z.eqb_spec t 0); [lia|reflexivity]. Qed.

(* Against the rolled state like the other two storage operations: the first write of a cycle rolls the window itself
   (record_child_modified does).  That it publishes the key is left to [DInv] of the result ([p] is open). *)
Lemma tsd_child_write_first_spec t i v k s :
  DInv s -> dst s i = mkSlot SLive k -> (0 < t)%Z -> (c_lmt (child_at s i) < t)%Z ->
  let s1 := d_prepare t s in let s' := tsd_child_write t i v s in
  d_lmt s' = rec_mod t (d_lmt s1) /\ exists p, row_put s1 s' i SLive k true p (mkC v t).
Proof.
  intros T LV PT LT s1. destruct (d_prepare_live t s T) as [T1 P1]. fold s1 in T1, P1. destruct (P1 i k LV) as [LV1 _].
  pose proof (slot_lt s1 i SLive k LV1 ltac:(discriminate)) as Li.
  pose proof (di_bits s1 T1 i) as B. rewrite LV1 in B. cbn [s_st slot_ok] in B. destruct B as [R0 [AP [MP PV]]].
  assert (E : tsd_child_write t i v s =
              d_put i (when (negb (dp s1 i)) true) None (Some true) (when (negb (dp s1 i)) true) (Some (mkC v t))
                    (rec_mod t (d_lmt s1)) (d_kslmt s1) s1).
  { rewrite (tsd_child_write_first t i v s LT). unfold d_child_modified. cbn [with_child d_ks]. fold (dst s i). rewrite LV.
    change (mkD (d_ks s) (set_nth i (mkC v t) (d_ch s)) (d_add s) (d_rem s) (d_mod s) (d_pub s) (d_dt s) (d_lmt s) (d_kslmt s))
      with (with_child i (mkC v t) s).
    rewrite d_prepare_with_child by exact T. fold s1. cbn [live sstate_eqb s_st negb].
    replace (child_at (with_child i (mkC v t) s1) i) with (mkC v t).
    2:{ unfold child_at, with_child. cbn [d_ch]. rewrite nth_set_nth, Nat.eqb_refl, (di_lc s1 T1), (proj2 (Nat.ltb_lt _ _) Li). reflexivity. }
    rewrite (c_valid_mk v t PT). cbn [negb with_child d_pub d_rem]. fold (dp s1 i) (dr s1 i). rewrite R0.
    destruct (dp s1 i); reflexivity. }
  cbn zeta. rewrite E. split; [reflexivity|]. eexists.
  refine (d_update_slot s1 (d_ks s1) s1 i k SLive _ _ _ _ _ _ _ T1 (grown_self s1 T1)
            (k_set_self _ i SLive k (di_k s1 T1) LV1 ltac:(discriminate)) _ _);
    rewrite ?LV1, ?(c_valid_mk v t PT); unfold oldp; destruct (dp s1 i), (da s1 i); cbn; intuition congruence.
Qed.

(* a later write rolls nothing: against the state itself *)
Lemma tsd_child_write_again_spec t i v k s :
  DInv s -> dst s i = mkSlot SLive k -> (t <= c_lmt (child_at s i))%Z ->
  let s' := tsd_child_write t i v s in
  d_lmt s' = d_lmt s /\ row_put s s' i SLive k (dm s i) (dp s i) (mkC v (c_lmt (child_at s i))).
Proof.
  intros T LV GE. cbn zeta.
  replace (tsd_child_write t i v s) with (d_put i None None None None (Some (mkC v (c_lmt (child_at s i)))) (d_lmt s) (d_kslmt s) s)
    by (unfold tsd_child_write; destruct (Z.ltb_spec (c_lmt (child_at s i)) t); [lia|reflexivity]).
  split; [reflexivity|]. pose proof (di_bits s T i) as B. rewrite LV in B.
  refine (d_update_slot s (d_ks s) s i k SLive _ _ _ _ _ _ _ T (grown_self s T)
            (k_set_self _ i SLive k (di_k s T) LV ltac:(discriminate)) _ _); rewrite ?LV; [exact B|tauto].
Qed.

Lemma tsd_reserve_spec c s :
  DInv s -> let s' := tsd_reserve c s in
  DInv s' /\ d_dt s' = d_dt s /\ d_lmt s' = d_lmt s /\ forall i, drow s' i = drow s i.
Proof.
  intros T. unfold tsd_reserve.
  destruct (d_ensure_grown s (k_reserve c (d_ks s)) T) as [E1 [Ed [El [Lc [La [Lr [Lm [Lp EB]]]]]]]]; [rewrite k_reserve_cap; lia|].
  set (b := d_ensure _) in *.
  assert (ROW : forall i, drow b i = drow s i).
  { intros i. destruct (EB i) as [B1 [B2 [B3 [B4 B5]]]]. unfold drow, dst. rewrite E1, k_reserve_slot. congruence. }
  split; [|auto]. constructor; rewrite ?E1; auto; [apply k_reserve_inv, T|].
  intros i. pose proof (ROW i) as R. unfold drow in R. injection R as R1 R2 R3 R4 R5 R6.
  unfold dv. rewrite R1, R2, R3, R4, R5, R6. apply (di_bits s T).
Qed.

Lemma inDOld_ext s s' : (forall i, drow s' i = drow s i) -> forall k, inDOld s' k <-> inDOld s k.
Proof.
  intros E k. split; intros [i Q]; exists i; pose proof (E i) as R; unfold drow in R; injection R as E1 E2 E3 _ E4 _;
    [rewrite <- E1, <- E2, <- E3, <- E4|rewrite E1, E2, E3, E4]; exact Q.
Qed.

Lemma tsd_valid_keys_in s k : DInv s -> (In k (tsd_valid_keys s) <-> inP s k).
Proof.
  intros T. unfold tsd_valid_keys, inP.
  rewrite (keys_where_state (d_ks s) live (dv s) SLive); auto; [|discriminate|intros i A; apply live_iff; apply andb_true_iff in A; apply A].
  split; intros [i [Q V]]; exists i; (split; [exact Q|]); pose proof (di_bits s T i) as B; fold (dst s i) in Q; rewrite Q in B;
    destruct B as [_ [_ [_ B]]]; congruence.
Qed.

Lemma tsd_keys_in s k : In k (tsd_keys s) <-> exists i, dst s i = mkSlot SLive k.
Proof. exact (live_keys_in _ k). Qed.

Lemma tsd_raw_added_in s k : DInv s -> (In k (tsd_raw_added s) <-> inDA s k).
Proof.
  intros T. apply (keys_where_state (d_ks s) constructed (da s) SLive); auto; [discriminate|].
  intros i A. pose proof (di_bits s T i) as B. fold (dst s i) in *. unfold constructed in A.
  destruct (s_st (dst s i)); cbn in A, B; intuition congruence.
Qed.

Lemma tsd_raw_removed_in s k : DInv s -> (In k (tsd_raw_removed s) <-> inDR s k).
Proof.
  intros T. apply (keys_where_state (d_ks s) constructed (dr s) SPend); auto; [discriminate|].
  intros i A. pose proof (di_bits s T i) as B. fold (dst s i) in *. unfold constructed in A.
  destruct (s_st (dst s i)); cbn in A, B; intuition congruence.
Qed.

Lemma tsd_raw_modified_in s k : In k (tsd_raw_modified s) <-> inDM s k.
Proof.
  apply (keys_where_state (d_ks s) live (dm s) SLive); auto; [discriminate|].
  intros i A. apply live_iff. apply andb_true_iff in A. apply A.
Qed.

Local Open Scope Z_scope.

Fixpoint dincreasing (t0 : Z) (h : list (Z * list dop)) : Prop :=
  match h with
  | [] => True
  | (t, _) :: r => t0 < t /\ dincreasing t r
  end.

Fixpoint tsd_trace (s : tsd) (h : list (Z * list dop)) : list (tsd * Z * list dop * tsd) :=
  match h with
  | [] => []
  | (t, ops) :: r => let s' := tsd_cycle t ops s in (s, t, ops, s') :: tsd_trace s' r
  end.

(* "value' = value with the delta (removed keys, modified items) applied": every key that is neither removed
   nor modified keeps its value (and stays absent if it was absent). *)
Definition tsd_apply_delta_ok (a : tsd) (t : Z) (b : tsd) : Prop :=
  forall k, ~ In k (tsd_removed t b) -> ~ In k (tsd_modified_keys t b) -> tsd_get b k = tsd_get a k.

