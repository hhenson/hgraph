(* PushQBridge.v — two facts about the ghost acceptance log that tie its order to what a harness can observe
   from outside (tickets around the send calls).  [returned_accepted_is_logged] is clause [k_log] of the invariant
   at a reachable state, stated with [admitted], the name Props/C16.v uses for [PushQInv.accepted_path] (the same
   function).  With it, [run_log] and delivered_is_prefix_of_accepted, [accepted_before_begin_is_ahead] gives: if x's
   send returned "accepted" before y's send began and y is delivered, then x is delivered, earlier.  These are
   inequalities between positions in the ghost logs, the ingredients of the acceptor's clause [ok_fifo]; no history
   is built from a run, here or elsewhere.  [LoggedL] and [loggedL_mono] occur in no statement: [LoggedL l acc] is
   the clause [k_log] of [Calls l acc] written with [admitted]. *)
Require Import Base PushQ PushQInv PushQInv2 PushQFacts.
Local Open Scope nat_scope.

Definition admitted (x : ppc) : bool :=
  match x with PMark | PNotify | PLeave 1%Z => true | _ => false end.

Definition LoggedL (l : list prod) (acc : list entry) : Prop :=
  forall q, q < length l -> admitted (pc (nth q l idle_prod)) = true -> In (cur (nth q l idle_prod)) acc.
Lemma loggedL_mono l acc acc' : LoggedL l acc -> (forall e, In e acc -> In e acc') -> LoggedL l acc'.
Proof. intros L H q Hq Ha. apply H. apply L; assumption. Qed.

Lemma returned_accepted_is_logged pl c n ls : let s := reach pl c n ls in
  forall p, p < length (prods s) -> admitted (pc (get_prod p s)) = true -> In (cur (get_prod p s)) (accepted s).
Proof. intros s. exact (k_log (i_calls (inv_reach pl c n ls))). Qed.

Theorem accepted_before_begin_is_ahead s1 q v k ls2 :
  Inv s1 -> pc (get_prod q s1) = PIdle -> (forall l, In l ls2 -> l <> LCStart) ->
  let s2 := run ls2 (do_step s1 (LBegin q v k)) in
  let y := mkEntry q (nsent (get_prod q s1)) v in
  forall i j e, In e (accepted s1) -> nth_error (accepted s2) i = Some e -> nth_error (accepted s2) j = Some y -> i < j.
Proof.
  intros I1 Hidle Hl s2 y i j e He Hi Hj.
  pose proof (inv_run (LBegin q v k :: ls2) s1 I1) as I2. change (run (LBegin q v k :: ls2) s1) with s2 in I2.
  (* the log at s2 extends the log at s1 *)
  destruct (run_log (LBegin q v k :: ls2) s1) as [[m Em] _].
  { intros l [<-|H]; [discriminate|exact (Hl l H)]. }
  change (run (LBegin q v k :: ls2) s1) with s2 in Em.
  (* y is not in the log at s1: its sequence number has not been used yet *)
  assert (Hy : ~ In y (accepted s1)).
  { intros Hin. pose proof (k_seq (i_calls I1) y Hin) as B. cbn [e_pid e_seq y] in B. unfold bound in B.
    fold (get_prod q s1) in B. rewrite Hidle in B. cbn [pre_adm] in B. lia. }
  pose proof (PPS_NoDup _ (k_pps (i_calls I2))) as ND. rewrite Em in *.
  destruct (In_nth_error _ _ He) as [i0 Hi0].
  assert (Hi0lt : i0 < length (accepted s1)) by (apply nth_error_Some; congruence).
  assert (Ei : i = i0).
  { rewrite NoDup_nth_error in ND. symmetry. apply ND.
    - rewrite app_length. lia.
    - rewrite nth_error_app1 by exact Hi0lt. rewrite Hi0, Hi. reflexivity. }
  subst i.
  destruct (Nat.lt_ge_cases j (length (accepted s1))) as [Hjl|Hjl]; [|lia].
  exfalso. apply Hy. rewrite nth_error_app1 in Hj by exact Hjl. eapply nth_error_In. exact Hj.
Qed.
