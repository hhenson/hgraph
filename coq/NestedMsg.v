(* NestedMsg.v — the message (error code) an exception carries is never rewritten on its way up: whatever
   code leaves the evaluation of a graph, at any depth below, is the code raised by the evaluation of one
   plain node (or the engine's own "schedule in the past" / fuel codes of the tail) - nested levels pass it
   through unchanged.  With NestedFacts.error_tick: the message ticked by try_except IS the message thrown,
   whatever nesting depth lies between (Props/C15.try_except_ticks_the_thrown_message). *)
Require Import Base Sched Nested NestedWitness NestedFacts.

(* no try_except (kind 2) and no re-entering owner (kind 4) in the graphs with id >= c: nothing between the
   thrower and the level we look at catches or resumes ([NestedInv.no_try T] is [no_try_from 0 T]) *)
Definition no_try_from (c : nat) (T : tcfg) : Prop :=
  forall g i, (c <= g)%nat -> c_kind (ncfg_at T g i) <> 2 /\ c_kind (ncfg_at T g i) <> 4.

Definition raised_by_node (T : tcfg) (beh : behaviour) (e : Z) : Prop :=
  exists g i w0, ok w0 = true /\ is_nested (ncfg_at T g i) = false
    /\ w_err (if c_kind (ncfg_at T g i) =? 5 then eval_pauser T beh g i w0 else eval_plain T beh g i w0) = e.

Definition origin (T : tcfg) (beh : behaviour) (e : Z) : Prop := e = 9 \/ e = 3 \/ raised_by_node T beh e.

Section MSG.
  Variable T : tcfg.
  Variable beh : behaviour.
  Hypothesis HT : wf_tree T.

  Definition ev_origin (c : nat) (ev : nat -> Z -> world -> world) : Prop :=
    forall g t w, (c <= g)%nat -> ok w = true -> w_err (ev g t w) <> 0 -> origin T beh (w_err (ev g t w)).

  Lemma relink_err g i w : w_err (relink T g i w) = w_err w.
  Proof. unfold relink. destruct (_ && _); auto. rewrite notify_link_err; auto. apply HT. Qed.

  Lemma visit_origin c ev g i w : no_try_from c T -> (c <= g)%nat -> ev_origin c ev -> ok w = true ->
    ok (visit T beh ev g i w) = true \/ origin T beh (w_err (visit T beh ev g i w)).
  Proof.
    intros HN Hg Hev Hok. unfold visit; cbv zeta.
    destruct (_ =? _); [|left; destruct (_ <? _); [destruct (_ <? _)|]; exact Hok].
    match goal with |- context [eval_node T beh ev g i ?we'] => set (we := we') end.
    destruct (ok (eval_node T beh ev g i we)) eqn:Ex; auto. right. revert Ex.
    unfold eval_node. destruct (is_nested (ncfg_at T g i)) eqn:E.
    - unfold eval_nested. destruct (negb (n_started _)); [intros Ex; change (ok w = false) in Ex; congruence|].
      replace (c_kind (ncfg_at T g i) =? 1) with true by (unfold is_nested in E; destruct (HN g i Hg); lia).
      intros Ex. apply Hev; [pose proof (child_gt T g i HT E); lia|unfold ok; rewrite relink_err; exact Hok|].
      unfold ok in Ex. lia.
    - intros _. right. right. exists g, i, we. auto.
  Qed.

  Lemma scan_origin c ev g : no_try_from c T -> (c <= g)%nat -> ev_origin c ev -> forall k i w,
    ok w = true -> w_err (scan T beh ev g i k w) <> 0 -> origin T beh (w_err (scan T beh ev g i k w)).
  Proof.
    intros HN Hg Hev k i w Hok Hne.
    destruct (scan_rule T beh (fun _ w' => ok w' = true \/ origin T beh (w_err w')) ev g) with (k := k) (i := i) (w := w)
      as (_ & _ & [H|H] & _); auto.
    - intros j w' Hw _. apply (visit_origin c); auto.
    - unfold ok in H. lia.
  Qed.

  Lemma eval_graph_origin c rr : no_try_from c T -> forall f, ev_origin c (eval_graph f T beh rr).
  Proof.
    intros HN. induction f as [|f IH]; intros g t w Hg Hok Hne; [left; reflexivity|].
    rewrite eval_graph_S in *. cbv zeta in *.
    match type of Hne with context [scan _ _ ?ev _ ?st ?n ?w1] => set (w2 := scan T beh ev g st n w1) in *;
      assert (H2 := scan_origin c ev g HN Hg IH n st w1) end.
    destruct (ok w2) eqn:E2.
    - destruct (cycle_end_err T (proj1 HT) g w2 E2) as [H|[H|H]]; rewrite H in *; [congruence|right; left|left]; reflexivity.
    - unfold cycle_end in *. rewrite E2 in *. apply H2; [|unfold ok in E2; fold w2; lia].
      unfold cycle_begin. destruct (resuming _ _); exact Hok.
  Qed.
End MSG.
