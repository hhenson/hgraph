(* MapEvalFacts.v — PARTIAL refinement of the per-slot mirror MapEval to the specification MapSpec:
   each of the three things the map node does to an entry computes exactly the corresponding branch of
   [MapSpec.key_step], PROVIDED the evaluation set contains every child that has something due - which is
   what MapSched's theorems establish for the scheduling mirror.
   The lifting from one entry to the slot store (distinct live keys occupy distinct slots; a created slot
   is free - the key set's contract) and the identification of MapSched's abstract [e_next] with [b_next]
   of the instance are MapNodeFacts.v's [Link]. *)
Require Import Base MapSpec MapFacts MapEval.

Section Refine.
Context {S : Type}.

Lemma refines_remove_partial (B : body S) t bc (e : sentry S) vals ops :
  se_started e = true ->
  any_bound (new_vals 0 vals ops) = false ->
  let '(e', ev) := slot_remove e in
  key_step B t bc (se_key e) (abs_entry vals (Some e)) ops = (abs_entry (map fst (new_vals 0 vals ops)) (Some e'), ev).
Proof.
  intros Hs Hb. unfold slot_remove, key_step, abs_entry. rewrite Hs. cbn [k_inst k_vals k_valid se_started].
  rewrite Hb. reflexivity.
Qed.

(* the evaluation set always contains a new child (the second [true]): it is a candidate, and due in the cycle that creates it *)
Lemma refines_create_partial (B : body S) t bc key vals ops (old : option (sentry S)) :
  match old with Some e => se_started e = false | None => True end ->
  any_bound (new_vals 0 vals ops) = true ->
  let '(e', ev) := slot_eval B t (new_vals 0 vals ops ++ bc) true true (slot_create B key) in
  key_step B t bc key (abs_entry vals old) ops = (abs_entry (map fst (new_vals 0 vals ops)) (Some e'), ev).
Proof.
  intros Hold Hb. unfold slot_eval, slot_create, key_step. cbn [se_started se_inst se_key se_valid andb orb].
  assert (Ha : k_inst (abs_entry vals old) = None /\ k_vals (abs_entry vals old) = vals /\ k_valid (abs_entry vals old) = false).
  { unfold abs_entry. destruct old as [e|]; [rewrite Hold|]; cbn; auto. }
  destruct Ha as [A1 [A2 A3]]. rewrite A1, A2, A3, Hb. cbn [is_some negb orb].
  destruct (b_step B (b_init B) _) as [s' o]. destruct o; reflexivity.
Qed.

Lemma refines_eval_partial (B : body S) t bc (e : sentry S) vals ops in_set :
  se_started e = true ->
  any_bound (new_vals 0 vals ops) = true ->
  (any_mod (new_vals 0 vals ops ++ bc) || wake_due B (se_inst e) t = true -> in_set = true) ->
  let '(e', ev) := slot_eval B t (new_vals 0 vals ops ++ bc) false in_set e in
  key_step B t bc (se_key e) (abs_entry vals (Some e)) ops = (abs_entry (map fst (new_vals 0 vals ops)) (Some e'), ev).
Proof.
  intros Hs Hb Hset. unfold slot_eval, key_step, abs_entry. rewrite Hs. cbn [k_inst k_vals k_valid andb orb is_some negb].
  rewrite Hb.
  destruct (any_mod (new_vals 0 vals ops ++ bc) || wake_due B (se_inst e) t) eqn:Etrig.
  - rewrite (Hset eq_refl). cbn [andb].
    destruct (b_step B (se_inst e) _) as [s' o]. destruct o; reflexivity.
  - rewrite andb_false_r. rewrite Hs. reflexivity.
Qed.

(* why the scheduling mechanism matters: a child left out of the evaluation set keeps its entry, whatever is due.
   (That [key_step] steps the instance then - [wake_due] is one of its triggers - is not part of the statement.) *)
Lemma missed_child_breaks_refinement (B : body S) t bc (e : sentry S) vals ops :
  se_started e = true -> wake_due B (se_inst e) t = true ->
  fst (slot_eval B t (new_vals 0 vals ops ++ bc) false false e) = e.
Proof. intros Hs Hw. unfold slot_eval. rewrite Hs. cbn [andb]. reflexivity. Qed.

End Refine.
