(* MapNodeFacts.v — the whole-node mirror MapNode (slot store + MapSched scheduling) refines the
   specification MapSpec: for every key, one cycle of the node computes [key_step]; hence the node's log
   (the output dictionary stream) equals the specification's, for every body family whose pending wake-ups
   are consumed when due, every key universe, every history and every choice of the environment
   (slot allocation, sparse candidate hints) that respects the engine's and the key set's contracts. *)
Require Import Base MapSpec MapFacts MapSched MapSchedFacts MapEval MapEvalFacts MapNode.

Section NodeFacts.
Context {S : Type}.
Variable B : Z -> body S.
Variable keys : list Z.
(* a step of the body (at a time within the run window) consumes the wake-ups that were due and leaves only
   later ones, before MAX_DT *)
Hypothesis Hwake : forall j s bi, bi_now bi < MAX_ET ->
  match b_next (B j) (fst (b_step (B j) s bi)) with Some w => bi_now bi < w /\ w < MAX_DT | None => True end.

(* holds at cycle boundaries *)
Definition Link (n : nstate S) : Prop :=
  Good (n_sch n) /\
  (forall j s, n_slot n j = Some s -> In j keys /\ exists e, n_store n s = Some e /\ se_key e = j /\ se_started e = true) /\
  (forall s e, n_store n s = Some e -> se_started e = true -> n_slot n (se_key e) = Some s) /\
  (forall s e, n_store n s = Some e -> se_started e = true ->
       exists se, s_ent (n_sch n) s = Some se /\ e_started se = true /\
                  e_next se = wake_z (b_next (B (se_key e)) (se_inst e)) /\ e_next se <= MAX_DT) /\
  (forall s se, s_ent (n_sch n) s = Some se -> e_started se = true ->
       exists e, n_store n s = Some e /\ se_started e = true) /\
  (forall j, In j keys -> is_some (n_slot n j) = bound_somewhere (n_vals n j)).

Lemma wake_z_due (b : body S) (i : S) t : t < MAX_DT -> wake_due b i t = (wake_z (b_next b i) <=? t).
Proof. intros Ht. unfold wake_due, wake_z. destruct (b_next b i); [reflexivity|]. symmetry. apply Z.leb_gt. exact Ht. Qed.

Lemma find_map_add (f : Z -> nat) t l k :
  find (fun a => Nat.eqb (a_slot a) k) (map (fun j => mkAdd (f j) t false) l) =
  option_map (fun j => mkAdd (f j) t false) (find (fun j => Nat.eqb (f j) k) l).
Proof. induction l as [|j r IH]; cbn [map find a_slot]; [reflexivity|]. destruct (Nat.eqb (f j) k); [reflexivity|exact IH]. Qed.

Lemma slot_eval_key (b : body S) t args first inset (e : sentry S) :
  se_key (fst (slot_eval b t args first inset e)) = se_key e.
Proof. unfold slot_eval. destruct (_ && _); [|reflexivity]. destruct (b_step b (se_inst e) _) as [s' o]. destruct o; reflexivity. Qed.

Lemma slot_eval_started (b : body S) t args first inset (e : sentry S) :
  se_started (fst (slot_eval b t args first inset e)) = se_started e.
Proof.
  unfold slot_eval. destruct (se_started e) eqn:E; [|exact E].
  destruct (_ && _); [|exact E]. destruct (b_step b (se_inst e) _) as [s' o]. destruct o; reflexivity.
Qed.

Lemma slot_eval_stepped (b : body S) t args first (e : sentry S) :
  se_started e = true -> first || any_mod args || wake_due b (se_inst e) t = true ->
  se_inst (fst (slot_eval b t args first true e)) = fst (b_step b (se_inst e) (mkBI t (se_key e) first args)).
Proof.
  intros Hs Ht. unfold slot_eval. rewrite Hs, Ht. cbn [andb].
  destruct (b_step b (se_inst e) _) as [s' o]. destruct o; reflexivity.
Qed.

Lemma slot_eval_skipped (b : body S) t args first (e : sentry S) :
  fst (slot_eval b t args first false e) = e.
Proof. unfold slot_eval. rewrite andb_false_r. reflexivity. Qed.

(* the one use of the hypothesis on bodies; [key_refines] and what it calls stay clear of it, so that one cycle refines
   the specification for every body family *)
Lemma stepped_wake j i bi : bi_now bi < MAX_ET ->
  let w := wake_z (b_next (B j) (fst (b_step (B j) i bi))) in
  clamp_after (bi_now bi) w = w /\ w <= MAX_DT.
Proof.
  intros Ht. pose proof (Hwake j i bi Ht) as H. cbn zeta. unfold wake_z, clamp_after. unfold MAX_ET in Ht.
  destruct (b_next (B j) (fst (b_step (B j) i bi))) as [w|].
  - destruct (w <=? bi_now bi) eqn:E; lia.
  - destruct (MAX_DT <=? bi_now bi); lia.
Qed.

Section OneCycle.
Variable n : nstate S.
Variable c : cyc.
Variable x : env.
Hypothesis HL : Link n.
Hypothesis Hok : step_ok keys n c x.

Let t := c_t c.

Lemma t_lt : t < MAX_DT.
Proof. destruct Hok as [_ [H _]]. unfold MAX_ET in H. lia. Qed.

Lemma live_slot_unique j j' s : n_slot n j = Some s -> n_slot n j' = Some s -> j = j'.
Proof.
  destruct HL as [_ [L1 _]]. intros H1 H2.
  destruct (L1 j s H1) as [_ [e [E1 [E2 _]]]]. destruct (L1 j' s H2) as [_ [e' [E1' [E2' _]]]]. congruence.
Qed.

(* [c_pushed] and [c_rm] have this shape *)
Lemma in_live_slots (f : Z -> bool) (g : Z -> nat -> list nat) s :
  (forall j s', g j s' = if f j then [s'] else []) ->
  In s (flat_map (fun j => match n_slot n j with Some s' => g j s' | None => [] end) keys) <->
  exists j, In j keys /\ n_slot n j = Some s /\ f j = true.
Proof.
  intros Hg. rewrite in_flat_map. split; intros (j & Hj & H); exists j; (split; [exact Hj|]).
  - destruct (n_slot n j) as [s'|]; [|destruct H]. rewrite Hg in H. destruct (f j); [|destruct H]. destruct H as [<-|[]]. auto.
  - destruct H as [-> Hf]. rewrite Hg, Hf. left. reflexivity.
Qed.

Lemma live_slots_mem (f : Z -> bool) (g : Z -> nat -> list nat) j s :
  (forall j s', g j s' = if f j then [s'] else []) -> In j keys -> n_slot n j = Some s ->
  existsb (Nat.eqb s) (flat_map (fun j => match n_slot n j with Some s' => g j s' | None => [] end) keys) = f j.
Proof.
  intros Hg Hin Hs. apply eq_true_iff_eq. rewrite mem_in, (in_live_slots f g s Hg). split.
  - intros (j' & _ & Hs' & Hf). rewrite (live_slot_unique j j' s Hs Hs'). exact Hf.
  - intros Hf. exists j. auto.
Qed.

Lemma pushed_mem j s : In j keys -> n_slot n j = Some s ->
  existsb (Nat.eqb s) (c_pushed keys n c) = any_mod (c_args n c j).
Proof. apply (live_slots_mem (fun j => any_mod (c_args n c j))). reflexivity. Qed.

Lemma rm_spec j (s' : nat) : (if c_bound n c j then [] else [s']) = if negb (c_bound n c j) then [s'] else [].
Proof. destruct (c_bound n c j); reflexivity. Qed.

Lemma rm_mem j s : In j keys -> n_slot n j = Some s ->
  existsb (Nat.eqb s) (c_rm keys n c) = negb (c_bound n c j).
Proof. apply (live_slots_mem (fun j => negb (c_bound n c j))), rm_spec. Qed.

Lemma rm_only_live s : existsb (Nat.eqb s) (c_rm keys n c) = true ->
  exists j, In j keys /\ n_slot n j = Some s /\ c_bound n c j = false.
Proof.
  intros H. apply mem_in, (in_live_slots (fun j => negb (c_bound n c j)) _ _ rm_spec) in H as (j & Hj & Hs & Hb).
  exists j. rewrite negb_true_iff in Hb. auto.
Qed.

Lemma adk_in j : In j (c_adk keys n c) <-> In j keys /\ n_slot n j = None /\ c_bound n c j = true.
Proof.
  unfold c_adk. rewrite filter_In, andb_true_iff. destruct (n_slot n j); cbn [is_some negb]; intuition discriminate.
Qed.

Lemma created_spec s : match c_created keys n c x s with
                       | Some j => In j (c_adk keys n c) /\ x_alloc x j = s
                       | None => forall j, In j (c_adk keys n c) -> x_alloc x j <> s
                       end.
Proof.
  unfold c_created. destruct (find _ _) as [j|] eqn:E.
  - apply find_some in E. destruct E as [E1 E2]. apply Nat.eqb_eq in E2. auto.
  - intros j Hj He. apply (find_none _ _ E) in Hj. rewrite He, Nat.eqb_refl in Hj. discriminate.
Qed.

Lemma created_alloc j : In j (c_adk keys n c) -> c_created keys n c x (x_alloc x j) = Some j.
Proof.
  intros Hj. pose proof (created_spec (x_alloc x j)) as H. destruct (c_created keys n c x (x_alloc x j)) as [j'|].
  - destruct H as [H1 H2]. apply adk_in in Hj. apply adk_in in H1. destruct Hok as [_ [_ [_ Hinj]]].
    f_equal. apply Hinj; tauto.
  - exfalso. apply (H j Hj). reflexivity.
Qed.

Lemma created_not_live s e : n_store n s = Some e -> se_started e = true -> c_created keys n c x s = None.
Proof.
  intros He Hs. pose proof (created_spec s) as H. destruct (c_created keys n c x s) as [j|]; [|reflexivity].
  destruct H as [H1 H2]. apply adk_in in H1. destruct Hok as [_ [_ [Hfree _]]].
  specialize (Hfree j (proj1 H1) (proj1 (proj2 H1))). rewrite H2, He in Hfree. congruence.
Qed.

Lemma store_continuing s e : n_store n s = Some e -> se_started e = true -> c_bound n c (se_key e) = true ->
  c_store_rc B keys n c x s = Some e /\ c_first keys n c x s = false.
Proof. intros He Hs Hb. unfold c_store_rc, c_first. rewrite (created_not_live s e He Hs), He, Hs, Hb. auto. Qed.

Lemma store_created j : In j (c_adk keys n c) ->
  c_store_rc B keys n c x (x_alloc x j) = Some (slot_create (B j) j) /\ c_first keys n c x (x_alloc x j) = true.
Proof. intros Hj. unfold c_store_rc, c_first. rewrite (created_alloc j Hj). auto. Qed.

Lemma store_cases s e_rc : c_store_rc B keys n c x s = Some e_rc -> se_started e_rc = true ->
  (exists e, n_store n s = Some e /\ se_started e = true /\ c_bound n c (se_key e) = true /\ e_rc = e) \/
  (exists j, In j (c_adk keys n c) /\ x_alloc x j = s /\ e_rc = slot_create (B j) j).
Proof.
  unfold c_store_rc. intros H Hs. pose proof (created_spec s) as Hc.
  destruct (c_created keys n c x s) as [j|]; [right; exists j; injection H as <-; tauto|left].
  destruct (n_store n s) as [e|]; [|discriminate]. exists e.
  destruct (se_started e && negb (c_bound n c (se_key e))) eqn:Eb; injection H as <-; [discriminate Hs|].
  rewrite Hs in Eb. destruct (c_bound n c (se_key e)); [auto|discriminate].
Qed.

Lemma sch2_facts :
  Good (c_sch2 keys n c) /\ s_now (c_sch2 keys n c) = t /\ s_done (c_sch2 keys n c) = false /\
  forall s, s_ent (c_sch2 keys n c) s =
            if existsb (Nat.eqb s) (c_pushed keys n c) then option_map (notified t) (s_ent (n_sch n) s) else s_ent (n_sch n) s.
Proof.
  destruct HL as [HG _]. destruct Hok as [Htick _]. apply (good_tick t) in HG. revert HG.
  unfold c_sch2, do_tick. fold t in Htick |- *. rewrite Htick. set (s1 := mkS t false _ _ _ _). intros HG. split; [apply push_fold_good, HG|].
  exact (push_fold_notified (c_pushed keys n c) s1 eq_refl).
Qed.

(* t <= the pending wake-up: the tick could not step over it ([tick_cannot_skip]) *)
Lemma live_slot_sched s e : n_store n s = Some e -> se_started e = true ->
  In (se_key e) keys /\ n_slot n (se_key e) = Some s /\
  exists se2, s_ent (c_sch2 keys n c) s = Some se2 /\ e_started se2 = true /\
    t <= wake_z (b_next (B (se_key e)) (se_inst e)) /\
    e_next se2 = (if any_mod (c_args n c (se_key e)) then t else wake_z (b_next (B (se_key e)) (se_inst e))).
Proof.
  intros He Hs. destruct HL as [HG [L1 [L2 [L3 _]]]].
  pose proof (L2 s e He Hs) as Hslot. destruct (L1 _ _ Hslot) as [Hin _].
  split; [exact Hin|]. split; [exact Hslot|].
  destruct (L3 s e He Hs) as (se & S1 & S2 & <- & S4).
  assert (Ht : t <= e_next se).
  { destruct Hok as [Htick _]. pose proof t_lt. destruct (Z_lt_le_dec (e_next se) MAX_DT) as [Hlt|Hge]; [|lia].
    pose proof (tick_cannot_skip t (n_sch n) s se HG S1 S2 Hlt Htick). lia. }
  destruct sch2_facts as (_ & _ & _ & ->). rewrite S1, (pushed_mem (se_key e) s Hin Hslot).
  destruct (any_mod (c_args n c (se_key e))); cbn [option_map]; unfold notified; rewrite ?S2; eexists; (split; [reflexivity|]); cbn [e_started e_next]; repeat split; auto; lia.
Qed.

Lemma sch2_started_store k se2 : s_ent (c_sch2 keys n c) k = Some se2 -> e_started se2 = true ->
  exists e, n_store n k = Some e /\ se_started e = true.
Proof.
  destruct HL as (_ & _ & _ & _ & L4 & _). destruct sch2_facts as (_ & _ & _ & ->).
  destruct (s_ent (n_sch n) k) as [se|] eqn:E; [|destruct (existsb _ _); discriminate]. intros H2 Hs. apply (L4 k se E).
  unfold notified in H2. cbn [option_map] in H2. destruct (existsb _ _), (e_started se) eqn:Es; try reflexivity; injection H2 as <-; congruence.
Qed.

(* a child created at t reports t ([c_ad]): [clamp_next] tests strictly, so that time stays and the child is due in its
   own cycle; after an evaluation [clamp_after] drops it *)
Definition fresh_t : entry := mkE true MAX_DT t.

Notation s0 := (reconcile (c_rm keys n c) (c_ad keys n c x) (c_sch2 keys n c)).

Lemma rec_ent k :
  s_ent s0 k =
  let ent_r := if existsb (Nat.eqb k) (c_rm keys n c) then option_map (fun _ => stopped_entry) (s_ent (c_sch2 keys n c) k)
               else s_ent (c_sch2 keys n c) k in
  match c_created keys n c x k with
  | Some _ => match ent_r with Some e => if e_started e then Some e else Some fresh_t | None => Some fresh_t end
  | None => ent_r
  end.
Proof.
  rewrite reconcile_quiet by (intros a Ha; apply in_map_iff in Ha as (j & <- & _); reflexivity).
  destruct sch2_facts as [_ [-> _]]. unfold c_ad, c_created. rewrite find_map_add. cbn zeta.
  destruct (find _ _); [|reflexivity]. unfold created, fresh_entry, clamp_next, fresh_t. cbn [option_map a_next]. fold t.
  rewrite Z.ltb_irrefl. reflexivity.
Qed.

Lemma rec_continuing s e : n_store n s = Some e -> se_started e = true -> c_bound n c (se_key e) = true ->
  s_ent s0 s = s_ent (c_sch2 keys n c) s.
Proof.
  intros He Hs Hb. destruct (live_slot_sched s e He Hs) as [Hin [Hslot _]].
  rewrite rec_ent. cbn zeta. rewrite (created_not_live s e He Hs), (rm_mem _ _ Hin Hslot), Hb. reflexivity.
Qed.

Lemma rec_removed s e : n_store n s = Some e -> se_started e = true -> c_bound n c (se_key e) = false ->
  s_ent s0 s = Some stopped_entry.
Proof.
  intros He Hs Hb. destruct (live_slot_sched s e He Hs) as [Hin [Hslot [se2 [H2 _]]]].
  rewrite rec_ent. cbn zeta. rewrite (created_not_live s e He Hs), (rm_mem _ _ Hin Hslot), Hb, H2. reflexivity.
Qed.

Lemma rec_created j : In j (c_adk keys n c) -> s_ent s0 (x_alloc x j) = Some fresh_t.
Proof.
  intros Hj. rewrite rec_ent. cbn zeta. rewrite (created_alloc j Hj).
  apply adk_in in Hj. destruct Hj as [Hin [Hnone _]]. destruct Hok as [_ [_ [Hfree _]]]. specialize (Hfree j Hin Hnone).
  destruct (existsb (Nat.eqb (x_alloc x j)) (c_rm keys n c)).
  - destruct (s_ent (c_sch2 keys n c) (x_alloc x j)); reflexivity.
  - destruct (s_ent (c_sch2 keys n c) (x_alloc x j)) as [se2|] eqn:E2; [|reflexivity].
    destruct (e_started se2) eqn:Es; [|reflexivity].
    destruct (sch2_started_store _ _ E2 Es) as [e [E1 E3]]. rewrite E1 in Hfree. congruence.
Qed.

Lemma rec_other k e0 : s_ent s0 k = Some e0 -> e_started e0 = true ->
  (exists e, n_store n k = Some e /\ se_started e = true /\ c_bound n c (se_key e) = true) \/
  (exists j, In j (c_adk keys n c) /\ x_alloc x j = k).
Proof.
  intros H0 Hs. rewrite rec_ent in H0. cbn zeta in H0.
  pose proof (created_spec k) as Hc. destruct (c_created keys n c x k) as [j|]; [right; exists j; exact Hc|].
  left. destruct (existsb (Nat.eqb k) (c_rm keys n c)) eqn:Erm.
  - destruct (s_ent (c_sch2 keys n c) k); cbn in H0; [injection H0 as <-; discriminate Hs|discriminate].
  - destruct (sch2_started_store k e0 H0 Hs) as [e [E1 E2]]. exists e. split; [exact E1|]. split; [exact E2|].
    destruct (live_slot_sched k e E1 E2) as [Hin [Hslot _]]. rewrite (rm_mem _ _ Hin Hslot) in Erm.
    destruct (c_bound n c (se_key e)); [reflexivity|discriminate].
Qed.

Lemma eval_outcome k :
  match s_ent s0 k with
  | None => s_ent (c_sch3 B keys n c x) k = None
  | Some e0 =>
      exists e', s_ent (c_sch3 B keys n c x) k = Some e' /\ e_started e' = e_started e0 /\
        e_next e' = (if c_inset keys n c x k then clamp_after t (c_nexts B keys n c x k) else e_next e0) /\
        (e_started e0 = true -> c_inset keys n c x k = (e_next e0 <=? t))
  end.
Proof.
  destruct sch2_facts as (HG & Hnow & Hd & _). pose proof t_lt as HtM. rewrite <- Hnow in *.
  exact (do_eval_entry (c_rm keys n c) (c_ad keys n c x) (x_tk x) (x_full x) (c_nexts B keys n c x) (c_sch2 keys n c) k HG Hd HtM).
Qed.

Lemma outcome_continuing s e : n_store n s = Some e -> se_started e = true -> c_bound n c (se_key e) = true ->
  c_inset keys n c x s = any_mod (c_args n c (se_key e)) || wake_due (B (se_key e)) (se_inst e) t /\
  exists ef, s_ent (c_sch3 B keys n c x) s = Some ef /\ e_started ef = true /\
    e_next ef = if c_inset keys n c x s then clamp_after t (c_nexts B keys n c x s)
                else wake_z (b_next (B (se_key e)) (se_inst e)).
Proof.
  intros He Hs Hb. destruct (live_slot_sched s e He Hs) as (_ & _ & se2 & H2 & H3 & H4 & H5).
  pose proof (eval_outcome s) as Ho. rewrite (rec_continuing s e He Hs Hb), H2 in Ho. destruct Ho as (ef & F1 & F2 & F3 & F4).
  rewrite (wake_z_due _ _ t t_lt). specialize (F4 H3). rewrite H5 in F4.
  assert (Hi : c_inset keys n c x s = any_mod (c_args n c (se_key e)) || (wake_z (b_next (B (se_key e)) (se_inst e)) <=? t)).
  { rewrite F4. destruct (any_mod _); [apply Z.leb_refl|reflexivity]. }
  split; [exact Hi|]. exists ef. split; [exact F1|]. split; [congruence|]. rewrite F3, H5.
  destruct (c_inset keys n c x s); [reflexivity|]. destruct (any_mod _); [discriminate Hi|reflexivity].
Qed.

Lemma outcome_created j : In j (c_adk keys n c) ->
  c_inset keys n c x (x_alloc x j) = true /\
  exists ef, s_ent (c_sch3 B keys n c x) (x_alloc x j) = Some ef /\ e_started ef = true /\
    e_next ef = clamp_after t (c_nexts B keys n c x (x_alloc x j)).
Proof.
  intros Hj. pose proof (eval_outcome (x_alloc x j)) as Ho. rewrite (rec_created j Hj) in Ho. destruct Ho as (ef & F1 & F2 & F3 & F4).
  rewrite (F4 eq_refl) in *. cbn [fresh_t e_next] in *. rewrite Z.leb_refl in *. eauto.
Qed.

Notation n' := (node_cycle B keys n c x).

Lemma key_refines j : In j keys ->
  (nabs n' j, c_ev B keys n c x j) = key_step (B j) t (c_bc c j) j (nabs n j) (ops_on j (c_ops c)).
Proof.
  intros Hin. destruct HL as [_ [L1 _]]. unfold t.
  unfold nabs at 1. cbn [node_cycle n_vals n_slot n_store]. unfold c_slot', c_ev, c_res, nabs.
  destruct (n_slot n j) as [s|] eqn:Ej.
  - destruct (L1 j s Ej) as [_ [e [E1 [<- E3]]]]. rewrite E1. destruct (c_bound n c (se_key e)) eqn:Eb.
    + destruct (store_continuing s e E1 E3 Eb) as [-> ->]. destruct (outcome_continuing s e E1 E3 Eb) as [-> _]. cbn [option_map].
      pose proof (refines_eval_partial (B (se_key e)) (c_t c) (c_bc c (se_key e)) e (n_vals n (se_key e)) (ops_on (se_key e) (c_ops c))
                    _ E3 Eb (fun H => H)) as R.
      destruct (slot_eval _ _ _ _ _ e) as [e' ev]. symmetry. exact R.
    + symmetry. exact (refines_remove_partial (B (se_key e)) (c_t c) (c_bc c (se_key e)) e (n_vals n (se_key e)) (ops_on (se_key e) (c_ops c)) E3 Eb).
  - destruct (c_bound n c j) eqn:Eb.
    + rewrite (existsb_keys j keys Hin). cbn [andb].
      assert (Hadk : In j (c_adk keys n c)) by (apply adk_in; auto).
      destruct (store_created j Hadk) as [-> ->]. destruct (outcome_created j Hadk) as [-> _]. cbn [option_map se_key slot_create].
      pose proof (refines_create_partial (B j) (c_t c) (c_bc c j) j (n_vals n j) (ops_on j (c_ops c)) None I Eb) as R.
      destruct (slot_eval (B j) (c_t c) _ true true (slot_create (B j) j)) as [e' ev]. symmetry. exact R.
    + unfold key_step, abs_entry. cbn [k_inst k_vals k_valid]. fold (c_nv n c j). unfold c_bound in Eb. rewrite Eb. reflexivity.
Qed.

Lemma sch3_done : s_done (c_sch3 B keys n c x) = true.
Proof.
  destruct sch2_facts as [_ [_ [Hd _]]]. unfold c_sch3, do_eval. rewrite Hd.
  destruct (prepare _ _ _ _) as [s1 cc]. apply finish_done.
Qed.

Lemma stepped_next s e first : c_store_rc B keys n c x s = Some e -> se_started e = true -> c_first keys n c x s = first ->
  first || any_mod (c_args n c (se_key e)) || wake_due (B (se_key e)) (se_inst e) t = true ->
  clamp_after t (c_nexts B keys n c x s) =
    wake_z (b_next (B (se_key e)) (se_inst (fst (slot_eval (B (se_key e)) t (c_args n c (se_key e)) first true e)))) /\
  clamp_after t (c_nexts B keys n c x s) <= MAX_DT.
Proof.
  intros Hrc Hs Hf Htr. unfold c_nexts. rewrite Hrc, Hf. fold t. rewrite (slot_eval_stepped _ _ _ _ e Hs Htr).
  destruct Hok as [_ [HtM _]].
  destruct (stepped_wake (se_key e) (se_inst e) (mkBI t (se_key e) first (c_args n c (se_key e))) HtM) as [W1 W2].
  cbn [bi_now] in W1. rewrite W1. auto.
Qed.

Lemma link_cycle : Link n'.
Proof.
  destruct HL as [HG [L1 [L2 [L3 [L4 L5]]]]]. destruct sch2_facts as [HG2 _].
  unfold Link. cbn [node_cycle n_sch n_store n_slot n_vals].
  split; [apply good_eval; exact HG2|]. split; [|split; [|split; [|split]]].
  - intros j s Hs. unfold c_slot' in Hs. unfold c_res. destruct (n_slot n j) as [s1|] eqn:Ej.
    + destruct (c_bound n c j) eqn:Eb; [|discriminate]. injection Hs as ->.
      destruct (L1 j s Ej) as [Hin [e [E1 [<- E3]]]]. split; [exact Hin|].
      destruct (store_continuing s e E1 E3 Eb) as [-> _]. eexists. split; [reflexivity|]. rewrite slot_eval_key, slot_eval_started. auto.
    + destruct (c_bound n c j) eqn:Eb; [|discriminate]. destruct (existsb (Z.eqb j) keys) eqn:Ex; [|discriminate].
      injection Hs as <-. apply existsb_exists in Ex as (y & Hin & Ey). apply Z.eqb_eq in Ey. subst y. split; [exact Hin|].
      destruct (store_created j (proj2 (adk_in j) (conj Hin (conj Ej Eb)))) as [-> _]. eexists. split; [reflexivity|]. rewrite slot_eval_key, slot_eval_started. auto.
  - intros s e' He' Hs'. unfold c_res in He'. destruct (c_store_rc B keys n c x s) as [e_rc|] eqn:Hrc; [|discriminate].
    injection He' as <-. rewrite slot_eval_key. rewrite slot_eval_started in Hs'. unfold c_slot'.
    destruct (store_cases s e_rc Hrc Hs') as [(e & E1 & E2 & E3 & ->)|(j & J1 & <- & ->)].
    + rewrite (L2 s e E1 E2), E3. reflexivity.
    + apply adk_in in J1 as (K1 & K2 & K3). cbn [se_key slot_create]. rewrite K2, K3, (existsb_keys j keys K1). reflexivity.
  - intros s e' He' Hs'. unfold c_res in He'. destruct (c_store_rc B keys n c x s) as [e_rc|] eqn:Hrc; [|discriminate].
    injection He' as <-. rewrite slot_eval_key. rewrite slot_eval_started in Hs'.
    destruct (store_cases s e_rc Hrc Hs') as [(e & E1 & E2 & E3 & ->)|(j & J1 & <- & ->)].
    + destruct (store_continuing s e E1 E2 E3) as [_ Hf]. destruct (outcome_continuing s e E1 E2 E3) as (Hi & ef & F1 & F2 & F3).
      exists ef. split; [exact F1|]. split; [exact F2|]. rewrite F3, Hf. fold t. destruct (c_inset keys n c x s).
      * apply (stepped_next s e false Hrc E2 Hf). symmetry. exact Hi.
      * rewrite slot_eval_skipped. split; [reflexivity|]. destruct (L3 s e E1 E2) as (se & _ & _ & <- & S4). exact S4.
    + destruct (store_created j J1) as [_ Hf]. destruct (outcome_created j J1) as (Hi & ef & F1 & F2 & F3).
      exists ef. split; [exact F1|]. split; [exact F2|]. rewrite F3, Hf, Hi. fold t. apply (stepped_next _ _ true Hrc eq_refl Hf). reflexivity.
  - intros k se Hse Hst. pose proof (eval_outcome k) as Ho.
    destruct (s_ent s0 k) as [e0|] eqn:E0; [|congruence].
    destruct Ho as (ef & F1 & F2 & _). unfold c_res.
    destruct (rec_other k e0 E0 ltac:(congruence)) as [(e & E1 & E2 & E3)|(j & J1 & <-)];
      [destruct (store_continuing k e E1 E2 E3) as [-> _]|destruct (store_created j J1) as [-> _]];
      eexists; (split; [reflexivity|]); rewrite slot_eval_started; [exact E2|reflexivity].
  - intros j Hin. unfold c_slot'. rewrite <- any_bound_map. fold (c_bound n c j).
    destruct (n_slot n j); destruct (c_bound n c j); cbn; try reflexivity. rewrite (existsb_keys j keys Hin). reflexivity.
Qed.

Definition spec_state (m : nstate S) : mstate S := map (fun j => (j, nabs m j)) keys.

Lemma spec_cycle (f : Z -> kstate S * kev) :
  (forall j, In j keys -> f j = key_step (B j) (c_t c) (c_bc c j) j (nabs n j) (ops_on j (c_ops c))) ->
  map (fun j => (j, fst (f j))) keys = next_state (cycle B (c_t c) (c_bc c) (c_ops c) (spec_state n)) /\
  map (fun j => (j, snd (f j))) keys = events (cycle B (c_t c) (c_bc c) (c_ops c) (spec_state n)).
Proof.
  intros Hf. unfold spec_state, cycle, next_state, events. rewrite !map_map. cbn [fst snd].
  split; apply map_ext_in; intros j Hj; rewrite (Hf j Hj); reflexivity.
Qed.

Lemma nabs_kinv j : In j keys -> kinv (nabs n j).
Proof.
  intros Hin. destruct HL as [_ [L1 [_ [_ [_ L5]]]]]. specialize (L5 j Hin). unfold nabs, kinv.
  destruct (n_slot n j) as [s|] eqn:Ej; [destruct (L1 j s Ej) as [_ [e [-> [_ E3]]]]|]; unfold abs_entry; rewrite ?E3;
    cbn [k_inst k_vals k_valid is_some] in *; (split; [exact L5|auto; discriminate]).
Qed.

Lemma idle_key j : In j keys -> c_required keys n c = false ->
  key_step (B j) (c_t c) (c_bc c j) j (nabs n j) (ops_on j (c_ops c)) = (nabs n j, no_ev).
Proof.
  intros Hin Hreq. unfold c_required in Hreq. apply orb_false_iff in Hreq as [Hreq Hbc]. apply orb_false_iff in Hreq as [Hps Hops].
  replace (c_ops c) with (@nil (nat * Z * Z * Z)) by (destruct (c_ops c); [reflexivity|discriminate]). change (ops_on j []) with (@nil kop).
  apply untouched_cycle_identity; [apply nabs_kinv; exact Hin| |].
  - apply not_true_is_false. intros E. rewrite (proj2 (existsb_exists _ _)) in Hbc; [discriminate|]. exists j. auto.
  - unfold nabs. destruct (n_slot n j) as [s|] eqn:Ej; [|exact I].
    destruct HL as [_ [L1 _]]. destruct (L1 j s Ej) as [_ [e [E1 [<- E3]]]]. rewrite E1. unfold abs_entry. rewrite E3.
    cbn [k_inst]. rewrite (wake_z_due _ _ (c_t c) t_lt). apply Z.leb_gt.
    (* the node's slot is not t, and it bounds the child's time after the notifications: no argument ticked, no wake-up is due *)
    destruct (live_slot_sched s e E1 E3) as (_ & _ & se2 & H2 & H3 & H4 & H5). destruct sch2_facts as (HG2 & Hnow & _).
    apply good_iff in HG2 as [HT _]. specialize (HT s se2 H2 H3). unfold due_by in HT. rewrite Hnow in HT. pose proof t_lt.
    clear - HT Hps H H4 H5. destruct (any_mod _); fold t; lia.
Qed.

Lemma link_idle : Link (node_idle keys n c).
Proof.
  destruct HL as [HG HL']. destruct Hok as [Htick _]. split; [apply good_tick; exact HG|].
  unfold node_idle, do_tick. rewrite Htick. exact HL'.
Qed.

End OneCycle.

Definition Rel (m : nstate S) (r : run_state S) : Prop :=
  Link m /\ r_st r = spec_state m /\ r_primed r = n_primed m /\ r_log r = n_log m.

Lemma rel_init ndict : Rel (ninit ndict) (start_state ndict keys).
Proof.
  split; [|split; [|split]]; try reflexivity.
  split; [exact good_init|]. repeat (split; [intros ? ? H; discriminate H|]).
  intros j _. symmetry. apply unbound_repeat.
Qed.

Lemma rel_cycle m r cx : Rel m r -> step_ok keys m (fst cx) (snd cx) ->
  Rel (node_step B keys m (fst cx) (snd cx)) (run_cycle B r (fst cx)).
Proof.
  intros [HLk [Hst [Hpr Hlog]]] Hok'. destruct cx as [c x]. cbn [fst snd] in *. unfold node_step, run_cycle. rewrite Hst, Hpr, Hlog.
  destruct (x_force x || c_required keys m c) eqn:Ereq.
  - destruct (spec_cycle m c (fun j => (nabs (node_cycle B keys m c x) j, c_ev B keys m c x j)) (key_refines m c x HLk Hok')) as [<- <-].
    split; [apply link_cycle; assumption|]. repeat split.
  - apply orb_false_iff in Ereq as [_ Ereq].
    destruct (spec_cycle m c (fun j => (nabs m j, no_ev)) (fun j Hj => eq_sym (idle_key m c x HLk Hok' j Hj Ereq))) as [<- <-].
    split; [apply (link_idle m c x HLk Hok')|]. unfold c_required in Ereq. destruct (c_ops c); [|rewrite orb_true_r in Ereq; discriminate].
    cbn [has_set existsb]. rewrite andb_false_r, orb_false_r. repeat split.
Qed.

Lemma rel_run : forall h m r, Rel m r -> run_ok B keys m h ->
  Rel (node_run B keys m h) (run B r (map fst h)).
Proof.
  induction h as [|cx h IH]; intros m r HR Hok'; [exact HR|].
  cbn [run_ok] in Hok'. destruct Hok' as [H1 H2]. cbn [node_run run fold_left map].
  apply IH; [apply rel_cycle; assumption|exact H2].
Qed.

End NodeFacts.

(* every input tick (re)arms a wake-up 3 later (capped inside the run window); the wake-up emits the last input + 500 *)
Definition tbody : body (Z * option Z) :=
  mkBody (0, None)
         (fun s bi =>
            let woke := match snd s with Some w => w <=? bi_now bi | None => false end in
            let pend := if woke then None else option_map (fun w => Z.min w MAX_ET) (snd s) in
            match nth 0 (bi_args bi) (None, false) with
            | (Some v, true) => ((v, Some (Z.min (bi_now bi + 3) MAX_ET)), if woke then BOut (fst s + 500) else BNone)
            | _ => ((fst s, pend), if woke then BOut (fst s + 500) else BNone)
            end)
         (fun s => snd s).

(* [j] is not used: the statement has the shape of the hypothesis on bodies at [fun _ => tbody] *)
Lemma tbody_wake : forall (j : Z) s bi, bi_now bi < MAX_ET ->
  match b_next tbody (fst (b_step tbody s bi)) with Some w => bi_now bi < w /\ w < MAX_DT | None => True end.
Proof.
  intros j [v p] bi Ht. cbn [tbody b_next b_step fst snd]. unfold MAX_ET in *.
  destruct (nth 0 (bi_args bi) (None, false)) as [[a|] [|]]; cbn [fst snd]; try lia;
    (destruct p as [w|]; [|exact I]; destruct (w <=? bi_now bi) eqn:E; [exact I|]; cbn [option_map]; lia).
Qed.
