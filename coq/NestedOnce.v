(* NestedOnce.v — C01 for child graphs, per ENTRY of evaluate_impl on one graph g (one call of [eval_graph], fresh
   or resuming a cycle that paused because a node's evaluate returned false).  Evaluations are counted on the
   lifecycle trace: lines [11; g; j; t] (before_node_evaluation).
   The one idea: an entry evaluates a WINDOW of consecutive node indices of g, each at most once, and no node of a
   graph with a smaller id ([scan_window], [entry_window]); the window starts at the cursor the previous entry left
   ([first_ix_cursor]) and a pause leaves the cursor on its last index, so the windows of two consecutive entries
   overlap in the pausing node only.  Nothing here composes the entries of different graphs into a root cycle. *)
Require Import Base Sched Nested NestedWitness NestedFacts.

Definition is11 (g j : nat) (l : line) : bool :=
  match l with 11 :: g' :: j' :: _ => (g' =? Z.of_nat g) && (j' =? Z.of_nat j) | _ => false end.
(* how many times node j of graph g has been evaluated so far *)
Definition cnt (g j : nat) (w : world) : nat := length (filter (is11 g j) (w_log w)).

Definition L11 (w w' : world) : Prop := forall g j, cnt g j w' = cnt g j w.

Lemma cnt_emit11 g j g' i t w :
  cnt g j (emit [11; Z.of_nat g'; Z.of_nat i; t] w) = (cnt g j w + (if (g' =? g)%nat && (i =? j)%nat then 1 else 0))%nat.
Proof.
  unfold cnt, emit; simpl.
  destruct (Nat.eqb_spec g' g) as [->|Hg]; destruct (Nat.eqb_spec i j) as [->|Hi]; simpl;
    [rewrite !Z.eqb_refl|replace (Z.of_nat i =? Z.of_nat j) with false by lia; rewrite andb_false_r
    |replace (Z.of_nat g' =? Z.of_nat g) with false by lia..]; simpl; lia.
Qed.

Lemma step_cnt P F w0 w g j : step P F w0 w -> ~ F g -> cnt g j w = cnt g j w0.
Proof.
  intros H Hg. induction H; try exact IHstep; auto.
  - rewrite <- IHstep. unfold cnt, emit. cbn [w_log filter]. replace (is11 g j (c :: l)) with false; auto.
    destruct c as [|p|p]; auto. do 4 (try destruct p as [p|p|]; auto). congruence.
  - rewrite cnt_emit11, IHstep. destruct (Nat.eqb_spec g0 g) as [->|]; [contradiction|simpl; lia].
Qed.

Lemma L11_step w w' : step any_upd none w w' -> L11 w w'.
Proof. intros H g j. apply (step_cnt _ _ _ _ g j H). intros []. Qed.

Lemma L11_start_plain T beh g i w : L11 w (start_plain T beh g i w).
Proof. apply L11_step. auto with step. Qed.

Lemma L11_sampled T child now : forall bs w, L11 w (sampled T child now bs w).
Proof. intros bs w. apply L11_step. auto with step. Qed.

(* what evaluating graph b leaves alone: the graphs with a smaller id, in particular every ancestor *)
Definition fr (b : nat) (w w' : world) : Prop :=
  length (w_gs w') = length (w_gs w)
  /\ forall g', (g' < b)%nat -> g_cursor (gat g' w') = g_cursor (gat g' w) /\ forall j, cnt g' j w' = cnt g' j w.
Definition ev_fr (ev : nat -> Z -> world -> world) : Prop := forall c t w, fr c w (ev c t w).

Lemma fr_refl b w : fr b w w. Proof. split; auto. Qed.
Lemma fr_trans b x y z : fr b x y -> fr b y z -> fr b x z.
Proof.
  intros [L1 H1] [L2 H2]. split; [congruence|]. intros g' Hg. destruct (H1 g' Hg) as [A1 B1]. destruct (H2 g' Hg) as [A2 B2].
  split; [congruence|]. intros j. rewrite B2, B1. reflexivity.
Qed.
Lemma fr_weaken b b' w w' : (b' <= b)%nat -> fr b w w' -> fr b' w w'.
Proof. intros Hb [L H]. split; auto. intros g' Hg. apply H. lia. Qed.
Lemma fr_step b F w w' : step any_upd F w w' -> (forall g, F g -> (b <= g)%nat) -> fr b w w'.
Proof.
  intros H HF. split; [apply (step_len _ _ _ _ H)|]. intros g' Hg.
  assert (Hn : ~ F g') by (intros Hf; apply HF in Hf; lia).
  split; [apply (kg_cursor _ _ (step_keep _ _ _ _ g' H Hn))|intros j; apply (step_cnt _ _ _ _ g' j H Hn)].
Qed.

(* a pause is not one of the codes the tail of a cycle can raise: it left the scan *)
Lemma cycle_end_paused T (HT : parents_lt T) g w : w_err (cycle_end T g w) = PAUSED ->
  w_err w = PAUSED /\ cycle_end T g w = upd_g g (fun s => g_set_flags (g_started s) false false s) w.
Proof.
  intros H. destruct (ok w) eqn:E.
  - destruct (cycle_end_err T HT g w E) as [H'|[H'|H']]; rewrite H' in H; discriminate.
  - unfold cycle_end in *. rewrite E in *. cbn [negb] in *. split; [exact H|]. simpl in H. rewrite H. reflexivity.
Qed.

Lemma L11_cycle_begin rr g t w : L11 w (cycle_begin rr g t w).
Proof. intros g' j. unfold cycle_begin. destruct (resuming _ _); reflexivity. Qed.

Lemma L11_cycle_end T g w : L11 w (cycle_end T g w).
Proof.
  intros g' j. unfold cycle_end; cbv zeta. destruct (negb (ok w)); [reflexivity|].
  match goal with |- cnt g' j (upd_g g _ ?w4) = _ => change (cnt g' j w4 = cnt g' j (upd_g g (g_set_cursor 0) w)) end.
  apply L11_step. auto with step.
Qed.

Section ONCE.
  Variable T : tcfg.
  Variable beh : behaviour.
  Hypothesis HT : wf_tree T.

  Lemma fr_eval_node ev g i w : ev_fr ev -> fr (S g) w (eval_node T beh ev g i w).
  Proof.
    intros Hev. apply (eval_node_inv T beh (fr (S g) w)); [|intros Hn w' H|apply fr_refl].
    - intros a b S H. apply (fr_trans _ _ _ _ H), (fr_step _ none); auto. intros ? [].
    - apply (fr_trans _ _ _ _ H), (fr_weaken (c_child (ncfg_at T g i))); [|apply Hev]. apply (child_gt T g i HT Hn).
  Qed.

  (* what the scan does at index i, from w to w'; every elementary update keeps it: the invariant handed to [visit_inv] *)
  Definition visited (g i : nat) (w w' : world) : Prop :=
    fr g w w' /\ g_cursor (gat g w') = g_cursor (gat g w)
    /\ forall j, (cnt g j w' <= cnt g j w + (if (i =? j)%nat then 1 else 0))%nat.

  Lemma visit_once ev g i w : ev_fr ev -> visited g i w (visit T beh ev g i w).
  Proof.
    intros Hev. apply visit_inv.
    - intros a b S1 (F & K & C). split; [|split].
      + apply (fr_trans _ _ _ _ F), (fr_step _ none); auto. intros ? [].
      + rewrite <- K. apply (kg_cursor _ _ (proj2 (Keep_step _ _ S1) g)).
      + intros j. rewrite (L11_step _ _ S1 g j). apply C.
    - intros _. destruct (fr_eval_node ev g i (emit [11; Z.of_nat g; Z.of_nat i; g_now (gat g w)] w) Hev) as [L H].
      split; [|split].
      + split; [exact L|]. intros g' Hg. destruct (H g' ltac:(lia)) as [A B]. split; [exact A|].
        intros j. rewrite B, cnt_emit11. replace (g =? g')%nat with false by lia. simpl. lia.
      + apply (H g). lia.
      + intros j. destruct (H g ltac:(lia)) as [_ B]. rewrite B, cnt_emit11, Nat.eqb_refl. simpl. lia.
    - split; [apply fr_refl|split; [reflexivity|intros j; lia]].
  Qed.

  (* the scan of g that set out at index i in world w stands at index i' in world w': the invariant handed to
     [scan_rule], and what [scan_window] concludes *)
  Definition scanned (g i : nat) (w : world) (i' : nat) (w' : world) : Prop :=
    (i <= i')%nat /\ (i' = i -> w' = w) /\ fr g w w'
    /\ (forall j, (cnt g j w' <= cnt g j w + (if (i <=? j)%nat && (j <? i')%nat then 1 else 0))%nat)
    /\ ((g < length (w_gs w))%nat -> (i < i')%nat -> g_cursor (gat g w') = Z.of_nat (i' - 1)).

  Lemma scan_window ev g : ev_fr ev -> forall k i w,
    exists m, (m <= k)%nat /\ scanned g i w (i + m) (scan T beh ev g i k w).
  Proof.
    intros Hev k i w.
    destruct (scan_rule T beh (scanned g i w) ev g) with (k := k) (i := i) (w := w) as (m & Hm & H & _); [| |exists m; auto].
    - intros i' w' _ (Hi & _ & F & C & _).
      destruct (visit_once ev g i' (upd_g g (g_set_cursor (Z.of_nat i')) w') Hev) as (F1 & K1 & C1).
      split; [lia|split; [lia|split; [|split]]].
      + apply (fr_trans _ _ _ _ F), (fr_trans _ _ (upd_g g (g_set_cursor (Z.of_nat i')) w')); auto.
        apply (fr_step _ (le g)); auto with step.
      + intros j. specialize (C j). specialize (C1 j). change (cnt g j (upd_g g (g_set_cursor (Z.of_nat i')) w')) with (cnt g j w') in C1.
        destruct (Nat.eqb_spec i' j); destruct (i <=? j)%nat eqn:E1; destruct (j <? i')%nat eqn:E2; destruct (j <? S i')%nat eqn:E3; simpl in *; lia.
      + intros Lg _. rewrite K1, gat_upd_same by (rewrite (proj1 F); exact Lg). simpl. f_equal. lia.
    - split; [lia|split; [auto|split; [apply fr_refl|split; [intros j|]]]]; lia.
  Qed.

  (* node j of g is evaluated at most once, and only if i <= j < i + k; graphs with smaller ids are not touched *)
  Lemma scan_once ev g : ev_fr ev -> forall k i w,
    fr g w (scan T beh ev g i k w)
    /\ forall j, (cnt g j (scan T beh ev g i k w) <= cnt g j w + (if (i <=? j)%nat && (j <? i + k)%nat then 1 else 0))%nat.
  Proof.
    intros Hev k i w. destruct (scan_window ev g Hev k i w) as (m & Hm & _ & _ & F & C & _). split; [exact F|].
    intros j. specialize (C j). destruct (i <=? j)%nat; destruct (j <? i + m)%nat eqn:E2; destruct (j <? i + k)%nat eqn:E3; simpl in *; lia.
  Qed.

  Lemma fr_eval_graph rr f : ev_fr (eval_graph f T beh rr).
  Proof. intros c t w. apply (fr_step c (le c)); auto. apply step_eval_graph; auto with step. Qed.

  (* one entry of evaluate_impl on graph g (fresh or resumed); [S f]: with fuel for its own level, which leaves out
     the stub [eval_graph 0], which evaluates nothing *)
  Definition entry (f : nat) (rr : bool) (g : nat) (t : Z) (w : world) : world := eval_graph (S f) T beh rr g t w.

  Lemma entry_len f rr g t w : length (w_gs (entry f rr g t w)) = length (w_gs w).
  Proof. apply (fr_eval_graph rr (S f) g t w). Qed.

  (* the index at which an entry starts its scan *)
  Definition first_ix (rr : bool) (g : nat) (t : Z) (w : world) : nat := Z.to_nat (g_cursor (gat g (cycle_begin rr g t w))).

  Lemma first_ix_cursor rr g t w k :
    (g < length (w_gs w))%nat -> g_failed (gat g w) = false -> g_cursor (gat g w) = Z.of_nat k -> first_ix rr g t w = k.
  Proof.
    intros Lg Hf Hk. unfold first_ix. destruct (resuming rr (gat g w)) eqn:E.
    - unfold cycle_begin. rewrite E, gat_upd_same by exact Lg. simpl. rewrite Hk. apply Nat2Z.id.
    - rewrite cycle_begin_fresh by exact E. change (gat g (emit ?l ?x)) with (gat g x). rewrite gat_upd_same by exact Lg.
      unfold resuming in E. rewrite Hf, Hk in E. destruct rr; simpl in *; lia.
  Qed.

  Theorem entry_window f rr g t w :
    let w' := entry f rr g t w in
    let st := first_ix rr g t w in
    exists m, (forall j, (cnt g j w' <= cnt g j w + (if (st <=? j)%nat && (j <? st + m)%nat then 1 else 0))%nat)
      /\ ((g < length (w_gs w))%nat -> ok w = true -> w_err w' = PAUSED ->
          (0 < m)%nat /\ g_cursor (gat g w') = Z.of_nat (st + m - 1) /\ g_failed (gat g w') = false).
  Proof.
    unfold entry, first_ix. rewrite eval_graph_S. cbv zeta.
    set (w1 := cycle_begin rr g t w). set (st := Z.to_nat (g_cursor (gat g w1))).
    destruct (scan_window _ g (fr_eval_graph rr f) (length (gc_nodes (gcfg_at T g)) - st) st w1)
      as (m & _ & _ & E0 & [L2 _] & C & K).
    exists m. split.
    - intros j. rewrite L11_cycle_end, <- (L11_cycle_begin rr g t w g j). apply C.
    - intros Lg Hok Hp. destruct (cycle_end_paused T (proj1 HT) g _ Hp) as [E ->].
      assert (L1 : (g < length (w_gs w1))%nat /\ ok w1 = true).
      { unfold w1, cycle_begin. destruct (resuming _ _); simpl; rewrite !update_length; auto. }
      (* a scan that visited nothing returns the world it was given, which carries no pause *)
      assert (H0 : (0 < m)%nat).
      { destruct m; [|lia]. rewrite E0 in E by lia. destruct L1 as [_ O]. unfold ok in O. rewrite E in O. discriminate. }
      rewrite gat_upd_same by lia. split; [exact H0|split; [apply K; [tauto|lia]|reflexivity]].
  Qed.

  (* the owner's re-entry loop on graph g, any number of times: the model's [reenter] (kind 4, what mesh_ does) with
     [eval_child := eval_graph (S f) T beh rr] unfolded, i.e. [reenter (eval_graph (S f) T beh rr) n g t w] *)
  Fixpoint resume_loop (f : nat) (rr : bool) (g : nat) (t : Z) (n : nat) (w : world) : world :=
    match n with
    | O => w
    | S n' => if w_err w =? PAUSED then resume_loop f rr g t n' (entry f rr g t (set_err 0 w)) else w
    end.
End ONCE.
