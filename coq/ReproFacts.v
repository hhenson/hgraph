(* A process history, a trace and an operation list are all consumed by a [fold_left]; what holds of every
   history or run is an invariant of the step ([Base.fold_left_ind], [fold_left_after] below).
   In the order of Repro.v: the run's GlobalState, the clock, the intern table and the process with its
   invariant [Inv], the process instantiated with the engine. *)
Require Import Base Sched Engine Repro.

Lemma fold_left_after : forall {A B} (f : A -> B -> A) (P : A -> Prop) l x,
  In x l -> (forall a, P (f a x)) -> (forall a y, In y l -> P a -> P (f a y)) -> forall a, P (fold_left f l a).
Proof.
  intros A B f P l x Hin Hx Hf a. apply in_split in Hin as [l1 [l2 ->]]. rewrite fold_left_app. simpl.
  apply fold_left_ind; [|apply Hx]. intros b y Hy. apply Hf, in_or_app. right. right. exact Hy.
Qed.

Lemma nth_error_update_inv : forall {A} n m f (l : list A) v,
  nth_error (update n f l) m = Some v -> exists v0, nth_error l m = Some v0 /\ (v = v0 \/ v = f v0).
Proof.
  intros A n m f l. revert n m.
  induction l as [|x r IH]; intros [|n] [|m] v H; simpl in *; try discriminate; try injection H as <-; eauto.
Qed.

Lemma iter_S_end : forall {A} n (f : A -> A) x, iter (S n) f x = f (iter n f x).
Proof. intros A n f. induction n as [|n IH]; intros x; [reflexivity|]. apply (IH (f x)). Qed.

Definition written_keys (sec : wire) : list Z :=
  flat_map (fun l => match l with
                     | 4 :: _ :: mode :: key :: _ :: _ => if (mode =? 0) || (mode =? 2) then [key] else []
                     | _ => [] end) sec.

Definition erased_keys (sec : wire) : list Z :=
  flat_map (fun l => match l with
                     | 4 :: _ :: mode :: key :: _ :: _ => if mode =? 3 then [key] else []
                     | _ => [] end) sec.

Definition final_gs (sec : wire) (tr : wire) (seed : gsmap) : gsmap := w_gs (snd (weave sec tr (mkW seed []))).

Lemma gs_keys_set : forall k k' v m, In k (gs_keys (gs_set k' v m)) <-> k = k' \/ In k (gs_keys m).
Proof.
  intros k k' v m. unfold gs_keys. induction m as [|[a b] r IH]; simpl.
  - intuition.
  - destruct (Z.eqb_spec k' a) as [->|_]; simpl; [intuition|].
    destruct (k' <? a); simpl; [intuition|]. rewrite IH. intuition.
Qed.

Lemma gs_keys_erase : forall k k' m, In k (gs_keys (gs_erase k' m)) <-> k <> k' /\ In k (gs_keys m).
Proof.
  intros k k' m. unfold gs_keys. induction m as [|[a b] r IH]; simpl.
  - intuition.
  - destruct (Z.eqb_spec a k') as [->|Hne]; simpl; rewrite IH; intuition congruence.
Qed.

Lemma gs_step_keys : forall i t m mode key val k,
  In k (gs_keys (fst (gs_step i t m (mode, key, val)))) <->
  (k = key /\ (mode =? 0) || (mode =? 2) = true) \/ (In k (gs_keys m) /\ ~ (mode = 3 /\ k = key)).
Proof.
  intros i t m mode key val k. unfold gs_step.
  destruct (Z.eqb_spec mode 0) as [->|N0]; [simpl; rewrite gs_keys_set; intuition lia|].
  destruct (Z.eqb_spec mode 1) as [->|N1]; [simpl; intuition lia|].
  destruct (Z.eqb_spec mode 2) as [->|N2]; [simpl; rewrite gs_keys_set; intuition lia|].
  destruct (Z.eqb_spec mode 3) as [->|N3]; simpl; [rewrite gs_keys_erase|]; intuition lia.
Qed.

Lemma gsops_of_inv : forall sec i mode key val,
  In (mode, key, val) (gsops_of sec i) -> exists r, In (4 :: i :: mode :: key :: val :: r) sec.
Proof.
  intros sec i mode key val H. apply in_flat_map in H as [l [Hl H]].
  destruct l as [|c l]; [destruct H|]. destruct c as [|p|p]; try (destruct H; fail).
  (* the line code is a binary numeral: peel the digits of 4 down to the one pattern that matches *)
  do 3 (destruct p as [p|p|]; try (destruct H; fail)).
  destruct l as [|n [|mo [|ke [|va r]]]]; try (destruct H; fail).
  destruct (Z.eqb_spec n i) as [->|_]; [|destruct H]. destruct H as [H|[]]. injection H as -> -> ->. eauto.
Qed.

Lemma gsops_written : forall sec i mode key val, In (mode, key, val) (gsops_of sec i) ->
  (mode =? 0) || (mode =? 2) = true -> In key (written_keys sec).
Proof.
  intros sec i mode key val H Hm. apply gsops_of_inv in H as [r H].
  apply in_flat_map. eexists. split; [exact H|]. cbn beta iota. rewrite Hm. left. reflexivity.
Qed.

Lemma gsops_erased : forall sec i key val, In (3, key, val) (gsops_of sec i) -> In key (erased_keys sec).
Proof.
  intros sec i key val H. apply gsops_of_inv in H as [r H].
  apply in_flat_map. eexists. split; [exact H|]. left. reflexivity.
Qed.

Lemma gs_steps_fst : forall i t os m,
  fst (gs_steps i t m os) = fold_left (fun m o => fst (gs_step i t m o)) os m.
Proof.
  intros i t os. induction os as [|o r IH]; intros m; cbn [gs_steps fold_left]; [reflexivity|]. rewrite <- IH.
  destruct (gs_step i t m o) as [m1 l1]. cbn [fst]. destruct (gs_steps i t m1 r). reflexivity.
Qed.

Lemma user_run_gs : forall sec i t st,
  w_gs (fst (user_run sec i t st)) = fold_left (fun m o => fst (gs_step i t m o)) (gsops_of sec i) (w_gs st).
Proof.
  intros. rewrite <- gs_steps_fst. unfold user_run.
  destruct (state_add_of sec i); destruct (gs_steps i t (w_gs st) (gsops_of sec i)); reflexivity.
Qed.

(* what a run owns is threaded through the trace: only the lines  12 i t ..  (user code of node i ran) act on it *)
Definition is_run_line (l : line) : option (Z * Z) :=
  match l with 12 :: i :: t :: _ => Some (i, t) | _ => None end.

Definition run_line (sec : wire) (st : wst) (l : line) : wst :=
  match is_run_line l with Some (i, t) => fst (user_run sec i t st) | None => st end.

Lemma weave_cons : forall sec l r st,
  weave sec (l :: r) st =
  match is_run_line l with
  | Some (i, t) => let '(st1, ls) := user_run sec i t st in let '(rest, stf) := weave sec r st1 in (l :: ls ++ rest, stf)
  | None => let '(rest, stf) := weave sec r st in (l :: rest, stf)
  end.
Proof.
  intros sec l r st. destruct l as [|c l]; [reflexivity|]. destruct c as [|p|p]; try reflexivity.
  do 4 (destruct p as [p|p|]; try reflexivity). destruct l as [|i [|t rest]]; reflexivity.
Qed.

Lemma weave_snd : forall sec tr st, snd (weave sec tr st) = fold_left (run_line sec) tr st.
Proof.
  intros sec tr. induction tr as [|l r IH]; intros st; [reflexivity|]. rewrite weave_cons. simpl. rewrite <- IH.
  unfold run_line. destruct (is_run_line l) as [[i t]|].
  - destruct (user_run sec i t st) as [st1 ls]. simpl. destruct (weave sec r st1). reflexivity.
  - destruct (weave sec r st). reflexivity.
Qed.

Lemma weave_cons_run : forall sec l r st i t rest, l = 12 :: i :: t :: rest ->
  snd (weave sec (l :: r) st) = snd (weave sec r (fst (user_run sec i t st))).
Proof. intros sec l r st i t rest ->. rewrite !weave_snd. reflexivity. Qed.

Section GlobalStateInvariant.
  Variable sec : wire.
  Variable P : gsmap -> Prop.
  Hypothesis P_step : forall i t m o, In o (gsops_of sec i) -> P m -> P (fst (gs_step i t m o)).

  Lemma run_line_ind : forall st l, P (w_gs st) -> P (w_gs (run_line sec st l)).
  Proof.
    intros st l H. unfold run_line. destruct (is_run_line l) as [[i t]|]; [|exact H].
    rewrite user_run_gs. apply fold_left_ind; [|exact H]. intros m o. apply P_step.
  Qed.

  Lemma weave_gs_ind : forall tr st, P (w_gs st) -> P (w_gs (snd (weave sec tr st))).
  Proof.
    intros tr st. rewrite weave_snd. apply (fold_left_ind _ (fun st => P (w_gs st))). intros a l _. apply run_line_ind.
  Qed.

  Lemma weave_gs_after : forall i o, In o (gsops_of sec i) -> (forall t m, P (fst (gs_step i t m o))) ->
    forall tr st t rest, In (12 :: i :: t :: rest) tr -> P (w_gs (snd (weave sec tr st))).
  Proof.
    intros i o Ho Hest tr st t rest Hin. rewrite weave_snd.
    apply (fold_left_after _ (fun st => P (w_gs st)) _ _ Hin).
    - intros a. unfold run_line. simpl. rewrite user_run_gs. apply (fold_left_after _ P _ _ Ho); [apply Hest|].
      intros m o'. apply P_step.
    - intros a l _. apply run_line_ind.
  Qed.
End GlobalStateInvariant.

Lemma sec_step_keys : forall sec i t m o k, In o (gsops_of sec i) ->
  In k (gs_keys (fst (gs_step i t m o))) -> In k (gs_keys m) \/ In k (written_keys sec).
Proof.
  intros sec i t m [[mode key] val] k Ho H. apply gs_step_keys in H as [[-> Hw]|[H _]]; [right|left; exact H].
  exact (gsops_written sec i mode key val Ho Hw).
Qed.

Lemma sec_step_keeps : forall sec i t m o k, In o (gsops_of sec i) -> ~ In k (erased_keys sec) ->
  In k (gs_keys m) -> In k (gs_keys (fst (gs_step i t m o))).
Proof.
  intros sec i t m [[mode key] val] k Ho Hk H. apply gs_step_keys. right. split; [exact H|].
  intros [-> ->]. exact (Hk (gsops_erased sec i key val Ho)).
Qed.

Lemma weave_keys_sound : forall sec tr st k,
  In k (gs_keys (w_gs (snd (weave sec tr st)))) -> In k (gs_keys (w_gs st)) \/ In k (written_keys sec).
Proof.
  intros sec tr st k.
  apply (weave_gs_ind sec (fun m => In k (gs_keys m) -> In k (gs_keys (w_gs st)) \/ In k (written_keys sec))); [|auto].
  intros i t m o Ho Hm H. apply (sec_step_keys sec i t m o k Ho) in H as [H|H]; auto.
Qed.

Lemma weave_keys_persist : forall sec tr st k,
  In k (gs_keys (w_gs st)) -> ~ In k (erased_keys sec) -> In k (gs_keys (w_gs (snd (weave sec tr st)))).
Proof.
  intros sec tr st k H Hk. apply (weave_gs_ind sec (fun m => In k (gs_keys m))); [|exact H].
  intros i t m o Ho. exact (sec_step_keeps sec i t m o k Ho Hk).
Qed.

Lemma weave_keys_written : forall sec tr st i t rest mode key val,
  In (12 :: i :: t :: rest) tr -> In (mode, key, val) (gsops_of sec i) -> (mode =? 0) || (mode =? 2) = true ->
  ~ In key (erased_keys sec) -> In key (gs_keys (w_gs (snd (weave sec tr st)))).
Proof.
  intros sec tr st i t rest mode key val Hin Hop Hm Hk.
  apply (weave_gs_after sec (fun m => In key (gs_keys m))) with (2 := Hop) (4 := Hin).
  - intros i' t' m o Ho. exact (sec_step_keeps sec i' t' m o key Ho Hk).
  - intros t' m. apply gs_step_keys. auto.
Qed.

Lemma weave_erased_absent : forall sec tr st i t rest k val,
  In (12 :: i :: t :: rest) tr -> In (3, k, val) (gsops_of sec i) -> ~ In k (written_keys sec) ->
  ~ In k (gs_keys (w_gs (snd (weave sec tr st)))).
Proof.
  intros sec tr st i t rest k val Hin Hop Hw.
  apply (weave_gs_after sec (fun m => ~ In k (gs_keys m))) with (2 := Hop) (4 := Hin).
  - intros i' t' m o Ho Hm H. apply (sec_step_keys sec i' t' m o k Ho) in H. tauto.
  - intros t' m H. apply gs_step_keys in H as [[_ H]|[_ H]]; [discriminate|auto].
Qed.

Lemma xrun_loop_g : forall wall cfgs beh end_ fuel x,
  x_g (xrun_loop wall cfgs beh end_ fuel x) = run_loop cfgs beh end_ fuel (x_g x).
Proof.
  intros wall cfgs beh end_ fuel. induction fuel as [|f IH]; intros x; simpl.
  - reflexivity.
  - destruct (negb (g_err (x_g x) =? 0)); [reflexivity|].
    destruct ((g_nst (x_g x) =? MAX_DT) || (end_ <=? g_nst (x_g x))); [reflexivity|].
    rewrite IH. reflexivity.
Qed.

Lemma xrun_loop_reads_mono : forall wall cfgs beh end_ fuel x,
  (x_reads x <= x_reads (xrun_loop wall cfgs beh end_ fuel x))%nat.
Proof.
  intros wall cfgs beh end_ fuel. induction fuel as [|f IH]; intros x; simpl.
  - lia.
  - destruct (negb (g_err (x_g x) =? 0)); [lia|].
    destruct ((g_nst (x_g x) =? MAX_DT) || (end_ <=? g_nst (x_g x))); [lia|].
    etransitivity; [|apply IH]. simpl. lia.
Qed.

Lemma find_index_sound : forall k tbl i, find_index k tbl = Some i -> nth_error tbl i = Some k.
Proof.
  intros k tbl. induction tbl as [|x r IH]; intros i H; simpl in H; [discriminate|].
  destruct (Z.eqb_spec x k) as [->|_]; [injection H as <-; reflexivity|].
  destruct (find_index k r) as [j|]; [|discriminate]. injection H as <-. apply IH. reflexivity.
Qed.

Lemma find_index_app : forall k tbl l,
  find_index k (tbl ++ l) =
  match find_index k tbl with Some i => Some i | None => option_map (Nat.add (length tbl)) (find_index k l) end.
Proof.
  intros k tbl l. induction tbl as [|x r IH]; simpl; [destruct (find_index k l); reflexivity|].
  destruct (x =? k); [reflexivity|]. rewrite IH.
  destruct (find_index k r); [reflexivity|]. destruct (find_index k l); reflexivity.
Qed.

Lemma intern_resolves : forall k tbl, resolve (fst (intern k tbl)) (snd (intern k tbl)) = Some k.
Proof.
  intros k tbl. unfold intern, resolve. destruct (find_index k tbl) as [i|] eqn:F; simpl.
  - apply find_index_sound. assumption.
  - apply nth_error_app_len.
Qed.

Lemma intern_idempotent : forall k tbl, intern k (fst (intern k tbl)) = (fst (intern k tbl), snd (intern k tbl)).
Proof.
  intros k tbl. unfold intern at 2 3 4. destruct (find_index k tbl) as [i|] eqn:F; simpl.
  - unfold intern. rewrite F. reflexivity.
  - unfold intern. rewrite find_index_app, F. simpl. rewrite Z.eqb_refl. simpl. rewrite Nat.add_0_r. reflexivity.
Qed.

Lemma intern_all_cons : forall k r tbl,
  intern_all (k :: r) tbl =
  (fst (intern_all r (fst (intern k tbl))), snd (intern k tbl) :: snd (intern_all r (fst (intern k tbl)))).
Proof. intros k r tbl. simpl. destruct (intern k tbl) as [t1 i]. simpl. destruct (intern_all r t1). reflexivity. Qed.

(* Interning only appends to the table: what an id resolves to ([nth_error_app_some]) and the id a key is found
   under ([find_index_app]) are those of the old table. *)
Lemma intern_grows : forall k tbl, exists l, fst (intern k tbl) = tbl ++ l.
Proof.
  intros k tbl. unfold intern. destruct (find_index k tbl); simpl; [|eauto]. exists []. symmetry. apply app_nil_r.
Qed.

Lemma intern_all_spec : forall ks tbl, exists l, fst (intern_all ks tbl) = tbl ++ l /\
  map (resolve (tbl ++ l)) (snd (intern_all ks tbl)) = map Some ks.
Proof.
  induction ks as [|k r IH]; intros tbl; [exists []; split; [symmetry; apply app_nil_r|reflexivity]|].
  rewrite intern_all_cons. cbn [fst snd map]. pose proof (intern_resolves k tbl) as Hk.
  destruct (intern_grows k tbl) as [l1 E1]. rewrite E1 in *. destruct (IH (tbl ++ l1)) as [l2 [-> H2]].
  exists (l1 ++ l2). rewrite app_assoc. split; [reflexivity|]. f_equal; [apply nth_error_app_some, Hk|exact H2].
Qed.

Lemma resolve_map_app : forall reg l ids ks,
  map (resolve reg) ids = map Some ks -> map (resolve (reg ++ l)) ids = map Some ks.
Proof.
  intros reg l ids. induction ids as [|i r IH]; intros [|k ks] H; try discriminate; [reflexivity|].
  injection H as H1 H2. simpl. f_equal; [apply nth_error_app_some; exact H1|apply IH; exact H2].
Qed.

Section ProcessFacts.
  Variable rstate : Type.
  Variable init : wire -> gsmap -> rstate.
  Variable step : wire -> rstate -> rstate.
  Variable types_of : wire -> list Z.

  Notation proc := (proc rstate).
  Notation pstep := (pstep rstate init step types_of).
  Notation prun := (prun rstate init step types_of).
  Notation exec_state := (exec_state rstate).

  Definition own_state (e : exec) : rstate :=
    iter (e_steps e) (step (e_recipe e)) (init (e_recipe e) (e_seed0 e)).

  Lemma own_state_bump : forall e, own_state (bump e) = step (e_recipe e) (own_state e).
  Proof. intros e. apply iter_S_end. Qed.

  Record Inv (p : proc) : Prop := mkInv {
    inv_own : forall k e, nth_error (p_execs rstate p) k = Some e ->
                nth_error (p_heap rstate p) (e_loc e) = Some (CRun (own_state e));
    inv_sep : forall k k' e e', k <> k' -> nth_error (p_execs rstate p) k = Some e ->
                nth_error (p_execs rstate p) k' = Some e' -> e_loc e <> e_loc e';
    inv_types : forall k e, nth_error (p_execs rstate p) k = Some e ->
                map (resolve (p_reg rstate p)) (e_types e) = map Some (types_of (e_recipe e)) }.

  Lemma inv_empty : Inv (empty_proc rstate).
  Proof. constructor; simpl; intros [|k]; discriminate. Qed.

  Lemma inv_loc_lt : forall p k e, Inv p -> nth_error (p_execs rstate p) k = Some e ->
    (e_loc e < length (p_heap rstate p))%nat.
  Proof. intros p k e HI He. apply nth_error_Some. rewrite (inv_own p HI k e He). discriminate. Qed.

  Lemma inv_step : forall p o, Inv p -> Inv (pstep p o).
  Proof.
    intros p o HI. pose proof HI as [Hown Hsep Htypes]. destruct o as [recipe|b key val|b|k|ty]; simpl.
    - constructor; simpl; [|assumption|assumption].
      intros k e He. apply nth_error_app_some. eauto.
    - destruct (nth_error (p_builders rstate p) b) as [bd|]; [|exact HI].
      destruct (nth_error (p_heap rstate p) (b_seed bd)) as [[m|s]|] eqn:Hc; try exact HI.
      constructor; simpl; [|assumption|assumption].
      (* a seed cell is not a run cell, so the write is elsewhere *)
      intros k e He. unfold set_nth. rewrite nth_error_update_other; [eauto|].
      intros E. rewrite E, (Hown k e He) in Hc. discriminate.
    - destruct (nth_error (p_builders rstate p) b) as [bd|]; [|exact HI].
      destruct (nth_error (p_heap rstate p) (b_seed bd)) as [[m|s]|]; try exact HI.
      destruct (intern_all_spec (types_of (b_recipe bd)) (p_reg rstate p)) as [l [Hl Hr]].
      destruct (intern_all (types_of (b_recipe bd)) (p_reg rstate p)) as [reg' ids]. simpl in Hl, Hr. subst reg'.
      constructor; simpl.
      + intros k e He. apply nth_error_snoc_inv in He as [He|[-> ->]].
        * apply nth_error_app_some. eauto.
        * apply nth_error_app_len.
      + (* the new executor's storage is freshly allocated *)
        intros k k' e e' Hne He He'.
        apply nth_error_snoc_inv in He as [He|[-> ->]]; apply nth_error_snoc_inv in He' as [He'|[-> ->]].
        * eauto.
        * apply Nat.lt_neq. exact (inv_loc_lt p k e HI He).
        * apply Nat.neq_sym, Nat.lt_neq. exact (inv_loc_lt p k' e' HI He').
        * congruence.
      + intros k e He. apply nth_error_snoc_inv in He as [He|[-> ->]]; [|exact Hr].
        apply resolve_map_app. eauto.
    - destruct (nth_error (p_execs rstate p) k) as [e|] eqn:He; [|exact HI]. rewrite (Hown k e He).
      constructor; simpl.
      + intros k' e' He'. unfold set_nth. destruct (Nat.eq_dec k k') as [<-|Hne].
        * rewrite (nth_error_update_same _ _ _ _ He) in He'. injection He' as <-.
          rewrite own_state_bump. exact (nth_error_update_same _ _ _ _ (Hown k e He)).
        * rewrite nth_error_update_other in He' by assumption. rewrite nth_error_update_other; eauto.
      + intros k1 k2 e1 e2 Hne H1 H2.
        apply nth_error_update_inv in H1 as [a [Ha Hra]]. apply nth_error_update_inv in H2 as [c [Hc Hrc]].
        destruct Hra as [->| ->], Hrc as [->| ->]; exact (Hsep k1 k2 a c Hne Ha Hc).
      + intros k' e' He'. apply nth_error_update_inv in He' as [e0 [He0 [->| ->]]]; exact (Htypes k' e0 He0).
    - constructor; simpl; try assumption.
      intros k e He. destruct (intern_grows ty (p_reg rstate p)) as [l ->]. apply resolve_map_app. eauto.
  Qed.

  Lemma inv_prun : forall ops, Inv (prun ops).
  Proof. intros ops. unfold Repro.prun. apply fold_left_ind; [|exact inv_empty]. intros p o _. apply inv_step. Qed.

  (* the heart of C07 in the model: whatever the history, executor k is in the state its OWN cycles produce
     from its OWN initial state *)
  Lemma exec_state_own : forall p k e, Inv p -> nth_error (p_execs rstate p) k = Some e ->
    exec_state p k = Some (own_state e).
  Proof. intros p k e HI He. unfold Repro.exec_state. rewrite He, (inv_own p HI k e He). reflexivity. Qed.

  Lemma seeds_fold : forall recipe sets m,
    fold_left pstep (map (fun kv => PSeed 0 (fst kv) (snd kv)) sets) (mkP rstate [CSeed m] [mkB recipe 0] [] [])
    = mkP rstate [CSeed (apply_sets sets m)] [mkB recipe 0] [] [].
  Proof. intros recipe sets. induction sets as [|[k v] r IH]; intros m; [reflexivity|]. apply IH. Qed.

  Lemma steps_fold : forall n recipe (m : gsmap) ids reg seedm s0 j,
    fold_left pstep (repeat (PStep 0) n)
      (mkP rstate [CSeed seedm; CRun s0] [mkB recipe 0] [mkE recipe 1 ids m j] reg)
    = mkP rstate [CSeed seedm; CRun (iter n (step recipe) s0)] [mkB recipe 0] [mkE recipe 1 ids m (n + j)] reg.
  Proof.
    induction n as [|n IH]; intros; [reflexivity|].
    rewrite plus_Sn_m, plus_n_Sm. apply IH.
  Qed.

  (* [alone_ops] is concrete, so its state is computed *)
  Lemma alone_state : forall recipe sets n,
    exec_state (prun (alone_ops recipe sets n)) 0 = Some (iter n (step recipe) (init recipe (apply_sets sets []))).
  Proof.
    intros recipe sets n. unfold Repro.prun, alone_ops. rewrite !fold_left_app. simpl fold_left at 3.
    unfold Repro.pstep at 3. simpl.
    rewrite seeds_fold. simpl.
    destruct (intern_all (types_of recipe) []) as [reg' ids]. simpl.
    rewrite steps_fold. reflexivity.
  Qed.

  Definition is_step_of (k : nat) (o : pop) : nat :=
    match o with PStep k' => if Nat.eqb k' k then 1 else 0 | _ => 0 end.

  Definition count_steps (k : nat) (ops : list pop) : nat := fold_left (fun a o => a + is_step_of k o)%nat ops O.

  Definition same_exec_but (e e' : exec) (n : nat) : Prop :=
    e_recipe e' = e_recipe e /\ e_seed0 e' = e_seed0 e /\ e_loc e' = e_loc e /\ e_types e' = e_types e /\
    e_steps e' = (e_steps e + n)%nat.

  Lemma same_exec_refl : forall e, same_exec_but e e 0.
  Proof. intros e. repeat split. apply plus_n_O. Qed.

  Lemma same_exec_trans : forall e1 e2 e3 n m,
    same_exec_but e1 e2 n -> same_exec_but e2 e3 m -> same_exec_but e1 e3 (n + m).
  Proof. intros e1 e2 e3 n m (R1 & S1 & L1 & T1 & N1) (R2 & S2 & L2 & T2 & N2). repeat split; try congruence. lia. Qed.

  (* [Inv] is what makes a PStep of an existing executor a real step *)
  Lemma exec_frame_step : forall p o k e, Inv p -> nth_error (p_execs rstate p) k = Some e ->
    exists e', nth_error (p_execs rstate (pstep p o)) k = Some e' /\ same_exec_but e e' (is_step_of k o).
  Proof.
    intros p o k e HI He. pose proof (same_exec_refl e) as Hs.
    destruct o as [recipe|b key val|b|k'|ty]; simpl; eauto.
    - destruct (nth_error (p_builders rstate p) b) as [bd|]; eauto.
      destruct (nth_error (p_heap rstate p) (b_seed bd)) as [[m|s]|]; eauto.
    - destruct (nth_error (p_builders rstate p) b) as [bd|]; eauto.
      destruct (nth_error (p_heap rstate p) (b_seed bd)) as [[m|s]|]; eauto.
      destruct (intern_all (types_of (b_recipe bd)) (p_reg rstate p)). simpl. eauto using nth_error_app_some.
    - destruct (Nat.eqb_spec k' k) as [->|Hne].
      + rewrite He, (inv_own p HI k e He). simpl. exists (bump e). split; [apply nth_error_update_same; exact He|].
        repeat split. simpl. lia.
      + destruct (nth_error (p_execs rstate p) k') as [e0|]; eauto.
        destruct (nth_error (p_heap rstate p) (e_loc e0)) as [[m|s]|]; eauto.
        simpl. rewrite nth_error_update_other by assumption. eauto.
  Qed.

  Lemma later_history_only_own_steps : forall ops ops' k e,
    nth_error (p_execs rstate (prun ops)) k = Some e ->
    exists e', nth_error (p_execs rstate (prun (ops ++ ops'))) k = Some e' /\ same_exec_but e e' (count_steps k ops').
  Proof.
    (* from the right: every prefix of a history is a history, so [inv_prun] gives [Inv] before each step *)
    intros ops ops' k e He. induction ops' as [|o r IH] using rev_ind.
    - rewrite app_nil_r. exists e. split; [exact He|apply same_exec_refl].
    - destruct IH as [e1 [He1 H1]].
      destruct (exec_frame_step _ o k e1 (inv_prun (ops ++ r)) He1) as [e2 [He2 H2]].
      exists e2. rewrite app_assoc. unfold Repro.prun, count_steps in *.
      rewrite (fold_left_app _ (ops ++ r)), (fold_left_app _ r).
      split; [exact He2|exact (same_exec_trans _ _ _ _ _ H1 H2)].
  Qed.

  Definition builder_seed (p : proc) (b : nat) : option gsmap :=
    match nth_error (p_builders rstate p) b with
    | Some bd => match nth_error (p_heap rstate p) (b_seed bd) with Some (CSeed m) => Some m | _ => None end
    | None => None
    end.

  Definition is_seed_write (o : pop) : bool := match o with PSeed _ _ _ => true | _ => false end.

  Lemma builder_seed_spec : forall p b m, builder_seed p b = Some m <->
    exists bd, nth_error (p_builders rstate p) b = Some bd /\ nth_error (p_heap rstate p) (b_seed bd) = Some (CSeed m).
  Proof.
    intros p b m. unfold builder_seed. split; [|intros [bd [-> ->]]; reflexivity].
    destruct (nth_error (p_builders rstate p) b) as [bd|]; [|discriminate].
    destruct (nth_error (p_heap rstate p) (b_seed bd)) as [[m0|s]|] eqn:Hc; try discriminate. intros [= ->]. eauto.
  Qed.

  Lemma seed_untouched_step : forall p o b m, is_seed_write o = false ->
    builder_seed p b = Some m -> builder_seed (pstep p o) b = Some m.
  Proof.
    intros p o b m Hw Hb. apply builder_seed_spec. apply builder_seed_spec in Hb as [bd [Hbd Hc]].
    destruct o as [recipe|b' key val|b'|k|ty]; simpl in *; try discriminate; eauto using nth_error_app_some.
    - destruct (nth_error (p_builders rstate p) b') as [bd'|]; eauto.
      destruct (nth_error (p_heap rstate p) (b_seed bd')) as [[m'|s']|]; eauto.
      destruct (intern_all (types_of (b_recipe bd')) (p_reg rstate p)). simpl. eauto using nth_error_app_some.
    - (* a run cell is not a seed cell *)
      destruct (nth_error (p_execs rstate p) k) as [e|]; eauto.
      destruct (nth_error (p_heap rstate p) (e_loc e)) as [[m'|s]|] eqn:Hr; eauto.
      exists bd. split; [exact Hbd|]. simpl. unfold set_nth. rewrite nth_error_update_other; [exact Hc|].
      intros E. rewrite E in Hr. congruence.
  Qed.
End ProcessFacts.

Lemma run_loop_S : forall cfgs beh end_ fuel g,
  run_loop cfgs beh end_ (S fuel) g =
  if eng_finished end_ g then g else run_loop cfgs beh end_ fuel (eng_cycle cfgs beh end_ g).
Proof.
  intros. unfold eng_cycle, eng_finished. simpl. destruct (negb (g_err g =? 0)); [reflexivity|]. simpl.
  destruct ((g_nst g =? MAX_DT) || (end_ <=? g_nst g)); reflexivity.
Qed.

Lemma run_loop_iter : forall cfgs beh end_ n m g, (n <= m)%nat ->
  eng_finished end_ (iter n (eng_cycle cfgs beh end_) g) = true ->
  run_loop cfgs beh end_ (S m) g = iter n (eng_cycle cfgs beh end_) g.
Proof.
  intros cfgs beh end_. induction n as [|n IH]; intros m g Hle Hf; rewrite run_loop_S; cbn [iter] in *.
  - rewrite Hf. reflexivity.
  - destruct (eng_finished end_ g) eqn:Fg.
    + (* already finished: further cycles do nothing *)
      assert (Hg : eng_cycle cfgs beh end_ g = g) by (unfold eng_cycle; rewrite Fg; reflexivity).
      rewrite Hg in *. rewrite <- (IH m g) by (assumption || lia). rewrite run_loop_S, Fg. reflexivity.
    + destruct m as [|m]; [lia|]. apply IH; [lia|exact Hf].
Qed.

Lemma eng_iter : forall recipe seed n g,
  iter n (eng_step recipe) (g, seed) =
  (iter n (eng_cycle (parse_cfgs recipe) (script_beh recipe) (snd (window recipe))) g, seed).
Proof. intros recipe seed n. induction n as [|n IH]; intros g; [reflexivity|]. apply IH. Qed.

Lemma eng_obs_finished : forall recipe seed n,
  eng_finished (snd (window recipe)) (fst (iter n (eng_step recipe) (eng_init recipe seed))) = true ->
  (n <= Z.to_nat (snd (window recipe) - fst (window recipe)))%nat ->
  eng_obs recipe (iter n (eng_step recipe) (eng_init recipe seed)) = run_prog_seeded recipe seed.
Proof.
  intros recipe seed n. unfold eng_init. rewrite eng_iter. intros Hf Hn.
  unfold eng_obs, run_prog_seeded, run_core0, run_sim. destruct (window recipe) as [s e]. simpl fst in *. simpl snd in *.
  rewrite Nat.add_1_r, (run_loop_iter _ _ _ n _ _ Hn Hf). reflexivity.
Qed.
