(* RTLoopFacts.v — lemmas about the real-time loop model (RTLoop.v): the transition function read
   as a relation, and the invariants of every run by case analysis on that relation. *)
Require Import Base RTLoop.

Local Arguments do_req : simpl never.

(* validate_times: end_time after start_time; the builder's default end is MAX_ET = MAX_DT - 1.  The proofs
   need only end_time <= MAX_DT, the value [pend_min] takes when nothing is pending ([target_of_min]). *)
Definition wfc (c : cfg) : Prop := c_start c < c_end c /\ c_end c <= MAX_DT.

Lemma zmin_list_glb : forall d l b, b <= zmin_list d l <-> b <= d /\ forall p, In p l -> b <= p.
Proof.
  induction l as [|x r IH]; simpl; intros b; [intuition|]. rewrite Z.min_glb_iff, IH. intuition (subst; auto).
Qed.

Lemma zmin_list_le_d : forall d l, zmin_list d l <= d.
Proof. intros d l. exact (proj1 (proj1 (zmin_list_glb d l _) (Z.le_refl _))). Qed.

Lemma pend_add_in : forall x l p, In p (pend_add x l) <-> p = x \/ In p l.
Proof.
  intros x l p; unfold pend_add. destruct (existsb (Z.eqb x) l) eqn:E; [|simpl; intuition].
  apply (existsb_eqb_In _ Z.eqb_eq) in E. intuition (subst; auto).
Qed.

Lemma pend_after_in : forall t l p, In p (pend_after t l) <-> In p l /\ t < p.
Proof. intros; unfold pend_after; rewrite filter_In, Z.ltb_lt. tauto. Qed.

Lemma target_of_min : forall c s, c_end c <= MAX_DT -> target_of c s = Z.min (pend_min (pend s)) (c_end c).
Proof. intros c s H; unfold target_of. destruct (_ || _) eqn:E; lia. Qed.

Lemma target_of_glb : forall c s b, c_end c <= MAX_DT ->
  b <= target_of c s <-> b <= c_end c /\ forall p, In p (pend s) -> b <= p.
Proof.
  intros c s b Hm. rewrite (target_of_min c s Hm), Z.min_glb_iff. unfold pend_min. rewrite zmin_list_glb. intuition lia.
Qed.

Lemma sched_abs_ge : forall st now w when onwall e,
  sched_abs st now w when onwall = Some e -> now <= e /\ (st = true -> now < e).
Proof.
  unfold sched_abs, MIN_TD; intros st now w when onwall e.
  destruct st, onwall; (destruct (_ <=? _) eqn:E || destruct (_ <? _) eqn:E); intros [= <-]; lia.
Qed.

Lemma sched_eff_ge : forall st now k a w1 w2 e,
  sched_eff st now k a w1 w2 = Some e -> now <= e /\ (st = true -> now < e).
Proof.
  unfold sched_eff; intros st now k a w1 w2 e H.
  repeat (destruct (k =? _); [exact (sched_abs_ge _ _ _ _ _ _ H)|]). discriminate.
Qed.

Lemma eval_time_le_target : forall tgt w prev, eval_time tgt w prev <= tgt.
Proof. intros; unfold eval_time; lia. Qed.

Lemma eval_time_not_early : forall tgt w prev, eval_time tgt w prev <= Z.max w (prev + MIN_TD).
Proof. intros; unfold eval_time; lia. Qed.

Lemma eval_time_advances : forall tgt w prev, prev + MIN_TD <= tgt -> prev + MIN_TD <= eval_time tgt w prev.
Proof. intros; unfold eval_time; lia. Qed.

(* the phases in which node code runs, with the [started] flag of the requests it makes *)
Definition node_phase (p : phase) : option bool :=
  match p with PStart => Some false | PEval _ => Some true | _ => None end.

Definition flags (s : st) (pu sp : bool) (n : Z) (p : phase) : st :=
  mkSt (ev s) (pend s) pu sp (consec s) p (wall s) n (cycles s) (cut s).

Definition notified (s : st) : st :=
  flags s (push s) (stop s) (notif s - 1)
    match ph s with PWait tgt sg => PWait tgt (sg || wake_requested s) | p => p end.

(* one constructor for each enabled pair of phase and label, with what the guard it passed says and the
   state it leads to *)
Inductive trans (c : cfg) (s : st) : label -> st -> Prop :=
| T_push_late (Hl : lock_held (ph s) = false) (Hs : stop s = true) : trans c s XPushSet s
| T_push_set (Hl : lock_held (ph s) = false) (Hs : stop s = false) :
    trans c s XPushSet (flags s true false (notif s + 1) (ph s))
| T_stop_set (Hl : lock_held (ph s) = false) :
    trans c s XStopSet (flags s (push s) true (notif s + 1) (ph s))
| T_push_notify (Hn : 0 < notif s) : trans c s XPushNotify (notified s)
| T_stop_notify (Hn : 0 < notif s) : trans c s XStopNotify (notified s)
| T_req started k a w1 w2 e wl pd (Hp : node_phase (ph s) = Some started) (Hw : wall s <= wl)
    (Hr : sched_eff started (ev s) k a w1 w2 = Some e /\ pd = pend_add e (pend s) \/
          sched_eff started (ev s) k a w1 w2 = None /\ e = 0 /\ pd = pend s) :
    trans c s (LReq k a w1 w2 e) (set_wall (set_pend s pd) wl)
| T_nread started w (Hp : node_phase (ph s) = Some started) (Hw : wall s <= w) :
    trans c s (LNRead w) (set_wall s w)
| T_node started (Hp : node_phase (ph s) = Some started) : trans c s LNode s
| T_started (Hp : ph s = PStart) : trans c s LStarted (set_ph s PTop)
| T_top (Hp : ph s = PTop) (Hs : stop s = false) : trans c s LTop (set_ph s (PRead (target_of c s)))
| T_exit_top (Hp : ph s = PTop) (Hs : stop s = true) : trans c s LExit (set_ph s PDone)
| T_read tgt w (Hp : ph s = PRead tgt) (Hw : wall s <= w) :
    trans c s (LRead w) (set_wall (set_ph s (PCheck tgt w false false)) w)
| T_wait tgt w lk (Hp : ph s = PCheck tgt w lk false) (Hlt : w < tgt) (Hf : wake_requested s = false) :
    trans c s LWaitBefore (set_ph s (PWait tgt false))
| T_adv tgt w lk brk t (Hp : ph s = PCheck tgt w lk brk)
    (Hg : brk = false -> w < tgt -> wake_requested s = true) (Ht : t = advance_result c s tgt w) :
    trans c s (LAdv t)
      (mkSt t (pend s) (push s) (stop s) (consec s) (PAdv (ev s) t) (wall s) (notif s)
            (mkCyc t w tgt (ev s) (wake_requested s) :: cycles s) (cut s || drain_cut c s tgt w))
| T_woke tgt sg (Hp : ph s = PWait tgt sg) : trans c s LWaitAfter (set_ph s (PWoke tgt (wake_requested s)))
| T_reread tgt b w (Hp : ph s = PWoke tgt b) (Hw : wall s <= w) :
    trans c s (LRead w) (set_wall (set_ph s (PCheck tgt w true b)) w)
| T_exit prev t (Hp : ph s = PAdv prev t) (Hx : stop s = true \/ t = MAX_DT \/ c_end c <= t) :
    trans c s LExit (set_ph s PDone)
| T_begin prev t (Hp : ph s = PAdv prev t) (Hs : stop s = false) (Ht : t < c_end c) :
    trans c s (LEvalBegin t)
      (mkSt (ev s) (pend s) (push s) (stop s) (if t =? prev + MIN_TD then consec s + 1 else 0)
            (PEvalPre t) (wall s) (notif s) (cycles s) (cut s))
| T_push_node t (Hp : ph s = PEvalPre t) (Hu : push s = true) :
    trans c s LPushNode (flags s false (stop s) (notif s) (PEval t))
| T_first_node t (Hp : ph s = PEvalPre t) (Hu : push s = false) : trans c s LNode (set_ph s (PEval t))
| T_end_idle t (Hp : ph s = PEvalPre t) (Hu : push s = false) :
    trans c s LEvalEnd (set_ph (set_pend s (pend_after t (pend s))) PTop)
| T_end t (Hp : ph s = PEval t) : trans c s LEvalEnd (set_ph (set_pend s (pend_after t (pend s))) PTop).

Lemma do_req_spec : forall st0 s k a w1 w2 e s', do_req st0 s k a w1 w2 e = Some s' ->
  exists wl pd, s' = set_wall (set_pend s pd) wl /\ wall s <= wl /\
    (sched_eff st0 (ev s) k a w1 w2 = Some e /\ pd = pend_add e (pend s) \/
     sched_eff st0 (ev s) k a w1 w2 = None /\ e = 0 /\ pd = pend s).
Proof.
  unfold do_req; intros st0 s k a w1 w2 e s'. set (n := req_reads k).
  destruct (negb _) eqn:Ew; [discriminate|].
  assert (wall s <= if n =? 0 then wall s else if n =? 1 then w1 else w2) by (destruct (n =? 0), (n =? 1); lia).
  destruct (sched_eff _ _ _ _ _ _) as [e'|].
  - destruct (e' =? e) eqn:Ee; intros [= <-]. replace e with e' by lia. eexists _, _. split; [reflexivity|]. auto.
  - destruct (e =? 0) eqn:Ee; intros [= <-]. assert (e = 0) by lia. eexists _, (pend s). split; [reflexivity|]. auto.
Qed.

(* By cases on the label and the phase; in each case every guard of [step] is destructed (the guards
   are the conditionals with a None branch) and what is left is an instance of one constructor. *)
Lemma gstep_trans : forall c s l s', gstep c s l = Some s' -> trans c s l s'.
Proof.
  intros c s l s'. destruct s as [e0 pd0 pu0 sp0 cs0 p0 w0 n0 cy0 cu0]. unfold gstep, step, do_other.
  destruct l, p0; simpl; try discriminate; intros H.
  all: try (destruct (do_req _ _ _ _ _ _ _) eqn:E in H; [|discriminate];
            apply do_req_spec in E; destruct E as (wl & pd & -> & Hw & Hr)).
  all: repeat match type of H with
              | context [if ?b then None else _] => destruct b eqn:?
              | context [if ?b then _ else None] => destruct b eqn:?
              | context [if ?b then Some _ else Some _] => destruct b eqn:?
              end; try discriminate; injection H as <-.
  all: repeat match goal with E : (_ =? _) = true |- _ => apply Z.eqb_eq in E; subst end.
  all: try (destruct brk; try discriminate).
  all: econstructor; solve [reflexivity | eassumption | simpl in *; lia].
Qed.

Definition run (c : cfg) (w0 : Z) (ls : list label) (s : st) : Prop := exec c (init c w0) ls = Some s.

Lemma exec_inv : forall c (P : st -> Prop) (Q : label -> Prop),
  (forall s l s', P s -> gstep c s l = Some s' -> P s' /\ Q l) ->
  forall ls s s', P s -> exec c s ls = Some s' -> P s' /\ forall l, In l ls -> Q l.
Proof.
  intros c P Q Hstep. induction ls as [|l r IH]; simpl; intros s s' HP H.
  - injection H as <-. tauto.
  - destruct (gstep c s l) as [s1|] eqn:E; [|discriminate]. destruct (Hstep _ _ _ HP E) as (HP1 & HQ).
    destruct (IH _ _ HP1 H) as (HP' & HQ'). split; [auto|]. intros l' [<-|Hin]; auto.
Qed.

Lemma exec_app : forall c a b s, exec c s (a ++ b) = match exec c s a with Some s1 => exec c s1 b | None => None end.
Proof. induction a as [|l r IH]; simpl; intros b s; auto. destruct (gstep c s l); auto. Qed.

Definition last_time (c : cfg) (l : list cyc) : Z := match l with [] => c_start c | a :: _ => ct a end.
(* the earliest time the next advance can return *)
Definition floor (c : cfg) (l : list cyc) : Z := match l with [] => c_start c | a :: _ => ct a + MIN_TD end.

Fixpoint chain (c : cfg) (l : list cyc) : Prop :=
  match l with
  | [] => True
  | a :: rest => cprev a = last_time c rest /\ floor c rest <= ct a /\ chain c rest
  end.

Definition by_rule (a : cyc) : Prop := ct a = eval_time (ctgt a) (cw a) (cprev a).
Definition step1 (a : cyc) : Prop := ct a = cprev a + MIN_TD.
(* the newest n records each advanced by the smallest step *)
Definition run1 (n : Z) (l : list cyc) : Prop :=
  0 <= n /\ forall k, Z.of_nat k <= n -> (k <= length l)%nat /\ Forall step1 (firstn k l).
Definition cut_fact (c : cfg) (l : list cyc) : Prop :=
  exists a rest, l = a :: rest /\ ct a = c_end c /\ c_end c <= cw a /\
    eval_time (ctgt a) (cw a) (cprev a) <= cprev a + MIN_TD /\ run1 MAX_DRAIN rest.

(* every advance but a drain cut obeys the cycle time rule, and only the newest can be one *)
Definition log_ok (c : cfg) (s : st) : Prop :=
  ev s = last_time c (cycles s) /\ chain c (cycles s) /\
  Forall (fun a => ctgt a <= c_end c /\ (cw a < ctgt a -> cwk a = true)) (cycles s) /\
  Forall by_rule (tl (cycles s)) /\ (cut s = false -> Forall by_rule (cycles s)) /\
  (cut s = true -> cut_fact c (cycles s)).

(* the phases between two cycles: the last one is complete, the next advance has not returned *)
Definition between (p : phase) : bool :=
  match p with PTop | PRead _ | PCheck _ _ _ _ | PWait _ _ | PWoke _ _ => true | _ => false end.
(* the phases of a run that has not reached its end *)
Definition running (p : phase) : bool := match p with PAdv _ _ | PDone => false | _ => true end.
(* the advances that were evaluated as cycles: all but one still being tested by the run loop *)
Definition evald (s : st) : list cyc := match ph s with PAdv _ _ => tl (cycles s) | _ => cycles s end.

Definition phase_inv (c : cfg) (s : st) : Prop :=
  match ph s with
  | PStart => cycles s = []
  | PTop => True
  | PRead tgt | PWait tgt _ => tgt = target_of c s
  | PCheck tgt _ _ brk | PWoke tgt brk => tgt = target_of c s /\ (brk = true -> wake_requested s = true)
  | PAdv prev t =>
      t = ev s /\ (exists a rest, cycles s = a :: rest /\ cprev a = prev) /\ (cut s = true -> t = c_end c)
  | PEvalPre t | PEval t => t = ev s /\ cycles s <> []
  | PDone => stop s = false -> c_end c <= ev s
  end.

Definition Inv (c : cfg) (s : st) : Prop :=
  log_ok c s /\
  (cut s = false -> forall p, In p (pend s) -> (if between (ph s) then floor c (cycles s) else ev s) <= p) /\
  (if running (ph s) then ev s < c_end c /\ cut s = false else True) /\
  match ph s with PDone => True | _ => run1 (consec s) (evald s) end /\
  phase_inv c s.

Lemma run1_0 : forall l, run1 0 l.
Proof. split; [lia|]. intros [|k] Hk; [simpl; auto with arith | lia]. Qed.

Lemma run1_succ : forall n a l, step1 a -> run1 n l -> run1 (n + 1) (a :: l).
Proof.
  intros n a l Ha (H0 & H). split; [lia|]. intros [|k] Hk; simpl; [auto with arith|].
  destruct (H k) as (Hl & Hf); [lia|]. auto with arith.
Qed.

Lemma floor_bounds : forall c l, last_time c l <= floor c l <= last_time c l + MIN_TD.
Proof. intros c l; destruct l; simpl; unfold MIN_TD; lia. Qed.

Lemma advance_result_spec : forall c s tgt w lo, lo <= tgt -> lo <= ev s + MIN_TD -> tgt <= c_end c ->
  lo <= advance_result c s tgt w /\
  if drain_cut c s tgt w
  then advance_result c s tgt w = c_end c /\ c_end c <= w /\ eval_time tgt w (ev s) <= ev s + MIN_TD /\
       MAX_DRAIN <= consec s
  else advance_result c s tgt w = eval_time tgt w (ev s).
Proof. intros; unfold advance_result, drain_cut. destruct (_ && _) eqn:E; unfold eval_time in *; lia. Qed.

Lemma floor_after : forall c s t p, ev s = last_time c (cycles s) -> t = ev s -> cycles s <> [] ->
  In p (pend_after t (pend s)) -> floor c (cycles s) <= p.
Proof.
  intros c s t p HE -> Hcy Hin. apply pend_after_in in Hin. destruct (cycles s); [tauto|]. simpl in *.
  unfold MIN_TD; lia.
Qed.

Lemma Inv_init : forall c w0, wfc c -> Inv c (init c w0).
Proof.
  intros c w0 [Hse _]; unfold Inv, log_ok, init; simpl. repeat split; auto; try discriminate; try apply run1_0; tauto.
Qed.

Lemma Inv_step : forall c s l s', wfc c -> Inv c s -> gstep c s l = Some s' -> Inv c s'.
Proof.
  intros c s l s' [Hse Hem] HI H. apply gstep_trans in H. pose proof HI as (HL & HB & HR & HN & HP).
  pose proof HL as (HE & _). unfold phase_inv, evald in *.
  destruct H; try rewrite Hp in *; unfold Inv, phase_inv, evald; simpl in *.
  all: try exact HI.
  (* only the return of an advance writes to the record *)
  all: try (split; [exact HL|]).
  (* another thread: whatever the phase, its facts stay, and a flag that was up stays up *)
  1-4: unfold wake_requested in *; destruct (ph s); simpl in *.
  (* most steps of the loop thread carry the facts of the phase over as they are *)
  all: try solve [clear HI HL; intuition (auto with bool; discriminate)].
  all: pose proof (floor_bounds c (cycles s)) as HF; rewrite <- HE in HF.
  - (* a request is entered at or after the current time *)
    assert (Hpd : forall p, In p pd -> In p (pend s) \/ ev s <= p).
    { intros p Hin. destruct Hr as [(Hs & ->)|(_ & _ & ->)]; [|auto]. apply pend_add_in in Hin.
      destruct Hin as [->|Hin]; [|auto]. apply sched_eff_ge in Hs. tauto. }
    destruct (ph s); try discriminate; simpl in *; (split; [|tauto]); intros Hc p Hin; destruct (Hpd _ Hin); auto.
  - (* start returns: no advance yet, the floor is start_time *)
    rewrite HP in *. simpl in *. rewrite <- HE. tauto.
  - (* the exit at the loop test *)
    repeat split; auto; [|congruence]. intros Hc p Hin. specialize (HB Hc p Hin). lia.
  - (* an advance returns *)
    destruct HR as (Hev & Hcut), HP as (-> & Hbrk), HL as (_ & HC & HW & _ & HXn & _).
    rewrite Hcut in *; simpl. specialize (HXn eq_refl).
    destruct (proj1 (target_of_glb c s _ Hem) (Z.le_refl _)) as (Hte & Htp).
    assert (HFt : floor c (cycles s) <= target_of c s) by (apply target_of_glb; unfold MIN_TD in HF; auto with zarith).
    destruct (advance_result_spec c s _ w _ HFt (proj2 HF) Hte) as (Hlo & Hd). rewrite <- Ht in *.
    assert (Hwk : w < target_of c s -> wake_requested s = true) by (destruct brk; auto).
    unfold log_ok; simpl. destruct (drain_cut c s _ w).
    + assert (cut_fact c (mkCyc t w (target_of c s) (ev s) (wake_requested s) :: cycles s)).
      { eexists _, _. split; [reflexivity|]. simpl. intuition. destruct HN as (_ & HN).
        split; [unfold MAX_DRAIN; lia|]. intros k Hk. apply HN. lia. }
      intuition (eauto; discriminate).
    + assert (forall p, In p (pend s) -> t <= p).
      { intros p Hin. apply Htp in Hin. pose proof (eval_time_le_target (target_of c s) w (ev s)). lia. }
      intuition (eauto; discriminate).
  - (* the exit after an advance *)
    destruct HP as (-> & _). repeat split; auto. intros Hst. destruct Hx as [Hx|[Hx|Hx]]; [congruence|lia|lia].
  - (* a cycle begins: the counter *)
    destruct HP as (-> & (a & rest & Hcy & <-) & Hcut). rewrite Hcy in *. simpl in *.
    assert (cut s = false) by (destruct (cut s); auto; specialize (Hcut eq_refl); lia).
    assert (run1 (if ev s =? cprev a + MIN_TD then consec s + 1 else 0) (a :: rest)).
    { destruct (_ =? _) eqn:E; [apply run1_succ; auto; unfold step1; lia | apply run1_0]. }
    intuition (auto; discriminate).
  - (* a cycle ends: what stays pending lies after it *)
    destruct HP as (Ht & Hcy). split; [intros _ p; apply floor_after; auto | tauto].
  - destruct HP as (Ht & Hcy). split; [intros _ p; apply floor_after; auto | tauto].
Qed.

Lemma Inv_exec : forall c ls s s', wfc c -> Inv c s -> exec c s ls = Some s' -> Inv c s'.
Proof.
  intros c ls s s' Hw HI H. eapply proj1, (exec_inv c (Inv c) (fun _ => True)); eauto.
  intros s0 l s1 HI0 Hg. split; [eapply Inv_step; eauto | exact I].
Qed.

Lemma run_Inv : forall c w0 ls s, wfc c -> run c w0 ls s -> Inv c s.
Proof. intros c w0 ls s Hw Hr. eapply Inv_exec; eauto using Inv_init. Qed.

Lemma run_log : forall c w0 ls s, wfc c -> run c w0 ls s -> log_ok c s.
Proof. intros c w0 ls s Hw Hr. apply (run_Inv c w0 ls s Hw Hr). Qed.

Fixpoint decreasing (l : list Z) : Prop :=
  match l with
  | a :: r => match r with b :: _ => b < a | [] => True end /\ decreasing r
  | [] => True
  end.

Lemma chain_decreasing : forall c l, chain c l ->
  decreasing (map ct l) /\ Forall (fun a => c_start c <= ct a) l.
Proof.
  induction l as [|a r IH]; simpl; [auto|]. intros (_ & Hf & Hc). destruct (IH Hc) as (Hd & HF).
  assert (c_start c <= ct a /\ match map ct r with b :: _ => b < ct a | [] => True end).
  { destruct HF; simpl in *; unfold MIN_TD in *; split; auto; lia. }
  split; [|constructor]; tauto.
Qed.

Lemma Inv_ev_le_pend : forall c s, Inv c s -> cut s = false -> forall p, In p (pend s) -> ev s <= p.
Proof.
  intros c s ((HE & _) & HB & _) Hc p Hin. specialize (HB Hc p Hin).
  pose proof (floor_bounds c (cycles s)). destruct (between _); lia.
Qed.

Lemma Inv_no_drop : forall c s p, Inv c s -> ph s = PDone -> stop s = false -> cut s = false ->
  In p (pend s) -> c_end c <= p.
Proof.
  intros c s p HI Hd Hs Hc Hin. pose proof (Inv_ev_le_pend c s HI Hc p Hin).
  destruct HI as (_ & _ & _ & _ & HP). unfold phase_inv in HP. rewrite Hd in HP. specialize (HP Hs). lia.
Qed.

Lemma evalbegin_latest : forall c s t s', Inv c s -> gstep c s (LEvalBegin t) = Some s' ->
  exists a rest, cycles s = a :: rest /\ ct a = t /\ ph s' = PEvalPre t /\ cycles s' = cycles s.
Proof.
  intros c s t s' ((HE & _) & _ & _ & _ & HP) H. apply gstep_trans in H. inversion H; subst.
  unfold phase_inv in HP. rewrite Hp in HP. destruct HP as (-> & (a & rest & Hcy & _) & _).
  rewrite Hcy in *. exists a, rest. auto.
Qed.

Lemma gstep_pend_removed : forall c s l s' p, Inv c s -> gstep c s l = Some s' ->
  In p (pend s) -> ~ In p (pend s') ->
  l = LEvalEnd /\ ev s = p /\ (ph s = PEval p \/ ph s = PEvalPre p).
Proof.
  intros c s l s' p (_ & HB & HR & _ & HP) H Hin Hout. apply gstep_trans in H. unfold phase_inv in HP.
  destruct H; try rewrite Hp in *; simpl in *; try tauto.
  1: { destruct Hr as [(_ & ->)|(_ & _ & ->)]; [rewrite pend_add_in in Hout|]; tauto. }
  (* the end of a cycle at t removes what is due; nothing pending was before t *)
  all: destruct HP as (-> & _), HR as (_ & Hc); rewrite pend_after_in in Hout; specialize (HB Hc p Hin).
  all: assert (p = ev s) by (apply Z.le_antisymm; [apply Z.nlt_ge|]; tauto); subst p; auto.
Qed.

Lemma exec_pend_removed : forall c ls s s' p, wfc c -> Inv c s -> exec c s ls = Some s' ->
  In p (pend s) -> ~ In p (pend s') ->
  exists la sm lb, ls = la ++ LEvalEnd :: lb /\ exec c s la = Some sm /\ ev sm = p /\ (ph sm = PEval p \/ ph sm = PEvalPre p).
Proof.
  induction ls as [|l r IH]; simpl; intros s s' p Hw HI H Hin Hout; [injection H as <-; tauto|].
  destruct (gstep c s l) as [s1|] eqn:E; [|discriminate].
  destruct (in_dec Z.eq_dec p (pend s1)) as [Hin1|Hout1].
  - destruct (IH s1 s' p Hw (Inv_step _ _ _ _ Hw HI E) H Hin1 Hout) as (la & sm & lb & -> & Hla & Hev & Hph).
    exists (l :: la), sm, lb. simpl. rewrite E. auto.
  - destruct (gstep_pend_removed _ _ _ _ _ HI E Hin Hout1) as (-> & Hev & Hph).
    exists [], s, r. simpl. auto.
Qed.

Definition eval_times (ls : list label) : list Z :=
  flat_map (fun l => match l with LEvalBegin t => [t] | _ => [] end) ls.

(* E, the times of the LEvalBegin labels read so far, newest first, are the times of the advances that were
   evaluated: all of the record but an advance that has returned and is not evaluated yet, or never (the
   exit).  With [chain_decreasing] this orders the cycle times. *)
Definition K (c : cfg) (E : list Z) (s : st) : Prop :=
  (forall t, In t E -> t < c_end c) /\
  match ph s with
  | PAdv _ _ => E = map ct (tl (cycles s))
  | PDone => E = map ct (cycles s) \/ E = map ct (tl (cycles s))
  | _ => E = map ct (cycles s)
  end.

Lemma K_step : forall c s l s' E, Inv c s -> K c E s -> gstep c s l = Some s' ->
  K c (match l with LEvalBegin t => t :: E | _ => E end) s'.
Proof.
  intros c s l s' E HI HK H. pose proof (gstep_trans _ _ _ _ H) as T. pose proof HK as (KB & KE).
  unfold K in *. destruct T; try exact HK; try rewrite Hp in *; simpl; auto.
  1-2: destruct (ph s); auto.
  (* a cycle begins, at the time of the newest advance *)
  destruct (evalbegin_latest _ _ _ _ HI H) as (a & rest & Hcy & <- & _). rewrite Hcy in *. simpl in *. subst E.
  split; [intros t0 [<-|Hin]|]; auto.
Qed.

Lemma K_exec : forall c ls s s' E, wfc c -> Inv c s -> K c E s -> exec c s ls = Some s' ->
  K c (rev (eval_times ls) ++ E) s'.
Proof.
  induction ls as [|l r IH]; simpl; intros s s' E Hw HI HK H; [injection H as <-; auto|].
  destruct (gstep c s l) as [s1|] eqn:Eg; [|discriminate].
  specialize (IH _ _ _ Hw (Inv_step _ _ _ _ Hw HI Eg) (K_step _ _ _ _ _ HI HK Eg) H).
  destruct l; simpl; try exact IH. rewrite <- app_assoc. exact IH.
Qed.

(* A flag is set under the mutex before its notify_all, and the wait tests the
   flags under the same mutex before blocking: whenever the loop is blocked in wait_for with a push
   or a stop flagged, a notify_all is still owed or has already reached the waiter. *)
Definition wait_ok (s : st) : Prop :=
  0 <= notif s /\
  match ph s with
  | PWait _ sg => wake_requested s = true -> 0 < notif s \/ sg = true
  | _ => True
  end.

Lemma wait_ok_step : forall c s l s', wait_ok s -> gstep c s l = Some s' -> wait_ok s'.
Proof.
  intros c s l s' (Hn & Hw) H. apply gstep_trans in H. unfold wait_ok, wake_requested in *.
  destruct H; try rewrite Hp in *; simpl in *; try (split; [lia|]); auto.
  (* a flag is set: its notify is owed *)
  1-2: destruct (ph s); auto; intros _; left; lia.
  (* a notify reaches the waiter *)
  1-2: destruct (ph s); simpl; auto; unfold wake_requested; intros ->; right; apply orb_true_r.
  (* the predicate is false when the loop blocks *)
  unfold wake_requested in Hf. congruence.
Qed.

Lemma run_wait_ok : forall c w0 ls s, run c w0 ls s -> wait_ok s.
Proof.
  intros c w0 ls s Hr. eapply proj1, (exec_inv c wait_ok (fun _ => True)); eauto.
  - intros s0 l s1 HI0 Hg. split; [eapply wait_ok_step; eauto | exact I].
  - unfold wait_ok, init; simpl. split; [lia|auto].
Qed.

Definition loop_label (l : label) : bool := negb (is_other l).

(* own steps of the loop thread from a phase to the exit, once a stop is flagged
   (phases of graph code are excluded: they end when the evaluation returns) *)
Definition togo (p : phase) : Z :=
  match p with
  | PTop => 1 | PRead _ => 3 | PCheck _ _ _ _ => 2 | PWait _ _ => 4 | PWoke _ _ => 3 | PAdv _ _ => 1
  | _ => 0
  end.
Definition in_loop_code (p : phase) : bool :=
  match p with PTop | PRead _ | PCheck _ _ _ _ | PWait _ _ | PWoke _ _ | PAdv _ _ => true | _ => false end.

Definition leaving (p : phase) : Prop := in_loop_code p = true \/ p = PDone.

Lemma togo_bounds : forall p, 0 <= togo p <= 4.
Proof. destruct p; simpl; lia. Qed.

Lemma togo_0 : forall p, leaving p -> togo p = 0 -> p = PDone.
Proof. intros p [Hl|Hd] H0; [destruct p; discriminate | auto]. Qed.

Fixpoint loop_len (ls : list label) : Z :=
  match ls with [] => 0 | l :: r => (if loop_label l then 1 else 0) + loop_len r end.

Lemma loop_len_nonneg : forall ls, 0 <= loop_len ls.
Proof. induction ls as [|l r IH]; simpl; [lia|]. destruct (loop_label l); lia. Qed.

Lemma stop_step : forall c s l s', gstep c s l = Some s' -> stop s = true ->
  stop s' = true /\ (l <> LTop /\ l <> LWaitBefore /\ forall t, l <> LEvalBegin t) /\
  (leaving (ph s) -> leaving (ph s') /\ (if loop_label l then 1 else 0) + togo (ph s') = togo (ph s)).
Proof.
  intros c s l s' H Hst. apply gstep_trans in H. unfold leaving.
  destruct H; simpl; try congruence;
    try (unfold wake_requested in Hf; rewrite Hst, orb_true_r in Hf; discriminate).
  all: split; [auto|]; (split; [repeat split; discriminate|]); auto.
  1-5: destruct (ph s); simpl in *; intuition discriminate.
  all: rewrite Hp; simpl; intuition discriminate.
Qed.

Lemma stop_exec : forall c ls s s', exec c s ls = Some s' -> stop s = true ->
  stop s' = true /\ ~ In LTop ls /\ ~ In LWaitBefore ls /\ (forall t, ~ In (LEvalBegin t) ls) /\
  (leaving (ph s) -> leaving (ph s') /\ loop_len ls + togo (ph s') = togo (ph s)).
Proof.
  induction ls as [|l r IH]; simpl; intros s s' H Hst; [injection H as <-; tauto|].
  destruct (gstep c s l) as [s1|] eqn:E; [|discriminate].
  destruct (stop_step _ _ _ _ E Hst) as (Hst1 & (N1 & N2 & N3) & Hgo).
  destruct (IH _ _ H Hst1) as (Hst' & M1 & M2 & M3 & Hgo').
  split; [exact Hst'|]. split; [tauto|]. split; [tauto|]. split.
  - intros t [Hx|Hx]; [exact (N3 t Hx) | exact (M3 t Hx)].
  - intros Hl. destruct (Hgo Hl) as (Hl1 & Ht). destruct (Hgo' Hl1) as (Hl' & Ht'). split; [auto|lia].
Qed.

Definition stopped_before_loop (s : st) : Prop :=
  stop s = true /\ cycles s = [] /\ (ph s = PStart \/ ph s = PTop \/ ph s = PDone).

Lemma stopped_before_loop_step : forall c s l s', stopped_before_loop s -> gstep c s l = Some s' ->
  stopped_before_loop s' /\ forall t, l <> LAdv t.
Proof.
  intros c s l s' (Hst & Hcy & Hph) H. apply gstep_trans in H. unfold stopped_before_loop.
  destruct H; simpl; try congruence; try (rewrite Hp in Hph; intuition discriminate).
  all: repeat split; auto; try discriminate.
  all: destruct Hph as [-> | [-> | ->]]; auto.
Qed.

Lemma gstep_push : forall c s l s', gstep c s l = Some s' -> push s = true -> l <> LPushNode ->
  push s' = true /\ l <> LWaitBefore.
Proof.
  intros c s l s' H Hpu Hl. apply gstep_trans in H.
  destruct H; simpl; try (split; [auto|discriminate]); try congruence.
  unfold wake_requested in Hf. rewrite Hpu in Hf. discriminate.
Qed.

Lemma exec_ix_exec : forall c ls s i s', 0 <= i -> exec_ix c s ls i = (-1, s') <-> exec c s ls = Some s'.
Proof.
  induction ls as [|l r IH]; simpl; intros s i s' Hi; [split; intros [= ->]; auto|].
  destruct (gstep c s l); [apply IH; lia|]. split; [intros [= ? _]; lia | discriminate].
Qed.

Definition below_future (t next : Z) (slots : list Z) : Prop :=
  forall s, In s slots -> t < s -> s < MAX_DT -> next <= s.

(* from (slot, cached minimum) to the next such pair: the minimum only goes down, and if it covered
   the slot it still does *)
Definition lowers (t : Z) (sn sn' : Z * Z) : Prop :=
  snd sn' <= snd sn /\
  ((t < fst sn -> fst sn < MAX_DT -> snd sn <= fst sn) -> t < fst sn' -> fst sn' < MAX_DT -> snd sn' <= fst sn').

Lemma schedule_node_rule_ok : forall t w sn, lowers t sn (schedule_node_rule t w sn).
Proof.
  intros t w [slot next]. unfold lowers, schedule_node_rule.
  destruct (_ || _) eqn:E; [destruct (_ && _) eqn:E2|]; simpl; lia.
Qed.

Lemma schedule_reqs_ok : forall t ws sn, lowers t sn (fold_left (fun sn w => schedule_node_rule t w sn) ws sn).
Proof.
  induction ws as [|w r IH]; simpl; intros sn; [unfold lowers; lia|].
  specialize (IH (schedule_node_rule t w sn)). pose proof (schedule_node_rule_ok t w sn). unfold lowers in *. lia.
Qed.

Lemma fold_slot_ok : forall t slot next, lowers t (slot, next) (slot, fold_slot t slot next) /\
  (t < slot -> slot < MAX_DT -> fold_slot t slot next <= slot).
Proof. intros; unfold lowers, fold_slot. destruct (_ && _) eqn:E; simpl; lia. Qed.

Lemma scan_push_ok : forall t pushp beh slots i next slots' next',
  scan_push t pushp beh i slots next = (slots', next') ->
  next' <= next /\ below_future t next' slots'.
Proof.
  induction slots as [|sl r IH]; simpl; intros i next slots' next' H.
  - inversion H; subst. split; [lia|]. intros s [].
  - set (sn1 := if pushp || _ then _ else _) in H.
    assert (N1 : snd sn1 <= next).
    { subst sn1. destruct (pushp || _); [apply (schedule_reqs_ok t (beh i) (_, next)) | simpl; lia]. }
    destruct sn1 as [sl1 next1]. destruct (scan_push _ _ _ _ _ _) as [r' n'] eqn:E2. inversion H; subst.
    destruct (IH _ _ _ _ E2) as (B1 & B2). destruct (fold_slot_ok t sl1 next1) as ((F1 & _) & F2). simpl in *.
    split; [lia|]. intros s [<-|Hin] Hs Hm; [specialize (F2 Hs Hm); lia | apply B2; auto].
Qed.

Lemma scan_norm_ok : forall t beh slots i next slots' next',
  scan_norm t beh i slots next = (slots', next') ->
  next' <= next /\ below_future t next' slots'.
Proof.
  induction slots as [|sl r IH]; simpl; intros i next slots' next' H.
  - inversion H; subst. split; [lia|]. intros s [].
  - set (sn1 := if sl =? t then _ else _) in H.
    assert (N : lowers t (sl, next) sn1 /\ (t < fst sn1 -> fst sn1 < MAX_DT -> snd sn1 <= fst sn1)).
    { subst sn1. destruct (sl =? t) eqn:Ed; [|apply fold_slot_ok].
      pose proof (schedule_reqs_ok t (beh i) (sl, next)) as A. split; [exact A|]. apply A. simpl. lia. }
    destruct sn1 as [sl1 next1]. destruct (scan_norm _ _ _ _ _) as [r' n'] eqn:E2. inversion H; subst.
    destruct (IH _ _ _ _ E2) as (B1 & B2). destruct N as ((N1 & _) & N2). simpl in *.
    split; [lia|]. intros s [<-|Hin] Hs Hm; [specialize (N2 Hs Hm); lia | apply B2; auto].
Qed.
