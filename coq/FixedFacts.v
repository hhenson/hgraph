(* FixedFacts.v — the delta of a fixed-shape bundle / list is coherent with its value. *)
Require Import Base Coll Fixed CollFacts.
From Coq Require Import Arith.
Local Open Scope Z_scope.

Fixpoint fincreasing (t0 : Z) (h : list (Z * list fop)) : Prop :=
  match h with
  | [] => True
  | (t, _) :: r => t0 < t /\ fincreasing t r
  end.
Fixpoint f_trace (s : fixed) (h : list (Z * list fop)) : list (fixed * Z * list fop * fixed) :=
  match h with
  | [] => []
  | (t, ops) :: r => let s' := f_cycle t ops s in (s, t, ops, s') :: f_trace s' r
  end.

(* in-cycle invariant relative to the state [a] at the start of the cycle *)
Definition FInv (a : fixed) (t : Z) (s : fixed) : Prop :=
  f_lmt s <= t /\ f_lmt a <= f_lmt s /\
  forall i, (f_child s i = f_child a i /\ c_lmt (f_child a i) < t) \/ (c_lmt (f_child s i) = t /\ f_lmt s = t).

Lemma f_child_set i j c s : (j < length (f_ch s))%nat ->
  nth i (set_nth j c (f_ch s)) child0 = if (i =? j)%nat then c else f_child s i.
Proof.
  intros L. rewrite nth_set_nth. destruct (Nat.eqb_spec i j) as [E|E]; [|reflexivity].
  destruct (Nat.ltb_spec j (length (f_ch s))); [reflexivity|lia].
Qed.

(* within a cycle a write stamps the child and the parent with the time of the cycle, first write or not *)
Lemma f_write_eq a t i v s : FInv a t s -> (i < length (f_ch s))%nat ->
  f_write t i v s = mkF (set_nth i (mkC v t) (f_ch s)) t.
Proof.
  intros [M [_ C]] Li. unfold f_write, rec_mod. apply Nat.ltb_lt in Li. rewrite Li.
  destruct (Z.ltb_spec (c_lmt (f_child s i)) t) as [LT|GE].
  - destruct (Z.leb_spec t (f_lmt s)); f_equal; lia.
  - destruct (C i) as [[C1 C2]|[C1 C2]]; [rewrite C1 in GE; lia|]. rewrite C1, C2. reflexivity.
Qed.

Lemma f_write_inv a t i v s : FInv a t s -> FInv a t (f_write t i v s).
Proof.
  intros I. destruct (Nat.lt_ge_cases i (length (f_ch s))) as [Li|Li].
  2:{ unfold f_write. apply Nat.ltb_ge in Li. rewrite Li. exact I. }
  rewrite (f_write_eq a t i v s I Li). destruct I as [M [MM C]].
  split; [cbn; lia|]. split; [cbn; lia|].
  intros j. unfold f_child at 1 4. cbn [f_ch f_lmt]. rewrite f_child_set by exact Li.
  destruct (Nat.eqb_spec j i) as [E|E]; [right; split; reflexivity|].
  destruct (C j) as [[C1 C2]|[C1 C2]]; [left|right]; auto.
Qed.

Lemma f_cycle_inv a t ops : forall s, FInv a t s -> FInv a t (f_cycle t ops s).
Proof. apply fold_left_ind. intros s [i v|] _ I; cbn [f_op snd]; [apply f_write_inv|]; exact I. Qed.

(* the invariant between cycles, [t0] the time of the last one *)
Definition FOk (t0 : Z) (s : fixed) : Prop := f_lmt s <= t0 /\ forall i, c_lmt (f_child s i) <= f_lmt s.

Lemma finv_start t0 t s : FOk t0 s -> t0 < t -> FInv s t s.
Proof.
  intros [M C] H. split; [lia|]. split; [lia|].
  intros i. left. split; auto. specialize (C i). lia.
Qed.

Lemma finv_ok t0 a t s : FOk t0 a -> FInv a t s -> FOk t s.
Proof.
  intros [MA CA] [M [MM C]]. split; [exact M|].
  intros i. destruct (C i) as [[C1 C2]|[C1 C2]]; [|lia].
  rewrite C1. specialize (CA i). lia.
Qed.

Lemma fok_empty n : FOk MIN_DT (fixed_empty n).
Proof.
  split; [cbn; lia|]. intros i. unfold f_child, fixed_empty. cbn [f_ch f_lmt].
  destruct (nth_in_or_default i (repeat child0 n) child0) as [H|H]; [apply repeat_spec in H|]; rewrite H; cbn; lia.
Qed.

Lemma ftrace_inv h : forall s t0,
  FOk t0 s -> MIN_DT <= t0 -> fincreasing t0 h ->
  forall a t ops b, In (a, t, ops, b) (f_trace s h) -> MIN_DT < t /\ FInv a t b.
Proof.
  induction h as [|[t1 ops1] r IH]; intros s t0 O P I a t ops b H; simpl in H; [contradiction|].
  destruct I as [I1 I2].
  pose proof (f_cycle_inv s t1 ops1 s (finv_start t0 t1 s O I1)) as C1.
  destruct H as [H|H].
  - inversion H; subst a t ops b. split; [lia|exact C1].
  - apply (IH (f_cycle t1 ops1 s) t1 (finv_ok t0 s t1 _ O C1) ltac:(lia) I2 a t ops b H).
Qed.
