(* NestedInv.v — the tree version of EngineFacts.boundary (cache part), as a whole-run invariant:
   at every cycle boundary, at every depth, the cached next time of every idle started graph is <= every
   armed slot inside it ([Good]).  For trees without try_except nodes and without re-entering owners ([no_try]);
   once an exception has been captured at graph level it is false (KF-wakeup-lost-after-captured-error-C15 in the
   table of DESIGN.md section 8.0).  That the OWNER of a graph is armed no later than the graph's cache is not part
   of it ([owners_due] is only a hypothesis of Props/C09.no_child_wake_lost_partial).  [whole] joins [Good] with the
   clocks and the root's cache of NestedFacts into the one invariant of the simulation loop ([run_sim_whole]). *)
Require Import Base Sched Nested NestedWitness NestedFacts.

(* slot j of graph g is covered by g's cache: if it is armed, the cache is no later *)
Definition covered (g j : nat) (w : world) : Prop :=
  g_now (gat g w) < slot_at j (gat g w) -> g_nst (gat g w) <= slot_at j (gat g w).

(* holds across elementary updates ([Cv_step]), not across the reset at the head of a cycle *)
Definition Cv (w w' : world) : Prop := forall g j, covered g j w -> covered g j w'.

Lemma step_covered P F w0 w g j : step P F w0 w -> ~ F g -> covered g j w0 -> covered g j w.
Proof.
  intros H Hg. revert j. unfold covered.
  apply (step_graph (fun s s' => forall j, (g_now s < slot_at j s -> g_nst s <= slot_at j s) ->
                                            g_now s' < slot_at j s' -> g_nst s' <= slot_at j s') P F) with (w0 := w0); auto.
  - intros i t s j. rewrite slot_set_sched. simpl. destruct (_ && _); destruct (_ && _) eqn:E; lia.
  - intros t s Ht j. unfold slot_at; simpl. lia.
Qed.

Lemma Cv_step w w' : step any_upd none w w' -> Cv w w'.
Proof. intros H g j. apply (step_covered _ _ _ _ _ _ H). intros []. Qed.

Lemma Cv_catch T g i now w : Cv w (catch T g i now w).
Proof. apply Cv_step. auto with step. Qed.

Lemma covered_upd c f w g j :
  (forall s, g_now (f s) = g_now s /\ g_slots (f s) = g_slots s /\ g_nst (f s) = g_nst s) ->
  covered g j w -> covered g j (upd_g c f w).
Proof.
  intros H. unfold covered, slot_at.
  rewrite (gat_upd_proj g_now), (gat_upd_proj g_slots), (gat_upd_proj g_nst); auto; intros s; apply H.
Qed.

Definition KeepF (w w' : world) : Prop :=
  forall g, g_started (gat g w') = g_started (gat g w) /\ g_evaluating (gat g w') = g_evaluating (gat g w)
            /\ g_cursor (gat g w') = g_cursor (gat g w) /\ length (g_slots (gat g w')) = length (g_slots (gat g w)).

Lemma Keep_KeepF w w' : Keep w w' -> KeepF w w'.
Proof. intros [_ K] g. specialize (K g). repeat split; apply K. Qed.

(* no try_except node (kind 2) and no re-entering owner (kind 4): nothing ever resumes or swallows a cycle *)
Definition no_try (T : tcfg) : Prop := forall g i, c_kind (ncfg_at T g i) <> 2 /\ c_kind (ncfg_at T g i) <> 4.

Definition idle_ok (T : tcfg) (g : nat) (w : world) : Prop :=
  g_evaluating (gat g w) = false ->
  (g_cursor (gat g w) = 0 \/ g_cursor (gat g w) = -1)
  /\ (g_started (gat g w) = true ->
      forall j, (j < length (gc_nodes (gcfg_at T g)))%nat -> (j < length (g_slots (gat g w)))%nat -> covered g j w).

Definition Cov (T : tcfg) (w : world) : Prop := forall g, idle_ok T g w.
Definition Quiet (c : nat) (w : world) : Prop := forall a, (c <= a)%nat -> g_evaluating (gat a w) = false.
Definition Good (T : tcfg) (c : nat) (w : world) : Prop := Cov T w /\ Quiet c w /\ length (w_gs w) = length T.

Lemma idle_ok_keep T g w w' :
  keep_g (gat g w) (gat g w') -> (forall j, covered g j w -> covered g j w') -> idle_ok T g w -> idle_ok T g w'.
Proof.
  intros K C H E. rewrite (kg_evaluating _ _ K) in E. destruct (H E) as [A B].
  rewrite (kg_cursor _ _ K), (kg_started _ _ K), (kg_nslots _ _ K). auto.
Qed.

(* across a step the invariant survives in the graphs the step is not free in; the others are the callee's business *)
Lemma Good_step T b F w w' :
  step any_upd F w w' -> Good T b w ->
  (forall g, ~ F g \/ (idle_ok T g w' /\ ((b <= g)%nat -> g_evaluating (gat g w') = false))) -> Good T b w'.
Proof.
  intros H (C & Q & L) HF. split; [|split; [|rewrite (step_len _ _ _ _ H); exact L]].
  - intros g. destruct (HF g) as [Hg|[Hg _]]; auto.
    apply (idle_ok_keep T g w); auto; [apply (step_keep _ _ _ _ g H Hg)|intros j; apply (step_covered _ _ _ _ g j H Hg)].
  - intros a Ha. destruct (HF a) as [Hg|[_ Hg]]; auto.
    rewrite (kg_evaluating _ _ (step_keep _ _ _ _ a H Hg)). auto.
Qed.

Lemma Good_stable T b : stable (Good T b).
Proof. intros w w' H G. apply (Good_step T b none w); auto. Qed.

Lemma Good_call T b c w w' :
  step any_upd (le c) w w' -> Good T b w -> Good T c w' -> Good T b w'.
Proof.
  intros H G (C' & Q' & _). apply (Good_step T b (le c) w); auto.
  intros a. destruct (le_lt_dec c a); [right; auto|left; lia].
Qed.

Lemma Good_weaken T b c w : (b <= c)%nat -> Good T b w -> Good T c w.
Proof. intros Hb (C & Q & L). split; [|split]; auto. intros a Ha. apply Q. lia. Qed.

Lemma gat_upd_Good T b c f w : Good T b w -> (c < length T)%nat -> gat c (upd_g c f w) = f (gat c w).
Proof. intros (_ & _ & L) Hc. apply gat_upd_same. rewrite L. exact Hc. Qed.

(* an update of graph c alone, nothing above c being in a cycle: it may close c's own cycle *)
Lemma Good_upd T b c f w :
  (c <= b)%nat -> Good T (S c) w -> idle_ok T c (upd_g c f w) ->
  ((b <= c)%nat -> g_evaluating (gat c (upd_g c f w)) = false) -> Good T b (upd_g c f w).
Proof.
  intros Hb (C & Q & L) Hc He. split; [|split; [|rewrite upd_g_len; exact L]].
  - intros g. destruct (Nat.eq_dec c g) as [<-|Hn]; auto.
    specialize (C g). unfold idle_ok, covered in *. rewrite gat_upd_other; auto.
  - intros a Ha. destruct (Nat.eq_dec c a) as [<-|Hn]; auto. rewrite gat_upd_other; auto. apply Q. lia.
Qed.

Lemma idle_ok_evaluating T g w : g_evaluating (gat g w) = true -> idle_ok T g w.
Proof. intros H E. congruence. Qed.

(* what the recursion needs of one level down: a cycle of graph c that ends without error keeps [Good] from c on *)
Definition ev_good (T : tcfg) (ev : nat -> Z -> world -> world) : Prop :=
  forall c t w, Good T c w -> (c < length T)%nat -> ok (ev c t w) = true -> Good T c (ev c t w).

(* graph g in the middle of its cycle, the scan having passed the nodes before i *)
Definition Mid (T : tcfg) (g i : nat) (w : world) : Prop :=
  Good T (S g) w /\ g_evaluating (gat g w) = true /\ forall j, (j < i)%nat -> covered g j w.

Lemma armed_in_range g i w : g_now (gat g w) < slot_at i (gat g w) -> (g < length (w_gs w))%nat.
Proof.
  intros H. destruct (lt_dec g (length (w_gs w))); auto.
  unfold gat, slot_at in H. rewrite nth_overflow in H by lia. destruct i; simpl in H; lia.
Qed.

Section INV.
  Variable T : tcfg.
  Variable beh : behaviour.
  Hypothesis HT : wf_tree T.
  Hypothesis HN : no_try T.

  Lemma eval_node_good ev g i w :
    ev_step ev -> ev_good T ev -> Good T (S g) w -> ok (eval_node T beh ev g i w) = true ->
    Good T (S g) (eval_node T beh ev g i w).
  Proof.
    intros Hst Hev G Hok. unfold eval_node in *. destruct (is_nested _) eqn:E.
    - unfold eval_nested in *. destruct (negb (n_started _)); auto.
      replace (c_kind (ncfg_at T g i) =? 1) with true in * by (unfold is_nested in E; destruct (HN g i); lia).
      set (c := c_child (ncfg_at T g i)) in *. assert (Hc : (g < c)%nat) by apply (child_gt T g i HT E).
      set (w1 := relink T g i w) in *.
      assert (G1 : Good T (S g) w1) by (apply (Good_stable T (S g) w); auto; apply step_relink; auto with step).
      apply (Good_call T (S g) c w1); auto with step. apply Hev; auto.
      + apply (Good_weaken T (S g)); auto.
      + destruct HT as (_ & HK & _). apply (has_parent_in_range T c g i), HK, E.
    - destruct (_ =? 5); apply (Good_stable T (S g) w); auto with step.
  Qed.

  Lemma visit_good ev g i w :
    ev_step ev -> ev_good T ev -> Mid T g i w ->
    let w' := visit T beh ev g i (upd_g g (g_set_cursor (Z.of_nat i)) w) in
    ok w' = true -> Mid T g (S i) w'.
  Proof.
    intros Hst Hev (G & Ev & Hc). set (w0 := upd_g g (g_set_cursor (Z.of_nat i)) w).
    assert (Ev0 : g_evaluating (gat g w0) = true) by (unfold w0; rewrite (gat_upd_proj g_evaluating); auto).
    assert (M0 : Mid T g i w0).
    { split; [apply Good_upd; auto using idle_ok_evaluating; intros; lia|split; auto].
      intros j Hj. apply covered_upd; auto. }
    clear G Ev Hc. destruct M0 as (G & _ & Hc). unfold visit; cbv zeta.
    assert (Hi : forall w', (forall j, covered g j w0 -> covered g j w') -> covered g i w' ->
                            forall j, (j < S i)%nat -> covered g j w').
    { intros w' H Hi j Hj. destruct (Nat.eq_dec j i) as [->|Hn]; auto. apply H, Hc. lia. }
    destruct (slot_at i (gat g w0) =? g_now (gat g w0)) eqn:E; [|destruct (g_now _ <? _) eqn:E1; [destruct (_ <? g_nst _) eqn:E2|]].
    - (* slot i is due now, hence not armed and covered for an empty reason; the evaluation is a step free in the
         graphs above g only, so [step_covered] keeps it and the slots before i covered *)
      intros Hok. set (we := emit [11; Z.of_nat g; Z.of_nat i; g_now (gat g w0)] w0) in *.
      assert (S1 : step any_upd (le (S g)) we (eval_node T beh ev g i we))
        by (apply (step_eval_node T beh HT); auto with step; intros a; lia).
      split; [apply eval_node_good; auto|split].
      + rewrite (kg_evaluating _ _ (step_keep _ _ _ _ g S1 ltac:(lia))). exact Ev0.
      + apply Hi; [intros j|]; apply (step_covered _ _ _ _ g _ S1); try lia.
        unfold covered. change (gat g we) with (gat g w0). lia.
    - intros _. assert (S1 : step any_upd none w0 (upd_g g (g_set_nst (slot_at i (gat g w0))) w0))
        by (apply step_lower; [lia|apply step_refl]).
      split; [apply (Good_stable T (S g) w0); auto|split].
      + rewrite (gat_upd_proj g_evaluating); auto.
      + apply Hi; [intros j; apply (Cv_step _ _ S1)|].
        unfold covered. rewrite gat_upd_same by apply (armed_in_range g i), Z.ltb_lt, E1. unfold slot_at; simpl. lia.
    - intros _. split; [auto|split; auto]. apply Hi; auto. unfold covered. lia.
    - intros _. split; [auto|split; auto]. apply Hi; auto. unfold covered. lia.
  Qed.

  Lemma scan_good ev g : ev_step ev -> ev_good T ev -> forall k i w,
    Mid T g i w -> ok (scan T beh ev g i k w) = true -> Mid T g (i + k) (scan T beh ev g i k w).
  Proof.
    intros Hst Hev k i w M Hok.
    destruct (scan_rule T beh (fun i w => ok w = true -> Mid T g i w) ev g) with (k := k) (i := i) (w := w) as (m & _ & H & Hm); auto.
    - intros j w' Hw H. apply visit_good; auto.
    - rewrite (Hm Hok) in H. auto.
  Qed.

  Lemma Mid_end c w : Mid T c (length (gc_nodes (gcfg_at T c))) w -> (c < length T)%nat -> ok w = true ->
    Good T c (cycle_end T c w).
  Proof.
    intros (G & Ev & Hc) Lc Hok. unfold cycle_end. rewrite Hok. cbv zeta. cbn [negb].
    set (w3 := upd_g c (g_set_cursor 0) w).
    assert (G3 : Good T (S c) w3).
    { apply Good_upd; auto; [|intros; lia]. apply idle_ok_evaluating. unfold w3. rewrite (gat_upd_proj g_evaluating); auto. }
    match goal with |- Good T c (upd_g c _ ?w4') => set (w4 := w4') end.
    assert (S4 : step any_upd none w3 w4) by (unfold w4; auto with step).
    assert (G4 : Good T (S c) w4) by (apply (Good_stable T (S c) w3); auto).
    apply Good_upd; auto; unfold idle_ok; rewrite (gat_upd_Good T (S c)) by auto; [|reflexivity].
    intros _. simpl. split.
    - left. rewrite (kg_cursor _ _ (proj2 (Keep_step _ _ S4) c)). unfold w3. rewrite (gat_upd_Good T (S c)) by auto. reflexivity.
    - intros _ j Hj _. apply covered_upd; [intros; repeat split|]. apply (Cv_step _ _ S4), covered_upd; auto.
  Qed.

  Lemma eval_graph_good rr : forall f, ev_good T (eval_graph f T beh rr).
  Proof.
    induction f as [|f IH]; intros c t w G Hc Hok; [discriminate|].
    rewrite eval_graph_S in *. cbv zeta in *.
    (* a Good state has the cursor of an idle graph at rest, so the cycle is a fresh one under either resuming rule:
       this is why [rr] is free *)
    assert (Hres : resuming rr (gat c w) = false).
    { destruct G as (C & Q & _). destruct (C c (Q c (le_n c))) as [[E|E] _]; unfold resuming; rewrite E;
        rewrite ?andb_false_r; reflexivity. }
    rewrite (cycle_begin_fresh rr c t w Hres) in *.
    match type of Hok with context [emit ?l (upd_g c ?h w)] => set (w1 := emit l (upd_g c h w)) in *; assert (E1 : gat c w1 = h (gat c w)) by apply (gat_upd_Good T c c h w G Hc) end.
    rewrite E1 in *. cbn [g_cursor g_set_cursor Z.to_nat] in *. rewrite Nat.sub_0_r in *.
    apply cycle_end_ok in Hok as Hok2. apply Mid_end; auto.
    apply (scan_good _ c (step_eval_graph T beh rr HT f) IH _ 0%nat); auto.
    split; [|split; [rewrite E1; reflexivity|intros; lia]].
    apply (Good_upd T (S c) c); auto using (Good_weaken T c (S c)); [|intros; lia].
    apply idle_ok_evaluating. change (g_evaluating (gat c w1) = true). rewrite E1. reflexivity.
  Qed.
End INV.

(* the same of the start of graph c, which sets c's clock to t: the clock premises are those of [ev_clocks] *)
Definition st_good (T : tcfg) (sc : nat -> Z -> world -> world) : Prop :=
  forall c t w, Good T c w -> clocks_ok T w -> now_of c w <= t ->
    (forall pg pn, gc_parent (gcfg_at T c) = Some (pg, pn) -> t <= now_of pg w) ->
    (c < length T)%nat -> ok (sc c t w) = true -> Good T c (sc c t w).

Section START_INV.
  Variable T : tcfg.
  Variable beh : behaviour.
  Hypothesis HT : wf_tree T.

  (* a graph that starts is not in a cycle: [Quiet g] throughout, where the scan of a cycle of g has [Quiet (S g)] *)
  Lemma start_node_good sc g i w : ev_step sc -> st_good T sc ->
    Good T g w -> clocks_ok T w -> ok (start_node T beh sc g i w) = true -> Good T g (start_node T beh sc g i w).
  Proof.
    intros Hst Hs G CK Hok. apply start_node_inv; auto using Good_stable. intros E _.
    set (c := c_child (ncfg_at T g i)). assert (Hc : (g < c)%nat) by apply (child_gt T g i HT E).
    assert (Hpar : gc_parent (gcfg_at T c) = Some (g, i)) by (destruct HT as (_ & HK & _); apply HK, E).
    apply (Good_call T g c w); auto; [apply Hst; auto with step|]. apply Hs; auto.
    - apply (Good_weaken T g); auto; lia.
    - apply (CK _ _ _ Hpar).
    - intros pg pn Hp. rewrite Hpar in Hp. inversion Hp; subst. lia.
    - apply (has_parent_in_range T c g i Hpar).
    - (* the node start returns a failed child start as it is *)
      unfold start_node in Hok. rewrite E in Hok. fold c in Hok.
      destruct (ok w) eqn:O; cbn [negb] in Hok; [|congruence].
      destruct (ok (sc c (now_of g w) w)) eqn:O1; cbn [negb] in Hok; congruence.
  Qed.

  Lemma start_nodes_err sc g : forall k i w, ok w = false -> start_nodes T beh sc g i k w = w.
  Proof.
    induction k as [|k IH]; intros i w H; simpl; auto.
    replace (start_node T beh sc g i w) with w by (unfold start_node; rewrite H; reflexivity). auto.
  Qed.

  Lemma start_nodes_good sc g : ev_step sc -> st_good T sc -> ev_clocks T sc -> forall k i w,
    Good T g w -> clocks_ok T w -> ok (start_nodes T beh sc g i k w) = true ->
    Good T g (start_nodes T beh sc g i k w).
  Proof.
    intros Hst Hs Hck. induction k as [|k IH]; intros i w G CK Hok; simpl in *; auto.
    destruct (ok (start_node T beh sc g i w)) eqn:Hok1.
    - apply IH; auto using start_node_good, (clocks_start_node T beh HT).
    - rewrite start_nodes_err in Hok by exact Hok1. congruence.
  Qed.

  Lemma start_graph_good : forall f, st_good T (start_graph f T beh).
  Proof.
    induction f as [|f IH]; intros c t w G CK Hn Hp Hc Hok; [discriminate|]. simpl in *.
    set (w0 := upd_g c (g_set_now t) w) in *.
    (* the clock only moves forward ([Hn]), so no further slot of an already started c becomes armed: what was
       covered stays covered *)
    assert (G0 : Good T c w0).
    { apply Good_upd; auto using (Good_weaken T c (S c)); unfold idle_ok, covered; rewrite (gat_upd_Good T c) by auto.
      - intros E. destruct G as (C & _). destruct (C c E) as [A B]. split; auto.
        intros S j Hj Hs Ha. apply (B S j Hj Hs). unfold now_of, slot_at in *. simpl in Ha. lia.
      - intros _. apply G; auto. }
    match type of Hok with ok (if negb (ok ?w1') then _ else _) = true => set (w1 := w1') in * end.
    destruct (ok w1) eqn:Hok1; cbn [negb] in *; [|congruence].
    assert (G1 : Good T c w1).
    { apply start_nodes_good; auto using step_start_graph, (clocks_start_graph T beh HT).
      apply clocks_upd_now with (t := t); auto. apply HT. }
    assert (Ev1 : g_evaluating (gat c w1) = false) by (apply G1; auto).
    apply Good_upd; auto using (Good_weaken T c (S c)); unfold idle_ok, covered; rewrite (gat_upd_Good T c) by auto;
      [|intros _; exact Ev1].
    intros _. split; [apply (proj1 G1 c Ev1)|].
    intros _ j _ Hj Ha. apply (seed_fold _ _ MAX_DT); [apply nth_In; exact Hj|simpl in Ha; lia].
  Qed.
End START_INV.

Section RUN_INV.
  Variable T : tcfg.
  Variable beh : behaviour.
  Variable rr : bool.
  Hypothesis HT : wf_tree T.

  Lemma init_good : Good T 0 (init_world T).
  Proof.
    split; [|split].
    - intros g E. rewrite gat_init. simpl. split; [right; reflexivity|]. intros H; discriminate.
    - intros a _. rewrite gat_init. reflexivity.
    - unfold init_world; simpl. apply map_length.
  Qed.

  Definition whole (w : world) : Prop :=
    run_inv T w /\ (no_try T -> (0 < length T)%nat -> ok w = true -> Good T 0 w).

  Theorem run_sim_whole start end_ fuel : 0 <= start <= MAX_DT -> end_ <= MAX_DT ->
    whole (run_sim T beh rr start end_ fuel).
  Proof.
    intros Hs He. assert (HR := proj2 (proj2 HT)). unfold run_sim. apply run_loop_rule.
    - intros w [R G]. split; [exact R|discriminate].
    - intros w [[C R] G] Hok Hn. split; [split|intros HN HL Hok'].
      + apply (clocks_eval_graph T beh HT rr (S (length T))); [exact C|exact R|congruence].
      + apply (root_cache_eval_root T beh HT); auto; lia.
      + apply (eval_graph_good T beh HT HN rr); auto.
    - destruct (init_run_inv T) as [C R].
      assert (E : gat 0 (init_world T) = init_g (length (gc_nodes (gcfg_at T 0)))) by apply gat_init.
      assert (N : now_of 0 (init_world T) <= start) by (unfold now_of; rewrite E; simpl; unfold MIN_DT; lia).
      split; [split|intros HN HL Hok].
      + apply (clocks_start_graph T beh HT (S (length T))); auto. congruence.
      + apply (root_cache_start_root T beh HT); auto; rewrite ?E; simpl; lia.
      + apply (start_graph_good T beh HT); auto using init_good. congruence.
  Qed.
End RUN_INV.

(* the owners of graph c, up to the root, are armed and due no later than what they own.  The push and the pull
   (Props/C09.parent_due_no_later_push, _pull) bound one owner slot by the clamped time each; no lemma derives
   [owners_due] from them. *)
Fixpoint owners_due (d : nat) (T : tcfg) (c : nat) (w : world) : Prop :=
  match gc_parent (gcfg_at T c) with
  | None => c = 0%nat
  | Some (pg, pn) =>
      match d with
      | O => False
      | S d' =>
          g_started (gat pg w) = true
          /\ (pn < length (gc_nodes (gcfg_at T pg)))%nat /\ (pn < length (g_slots (gat pg w)))%nat
          /\ g_now (gat pg w) < slot_at pn (gat pg w) <= g_nst (gat c w)
          /\ owners_due d' T pg w
      end
  end.

Lemma wf_nest2 : wf_tree (decode nest2_case).
Proof.
  repeat split.
  - intros g pg pn. destruct g as [|[|[|[|g]]]]; vm_compute; intros H; try discriminate; inversion H; subst; lia.
  - intros g i. destruct g as [|[|[|[|g]]]]; destruct i as [|[|[|[|[|[|i]]]]]]; vm_compute; intros H; try discriminate; reflexivity.
Qed.

Lemma no_try_nest2 : no_try (decode nest2_case).
Proof.
  intros g i. destruct g as [|[|[|[|g]]]]; destruct i as [|[|[|[|[|[|i]]]]]]; vm_compute; split; intros H; discriminate.
Qed.
