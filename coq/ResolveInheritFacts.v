(* ResolveInheritFacts.v — nominal bundle inheritance (TypeRegistry::bundle_inheritance_distance,
   bundle_is_a; they feed input_accepts_output_schema and input_adaptation_rank).

   [bdist b c] is the length of the SHORTEST chain of parent edges from c up to the bundle named b, and it
   does not depend on the order in which any bundle of the ancestry declares its parents ([hsame]). *)
Require Import Base Resolve ResolveMatchFacts.
From Coq Require Import Permutation.

Definition olist_min (l : list (option nat)) : option nat := fold_right omin None l.

Lemma olist_min_cons x l : olist_min (x :: l) = omin x (olist_min l).
Proof. reflexivity. Qed.

Lemma omin_comm a b : omin a b = omin b a.
Proof. destruct a, b; cbn; auto. f_equal. lia. Qed.

Lemma omin_assoc a b c : omin a (omin b c) = omin (omin a b) c.
Proof. destruct a, b, c; cbn; auto. f_equal. lia. Qed.

Lemma olist_min_perm l l' : Permutation l l' -> olist_min l = olist_min l'.
Proof.
  induction 1 as [|x l l' _ IH|x y l|]; rewrite ?olist_min_cons.
  - reflexivity.
  - rewrite IH. reflexivity.
  - rewrite !omin_assoc, (omin_comm y x). reflexivity.
  - congruence.
Qed.

Lemma olist_min_in l : forall k, olist_min l = Some k -> In (Some k) l.
Proof.
  induction l as [|x r IH]; intros k; [discriminate|]. rewrite olist_min_cons.
  destruct x as [a|], (olist_min r) as [m|] eqn:E; cbn [omin]; intros H; inversion H; subst.
  - destruct (Nat.min_dec a m) as [Hm|Hm]; rewrite Hm; [left; auto | right; apply IH; auto].
  - left; auto.
  - right. apply IH. auto.
Qed.

Lemma olist_min_le l x : In (Some x) l -> exists m, olist_min l = Some m /\ (m <= x)%nat.
Proof.
  induction l as [|y r IH]; intros H; [destruct H|]. rewrite olist_min_cons.
  destruct H as [->|H].
  - destruct (olist_min r) as [m|]; cbn [omin]; eexists; split; eauto; lia.
  - destruct (IH H) as [m [E Hm]]. rewrite E. destruct y as [a|]; cbn [omin]; eexists; split; eauto; lia.
Qed.

Lemma bdist_bundle b id ps :
  bdist b (SBundle id ps) =
  if id =? b then Some O else olist_min (map (fun p => option_map S (bdist b p)) ps).
Proof.
  cbn [bdist]. destruct (id =? b); [reflexivity|].
  induction ps as [|p r IH]; cbn [fold_right map]; [reflexivity|]. rewrite IH. reflexivity.
Qed.

Inductive hsame : sty -> sty -> Prop :=
| hs_refl s : hsame s s
| hs_bundle id ps qs ps' : Forall2 hsame ps qs -> Permutation qs ps' -> hsame (SBundle id ps) (SBundle id ps').

Lemma bdist_hsame b c : forall c', hsame c c' -> bdist b c = bdist b c'.
Proof.
  induction c as [a | l IH | e IH | e IH | k v IHk IHv | id ps IH] using sty_ind'; intros c' H;
    inversion H as [|? ? qs ps' HF HP]; subst; auto.
  rewrite !bdist_bundle. destruct (id =? b); auto.
  rewrite <- (olist_min_perm _ _ (Permutation_map (fun p => option_map S (bdist b p)) HP)).
  f_equal. clear H HP. revert qs HF. induction IH as [|p r Hp _ IHr]; intros qs HF; inversion HF as [|? q ? qs' Hq HF']; subst; cbn [map]; auto.
  rewrite (Hp _ Hq). f_equal. apply IHr, HF'.
Qed.

Inductive bpath (b : Z) : nat -> sty -> Prop :=
| bp_here ps : bpath b 0 (SBundle b ps)
| bp_up id ps p k : In p ps -> bpath b k p -> bpath b (S k) (SBundle id ps).

Lemma bdist_is_path b c : forall k, bdist b c = Some k -> bpath b k c.
Proof.
  induction c as [a | l IH | e IH | e IH | kk v IHk IHv | id ps IH] using sty_ind'; intros k; try (cbn [bdist]; discriminate).
  rewrite bdist_bundle. destruct (id =? b) eqn:E.
  - intros H; inversion H; subst. assert (id = b) by lia. subst. constructor.
  - intros H. apply olist_min_in in H. apply in_map_iff in H. destruct H as [p [Hp Hin]].
    destruct (bdist b p) as [k'|] eqn:Ep; cbn [option_map] in Hp; [|discriminate]. inversion Hp; subst.
    econstructor; eauto. rewrite Forall_forall in IH. apply IH; auto.
Qed.

Lemma path_bounds_bdist b j c : bpath b j c -> exists k, bdist b c = Some k /\ (k <= j)%nat.
Proof.
  induction 1 as [ps | id ps p k Hin Hp IH].
  - rewrite bdist_bundle, Z.eqb_refl. exists O. auto.
  - rewrite bdist_bundle. destruct (id =? b); [exists O; split; auto; lia|].
    destruct IH as [k' [E Hk]].
    destruct (olist_min_le (map (fun p => option_map S (bdist b p)) ps) (S k')) as [m [Em Hm]].
    + apply in_map_iff. exists p. rewrite E. auto.
    + exists m. split; auto. lia.
Qed.
