(* CollFacts.v — the key slot store and the TSS storage of Coll.v: invariants, what each storage operation does
   slot by slot, and the step theorems of a TSS cycle.  (The TSD storage is in TsdFacts.v / TsdValueFacts.v.) *)
Require Import Base Coll.
From Coq Require Import Arith.

Local Open Scope nat_scope.

Lemma nth_set_nth {A} i j (v : A) l d :
  nth j (set_nth i v l) d = if (j =? i) && (i <? length l) then v else nth j l d.
Proof. unfold set_nth. apply nth_update. Qed.

Lemma bit_set_nth i j b l : bit j (set_nth i b l) = if (j =? i) && (i <? length l) then b else bit j l.
Proof. unfold bit. apply nth_set_nth. Qed.

Lemma bit_overflow i l : length l <= i -> bit i l = false.
Proof. intros H. unfold bit. apply nth_overflow; exact H. Qed.

Lemma resize_length n l : length (resize n l) = n.
Proof. unfold resize. rewrite app_length, firstn_length, repeat_length. lia. Qed.

Lemma nth_firstn_lt {A} i n (l : list A) d : i < n -> nth i (firstn n l) d = nth i l d.
Proof.
  revert i l. induction n as [|n IH]; intros i l H; [lia|].
  destruct l as [|x r]; simpl; auto. destruct i; auto. apply IH; lia.
Qed.

Lemma nth_app_repeat {A} i (l : list A) d n : nth i (l ++ repeat d n) d = nth i l d.
Proof.
  destruct (Nat.lt_ge_cases i (length l)) as [L|L]; [apply app_nth1, L|].
  rewrite app_nth2, nth_repeat by exact L. symmetry. apply nth_overflow, L.
Qed.

Lemma bit_resize i n l : bit i (resize n l) = (i <? n) && bit i l.
Proof.
  unfold bit, resize.
  destruct (Nat.ltb_spec i n) as [L|L]; cbn [andb].
  - destruct (Nat.lt_ge_cases i (length l)) as [L2|L2].
    + rewrite app_nth1 by (rewrite firstn_length; lia).
      apply nth_firstn_lt; exact L.
    + rewrite app_nth2 by (rewrite firstn_length; lia).
      rewrite (nth_overflow l) by lia.
      apply nth_repeat.
  - apply nth_overflow. rewrite app_length, firstn_length, repeat_length. lia.
Qed.

Lemma bit_resize_grow i n l : length l <= n -> bit i (resize n l) = bit i l.
Proof.
  intros H. rewrite bit_resize. destruct (Nat.ltb_spec i n) as [L|L]; auto.
  cbn [andb]. symmetry. apply bit_overflow; lia.
Qed.

Lemma clear_bits_length l : length (clear_bits l) = length l.
Proof. unfold clear_bits. apply map_length. Qed.

Lemma bit_clear i l : bit i (clear_bits l) = false.
Proof.
  unfold bit, clear_bits. revert i. induction l as [|x r IH]; intros [|i]; simpl; auto.
Qed.

Lemma find_from_spec {A} (p : A -> bool) n l d :
  match find_from p n l with
  | Some i => n <= i /\ i - n < length l /\ p (nth (i - n) l d) = true /\ forall j, j < i - n -> p (nth j l d) = false
  | None => forall j, j < length l -> p (nth j l d) = false
  end.
Proof.
  revert n. induction l as [|x r IH]; intros n; cbn [find_from length]; [lia|].
  destruct (p x) eqn:E.
  - rewrite Nat.sub_diag. repeat split; auto; lia.
  - specialize (IH (S n)). destruct (find_from p (S n) r) as [i|].
    + destruct IH as [H1 [H2 [H3 H4]]]. replace (i - n) with (S (i - S n)) by lia.
      repeat split; try lia; auto. intros [|j] L; [exact E|apply H4; lia].
    + intros [|j] L; [exact E|apply IH; lia].
Qed.

Lemma find_from_first {A} (p : A -> bool) n l i d :
  find_from p n l = Some i -> forall j, j < i - n -> p (nth j l d) = false.
Proof. intros H. pose proof (find_from_spec p n l d) as S. rewrite H in S. apply S. Qed.

Lemma keys_where_in f n l k :
  In k (keys_where f n l) <-> exists j, j < length l /\ f (n + j) (nth j l free_slot) = true /\ s_key (nth j l free_slot) = k.
Proof.
  revert n. induction l as [|x r IH]; intros n; simpl.
  - split; [tauto|]. intros [j [H _]]; lia.
  - destruct (f n x) eqn:E.
    + simpl. rewrite IH. split.
      * intros [H|[j [H1 [H2 H3]]]].
        -- exists 0. rewrite Nat.add_0_r. repeat split; auto; lia.
        -- exists (S j). replace (n + S j) with (S n + j) by lia. repeat split; auto; lia.
      * intros [[|j] [H1 [H2 H3]]]; [left; auto|].
        right. exists j. replace (S n + j) with (n + S j) by lia. repeat split; auto; lia.
    + rewrite IH. split.
      * intros [j [H1 [H2 H3]]]. exists (S j). replace (n + S j) with (S n + j) by lia. repeat split; auto; lia.
      * intros [[|j] [H1 [H2 H3]]].
        -- rewrite Nat.add_0_r in H2. congruence.
        -- exists j. replace (S n + j) with (n + S j) by lia. repeat split; auto; lia.
Qed.

Definition count {A} (p : A -> bool) (l : list A) : nat := length (filter p l).

Lemma count_app {A} (p : A -> bool) l1 l2 : count p (l1 ++ l2) = count p l1 + count p l2.
Proof. unfold count. rewrite filter_app, app_length. reflexivity. Qed.

Lemma count_repeat_false {A} (p : A -> bool) x n : p x = false -> count p (repeat x n) = 0.
Proof. intros H. unfold count. induction n; simpl; auto. rewrite H. exact IHn. Qed.

Lemma count_set_nth {A} (p : A -> bool) i x l d :
  i < length l ->
  count p (set_nth i x l) + (if p (nth i l d) then 1 else 0) = count p l + (if p x then 1 else 0).
Proof.
  unfold count, set_nth. revert i. induction l as [|y r IH]; intros [|i] L; simpl in *; try lia.
  - destruct (p x), (p y); simpl; lia.
  - specialize (IH i ltac:(lia)). destruct (p y); simpl; lia.
Qed.

Lemma count_zero {A} (p : A -> bool) l d : p d = false -> (count p l = 0 <-> forall i, p (nth i l d) = false).
Proof.
  intros D. unfold count. induction l as [|x r IH]; cbn [filter].
  - split; [intros _ [|i]; exact D|reflexivity].
  - destruct (p x) eqn:E; cbn [length].
    + split; [discriminate|]. intros H. specialize (H 0). cbn in H. congruence.
    + rewrite IH. split; [intros H [|i]; [exact E|apply H]|intros H i; apply (H (S i))].
Qed.

Lemma slot_at_overflow s i : ks_cap s <= i -> slot_at s i = free_slot.
Proof. intros H. unfold slot_at. apply nth_overflow. exact H. Qed.

Definition is_st (x : sstate) (s : slot) : Prop := s_st s = x.

Lemma constructed_iff s : constructed s = true <-> s_st s <> SFree.
Proof. unfold constructed. destruct (s_st s); simpl; split; intros; congruence. Qed.
Lemma live_iff s : live s = true <-> s_st s = SLive.
Proof. unfold live. destruct (s_st s); simpl; split; intros; congruence. Qed.
Lemma pend_iff s : pend s = true <-> s_st s = SPend.
Proof. unfold pend. destruct (s_st s); simpl; split; intros; congruence. Qed.

Lemma slot_eta x : mkSlot (s_st x) (s_key x) = x.
Proof. destruct x; reflexivity. Qed.

Lemma slot_at_lt_of_state s i : s_st (slot_at s i) <> SFree -> i < ks_cap s.
Proof.
  intros H. destruct (Nat.lt_ge_cases i (ks_cap s)); auto.
  rewrite slot_at_overflow in H by auto. contradiction H. reflexivity.
Qed.

Lemma slot_at_lt_of_constructed s i : constructed (slot_at s i) = true -> i < ks_cap s.
Proof. intros C. apply slot_at_lt_of_state, constructed_iff, C. Qed.

Lemma keys_where_state ks (g : slot -> bool) (hb : nat -> bool) y k :
  y <> SFree -> (forall k', g (mkSlot y k') = true) ->
  (forall i, g (slot_at ks i) && hb i = true -> s_st (slot_at ks i) = y) ->
  (In k (keys_where (fun i x => g x && hb i) 0 (ks_slots ks)) <-> exists i, slot_at ks i = mkSlot y k /\ hb i = true).
Proof.
  intros Ny G ST. rewrite keys_where_in. split.
  - intros [j [L [F E]]]. cbn in F. fold (slot_at ks j) in F, E. exists j. split; [|apply andb_true_iff in F; apply F].
    rewrite <- (slot_eta (slot_at ks j)), (ST j F), E. reflexivity.
  - intros [i [Q H]]. exists i. fold (slot_at ks i). rewrite Q. cbn. rewrite G, H.
    split; [|auto]. apply slot_at_lt_of_state. rewrite Q. exact Ny.
Qed.

Record KInv (s : kstore) : Prop := mkKInv {
  ki_uniq : forall i j, constructed (slot_at s i) = true -> constructed (slot_at s j) = true ->
                        s_key (slot_at s i) = s_key (slot_at s j) -> i = j;
  ki_nodup : NoDup (ks_free s);
  ki_free : forall i, In i (ks_free s) <-> (i < ks_cap s /\ s_st (slot_at s i) = SFree);
  ki_pend : forall i, s_st (slot_at s i) = SPend -> In i (ks_pend s);
  ki_count : ks_pcount s = count pend (ks_slots s)
}.

Lemma kinv_empty : KInv k_empty.
Proof.
  constructor; simpl; try constructor.
  - intros i j H. unfold slot_at in H. simpl in H. destruct i; discriminate.
  - intros [].
  - intros [H _]. unfold ks_cap in H. simpl in H. lia.
  - intros i H. unfold slot_at in H. simpl in H. destruct i; discriminate.
Qed.

Lemma find_stored_some s k i :
  find_stored s k = Some i -> i < ks_cap s /\ constructed (slot_at s i) = true /\ s_key (slot_at s i) = k.
Proof.
  unfold find_stored. intros H. pose proof (find_from_spec (stored_p k) 0 (ks_slots s) free_slot) as S.
  rewrite H, Nat.sub_0_r in S. destruct S as [_ [L [P _]]]. apply andb_true_iff in P. destruct P as [C E].
  split; [exact L|]. split; [exact C|]. apply Z.eqb_eq, E.
Qed.

Lemma find_stored_none s k i :
  find_stored s k = None -> constructed (slot_at s i) = true -> s_key (slot_at s i) <> k.
Proof.
  unfold find_stored. intros H C E. pose proof (find_from_spec (stored_p k) 0 (ks_slots s) free_slot) as S.
  rewrite H in S. specialize (S i (slot_at_lt_of_constructed s i C)).
  unfold stored_p in S. fold (slot_at s i) in S. rewrite C in S. simpl in S. lia.
Qed.

Lemma find_stored_uniq s k i :
  KInv s -> constructed (slot_at s i) = true -> s_key (slot_at s i) = k -> find_stored s k = Some i.
Proof.
  intros K C E. destruct (find_stored s k) as [j|] eqn:F; [|destruct (find_stored_none s k i F C E)].
  destruct (find_stored_some s k j F) as [_ [C2 E2]]. f_equal. apply (ki_uniq s K); auto. congruence.
Qed.

Lemma find_live_some s k i : find_live s k = Some i -> slot_at s i = mkSlot SLive k.
Proof.
  unfold find_live. destruct (find_stored s k) as [j|] eqn:F; [|discriminate].
  destruct (live (slot_at s j)) eqn:L; [|discriminate]. intros H; inversion H; subst j.
  destruct (find_stored_some s k i F) as [_ [_ E]]. apply live_iff in L.
  rewrite <- (slot_eta (slot_at s i)). congruence.
Qed.

Lemma find_live_none s k i : KInv s -> find_live s k = None -> slot_at s i <> mkSlot SLive k.
Proof.
  intros K F Q. unfold find_live in F.
  rewrite (find_stored_uniq s k i K), Q in F by (rewrite Q; reflexivity). discriminate.
Qed.

Lemma slot_uniq s i j k x y :
  KInv s -> slot_at s i = mkSlot x k -> slot_at s j = mkSlot y k -> x <> SFree -> y <> SFree -> i = j.
Proof. intros K Hi Hj Hx Hy. apply (ki_uniq s K); rewrite ?Hi, ?Hj; try apply constructed_iff; auto. Qed.

Lemma live_keys_in s k : In k (live_keys s) <-> exists i, slot_at s i = mkSlot SLive k.
Proof.
  unfold live_keys. rewrite keys_where_in. unfold slot_at. split.
  - intros [j [L [H1 H2]]]. exists j. rewrite <- (slot_eta (nth j _ _)). apply live_iff in H1. congruence.
  - intros [i H]. assert (L : i < ks_cap s) by (apply slot_at_lt_of_state; unfold slot_at; rewrite H; discriminate).
    exists i. rewrite H. repeat split; auto.
Qed.

Lemma k_reserve_slot c s i : slot_at (k_reserve c s) i = slot_at s i.
Proof.
  unfold k_reserve. destruct (c <=? ks_cap s); auto. apply nth_app_repeat.
Qed.

Lemma k_reserve_cap c s : ks_cap (k_reserve c s) = Nat.max c (ks_cap s).
Proof.
  unfold k_reserve. destruct (Nat.leb_spec c (ks_cap s)) as [L|L]; [lia|].
  unfold ks_cap in *. simpl. rewrite app_length, repeat_length. lia.
Qed.

Lemma k_reserve_inv c s : KInv s -> KInv (k_reserve c s).
Proof.
  intros K. pose proof (k_reserve_slot c s) as SL. pose proof (k_reserve_cap c s) as CP.
  unfold k_reserve in *. destruct (Nat.leb_spec c (ks_cap s)) as [L|L]; auto.
  constructor.
  - intros i j. rewrite !SL. apply (ki_uniq s K).
  - simpl. apply NoDup_app_intro.
    + apply seq_NoDup.
    + apply (ki_nodup s K).
    + intros x H1 H2. apply in_seq in H1. apply (ki_free s K) in H2. lia.
  - intros i. rewrite SL, CP. simpl. rewrite in_app_iff, in_seq, (ki_free s K).
    split.
    + intros [H|[H1 H2]]; split; try lia; auto.
      rewrite slot_at_overflow by lia. reflexivity.
    + intros [H1 H2]. destruct (Nat.lt_ge_cases i (ks_cap s)); [right; auto|left; lia].
  - intros i. rewrite SL. simpl. apply (ki_pend s K).
  - simpl. rewrite count_app, count_repeat_false by reflexivity. rewrite (ki_count s K). lia.
Qed.

Lemma ks_cap_set s i x fr pd pc : ks_cap (mkK (set_nth i x (ks_slots s)) fr pd pc) = ks_cap s.
Proof. apply set_nth_length. Qed.

Lemma slot_at_set s i x fr pd pc j : i < ks_cap s ->
  slot_at (mkK (set_nth i x (ks_slots s)) fr pd pc) j = if j =? i then x else slot_at s j.
Proof.
  intros L. unfold slot_at. cbn [ks_slots]. rewrite nth_set_nth.
  apply Nat.ltb_lt in L. unfold ks_cap in L. rewrite L, andb_true_r. reflexivity.
Qed.

(* [fr], [pd], [pc]: the free stack, the pending list and the pending count that go with the new slot.  The list
   need not be right when the count is zero: then no slot is pending. *)
Lemma kinv_set s i x fr pd pc :
  KInv s -> i < ks_cap s -> s_st x <> SFree ->
  (forall j, constructed (slot_at s j) = true -> s_key (slot_at s j) = s_key x -> j = i) ->
  ks_free s = (if constructed (slot_at s i) then fr else i :: fr) ->
  (forall j, pc <> 0 -> s_st (if j =? i then x else slot_at s j) = SPend -> In j pd) ->
  pc = ks_pcount s + (if pend x then 1 else 0) - (if pend (slot_at s i) then 1 else 0) ->
  KInv (mkK (set_nth i x (ks_slots s)) fr pd pc).
Proof.
  intros K L NF U FS PD CNT.
  pose proof (ki_nodup s K) as ND. rewrite FS in ND.
  pose proof (count_set_nth pend i x (ks_slots s) free_slot L) as Q. fold (slot_at s i) in Q.
  rewrite <- (ki_count s K) in Q.
  constructor; cbn [ks_free ks_pend ks_pcount ks_slots].
  - intros a b. rewrite !slot_at_set by exact L.
    destruct (Nat.eqb_spec a i) as [->|Ea], (Nat.eqb_spec b i) as [->|Eb]; intros Ca Cb Ek; auto.
    + symmetry. apply U; auto.
    + apply (ki_uniq s K); auto.
  - destruct (constructed (slot_at s i)); [exact ND|inversion ND; assumption].
  - intros j. pose proof (ki_free s K j) as Fj. rewrite FS in Fj. rewrite ks_cap_set, slot_at_set by exact L.
    (* slot [i] is not free afterwards; it was on the stack exactly if it was free, and then on top only *)
    destruct (constructed (slot_at s i)) eqn:C; [apply constructed_iff in C|inversion ND; subst; cbn [In] in Fj];
      destruct (Nat.eqb_spec j i) as [->|E]; intuition congruence.
  - intros j P. apply PD; [|rewrite <- (slot_at_set s i x fr pd pc j L); exact P].
    intros Z. assert (C0 : count pend (set_nth i x (ks_slots s)) = 0) by lia.
    apply pend_iff in P. unfold slot_at in P. cbn [ks_slots] in P.
    rewrite (proj1 (count_zero pend _ free_slot eq_refl) C0 j) in P. discriminate.
  - lia.
Qed.

Lemma key_home s i k :
  KInv s -> match s_st (slot_at s i) with SFree => find_stored s k = None | _ => s_key (slot_at s i) = k end ->
  forall j, constructed (slot_at s j) = true -> s_key (slot_at s j) = k -> j = i.
Proof.
  intros K PRE j C E.
  destruct (s_st (slot_at s i)) eqn:X.
  - destruct (find_stored_none _ _ j PRE C E).
  - apply (ki_uniq s K); auto; [apply constructed_iff; rewrite X; discriminate|]. congruence.
  - apply (ki_uniq s K); auto; [apply constructed_iff; rewrite X; discriminate|]. congruence.
Qed.

(* [s'] is [s] with slot [i] set to key [k] in state [x]; before, the slot held [k] too, or was free with [k] stored
   nowhere *)
Definition k_set (s : kstore) (i : nat) (x : sstate) (k : Z) (s' : kstore) : Prop :=
  KInv s' /\ ks_cap s <= ks_cap s' /\ i < ks_cap s' /\
  (forall j, slot_at s' j = if j =? i then mkSlot x k else slot_at s j) /\
  match s_st (slot_at s i) with SFree => find_stored s k = None | _ => s_key (slot_at s i) = k end.

Lemma k_set_self s i x k : KInv s -> slot_at s i = mkSlot x k -> x <> SFree -> k_set s i x k s.
Proof.
  intros K Q N. split; [exact K|]. split; [lia|]. split; [apply slot_at_lt_of_state; rewrite Q; exact N|].
  split; [intros j; destruct (Nat.eqb_spec j i) as [->|]; auto|]. rewrite Q. destruct x; [contradiction| |]; reflexivity.
Qed.

(* stated of the store with [f] put back on the stack: that one is well formed, with the slots of [s] *)
Lemma k_acquire_spec s f s1 :
  KInv s -> k_acquire s = (f, s1) ->
  KInv (mkK (ks_slots s1) (f :: ks_free s1) (ks_pend s1) (ks_pcount s1)) /\
  (forall j, slot_at s1 j = slot_at s j) /\ ks_cap s <= ks_cap s1.
Proof.
  intros K H. unfold k_acquire in H.
  set (c := Nat.max (ks_size s + 1) (Nat.max 8 (ks_cap s * 2))) in H.
  set (s0 := match ks_free s with [] => k_reserve c s | _ => s end) in H.
  assert (K0 : KInv s0 /\ (forall j, slot_at s0 j = slot_at s j) /\ ks_cap s <= ks_cap s0 /\ ks_free s0 <> []).
  { unfold s0. destruct (ks_free s) eqn:E; [|split; [exact K|]; split; [reflexivity|]; split; [lia|rewrite E; discriminate]].
    split; [apply k_reserve_inv, K|]. split; [apply k_reserve_slot|]. rewrite k_reserve_cap. split; [lia|].
    unfold k_reserve. destruct (Nat.leb_spec c (ks_cap s)); [lia|]. cbn [ks_free].
    destruct (c - ks_cap s) eqn:D; [lia|discriminate]. }
  clearbody s0. destruct K0 as [K0 [SL [CP NE]]].
  destruct s0 as [sl [|f0 r] pd pc]; [contradiction NE; reflexivity|].
  inversion H; subst f s1. auto.
Qed.

Lemma k_insert_spec k s r s' :
  KInv s -> k_insert k s = (r, s') ->
  let i := ir_slot r in
  k_set s i SLive k s' /\
  match s_st (slot_at s i) with
  | SLive => ir_inserted r = false /\ ir_constructed r = false
  | SPend => ir_inserted r = true /\ ir_constructed r = false
  | SFree => ir_inserted r = true /\ ir_constructed r = true
  end.
Proof.
  intros K H. unfold k_insert in H.
  destruct (find_stored s k) as [i|] eqn:F.
  - destruct (find_stored_some s k i F) as [L [C E]]. apply constructed_iff in C.
    unfold pend in H. destruct (s_st (slot_at s i)) eqn:X; [contradiction| |]; cbn [sstate_eqb] in H;
      injection H as <- <-; cbn [ir_slot ir_inserted ir_constructed]; rewrite X; (split; [|auto]).
    + apply k_set_self; [exact K| |discriminate]. rewrite <- (slot_eta (slot_at s i)), X, E. reflexivity.
    + unfold k_set. rewrite ks_cap_set, X.
      split; [|split; [lia|split; [exact L|split; [intros j; apply slot_at_set, L|exact E]]]].
      apply kinv_set; auto; try discriminate.
      * apply (key_home s i k K). rewrite X. exact E.
      * unfold constructed. rewrite X. reflexivity.
      * intros j Z Q. apply Nat.eqb_neq in Z. rewrite Z. destruct (Nat.eqb_spec j i); [discriminate|apply (ki_pend s K), Q].
      * unfold pend. rewrite X. cbn. lia.
  - destruct (k_acquire s) as [f s1] eqn:A.
    destruct (k_acquire_spec s f s1 K A) as [K0 [SL1 CP1]].
    injection H as <- <-. cbn [ir_slot ir_inserted ir_constructed]. unfold k_set.
    set (s0 := mkK (ks_slots s1) (f :: ks_free s1) (ks_pend s1) (ks_pcount s1)) in *.
    assert (SL0 : forall j, slot_at s0 j = slot_at s j) by exact SL1.
    destruct (proj1 (ki_free s0 K0 f) ltac:(left; reflexivity)) as [Lf Ff].
    rewrite SL0 in Ff. rewrite Ff.
    change (ks_slots s1) with (ks_slots s0). rewrite ks_cap_set.
    split; [|auto]. split; [|split; [exact CP1|split; [exact Lf|split; [intros j; rewrite slot_at_set, SL0 by exact Lf; reflexivity|exact F]]]].
    apply kinv_set; auto; try discriminate.
    + intros j Cj Ek. rewrite SL0 in *. destruct (find_stored_none s k j F Cj Ek).
    + unfold constructed. rewrite SL0, Ff. reflexivity.
    + intros j _ Q. destruct (Nat.eqb_spec j f); [discriminate|]. apply (ki_pend s0 K0), Q.
    + unfold pend. rewrite SL0, Ff. cbn. lia.
Qed.

(* of a live slot, as [find_live] hands it to the two remove_key *)
Lemma k_remove_slot_spec i s k :
  KInv s -> slot_at s i = mkSlot SLive k -> exists s', k_remove_slot i s = (true, s') /\ k_set s i SPend k s'.
Proof.
  intros K LV. unfold k_remove_slot. rewrite LV. eexists. split; [reflexivity|].
  assert (L : i < ks_cap s) by (apply slot_at_lt_of_state; rewrite LV; discriminate).
  unfold k_set. rewrite LV, ks_cap_set. split; [|split; [lia|split; [exact L|split; [intros j; apply slot_at_set, L|reflexivity]]]].
  apply kinv_set; auto; try discriminate.
  - apply (key_home s i _ K). rewrite LV. reflexivity.
  - rewrite LV. reflexivity.
  - intros j _ Q. apply in_app_iff. destruct (Nat.eqb_spec j i) as [Ej|Ej]; [right; left; auto|].
    left. apply (ki_pend s K), Q.
  - rewrite LV. cbn. lia.
Qed.

(* The free stack lists the free slots, each once: [ki_nodup] and [ki_free] of [KInv] by conversion, on the bare
   lists that [erase_list] walks; so no lemma connects the two. *)
Definition free_ok (sl : list slot) (fr : list nat) : Prop :=
  NoDup fr /\ forall i, In i fr <-> i < length sl /\ s_st (nth i sl free_slot) = SFree.

(* the premise of the last clause: slot [i] is listed or not pending; a second entry for the same slot finds it free *)
Lemma erase_list_spec l : forall sl fr sl' fr',
  erase_list l sl fr = (sl', fr') -> free_ok sl fr ->
  free_ok sl' fr' /\ length sl' = length sl /\
  forall i, (pend (nth i sl free_slot) = true -> In i l) ->
            nth i sl' free_slot = if pend (nth i sl free_slot) then free_slot else nth i sl free_slot.
Proof.
  induction l as [|a r IH]; intros sl fr sl' fr' H F; cbn [erase_list] in H.
  - injection H as <- <-. split; [exact F|]. split; [reflexivity|]. intros i Hc.
    destruct (pend (nth i sl free_slot)); [destruct (Hc eq_refl)|reflexivity].
  - destruct (pend (nth a sl free_slot)) eqn:P.
    + assert (La : a <? length sl = true).
      { apply Nat.ltb_lt. destruct (Nat.lt_ge_cases a (length sl)); auto. rewrite nth_overflow in P by auto. discriminate. }
      apply IH in H.
      * destruct H as [F' [L' EQ]]. rewrite set_nth_length in L'. split; [exact F'|]. split; [exact L'|].
        intros i Hc. specialize (EQ i). rewrite nth_set_nth, La in EQ.
        destruct (Nat.eqb_spec i a) as [Ei|E]; cbn [andb] in EQ.
        -- rewrite Ei in *. rewrite P. apply EQ. discriminate.
        -- apply EQ. intros Q. destruct (Hc Q) as [Q'|Q']; [congruence|exact Q'].
      * (* slot [a] was pending, so it is not on the stack yet *)
        destruct F as [ND FI]. apply pend_iff in P. split.
        -- constructor; [|exact ND]. intros Q. apply FI in Q. destruct Q as [_ Q]. congruence.
        -- intros i. rewrite set_nth_length, nth_set_nth, La. cbn [In]. rewrite FI. apply Nat.ltb_lt in La.
           destruct (Nat.eqb_spec i a) as [->|E]; cbn; intuition congruence.
    + apply IH in H; [|exact F]. destruct H as [F' [L' EQ]]. split; [exact F'|]. split; [exact L'|].
      intros i Hc. apply EQ. intros Q. destruct (Hc Q) as [Q'|Q']; [congruence|exact Q'].
Qed.

Lemma k_erase_pending_spec s :
  KInv s ->
  KInv (k_erase_pending s) /\ ks_cap (k_erase_pending s) = ks_cap s /\
  forall i, slot_at (k_erase_pending s) i = if pend (slot_at s i) then free_slot else slot_at s i.
Proof.
  intros K. unfold k_erase_pending.
  destruct (Nat.eqb_spec (ks_pcount s) 0) as [Z|Z].
  - (* no slot is pending *)
    split; [exact K|]. split; [reflexivity|]. intros i. rewrite (ki_count s K) in Z.
    unfold slot_at. rewrite (proj1 (count_zero pend _ free_slot eq_refl) Z i). reflexivity.
  - destruct (erase_list (ks_pend s) (ks_slots s) (ks_free s)) as [sl fr] eqn:E.
    destruct (erase_list_spec _ _ _ _ _ E (conj (ki_nodup s K) (ki_free s K))) as [[ND FI] [H1 H2]].
    (* every pending slot is on the list *)
    assert (SL : forall i, slot_at (mkK sl fr [] 0) i = if pend (slot_at s i) then free_slot else slot_at s i).
    { intros i. apply H2. intros P. apply (ki_pend s K), pend_iff, P. }
    assert (NP : forall i, pend (slot_at (mkK sl fr [] 0) i) = false).
    { intros i. rewrite SL. destruct (pend (slot_at s i)) eqn:P; auto. }
    split; [|split; [exact H1|exact SL]].
    constructor.
    + intros a b. rewrite !SL.
      destruct (pend (slot_at s a)) eqn:Pa; [cbn; discriminate|].
      destruct (pend (slot_at s b)) eqn:Pb; [cbn; discriminate|]. apply (ki_uniq s K).
    + exact ND.
    + exact FI.
    + intros i Q. apply pend_iff in Q. rewrite NP in Q. discriminate.
    + symmetry. apply (count_zero pend sl free_slot eq_refl). exact NP.
Qed.

Definition st (s : tss) (i : nat) : slot := slot_at (t_ks s) i.
Definition ab (s : tss) (i : nat) : bool := bit i (t_add s).
Definition rb (s : tss) (i : nat) : bool := bit i (t_rem s).

Record TInv (s : tss) : Prop := mkTInv {
  ti_k : KInv (t_ks s);
  ti_la : length (t_add s) = ks_cap (t_ks s);
  ti_lr : length (t_rem s) = ks_cap (t_ks s);
  ti_bits : forall i, match s_st (st s i) with
                      | SFree => ab s i = false /\ rb s i = false
                      | SLive => rb s i = false
                      | SPend => ab s i = false
                      end
}.

Lemma tinv_empty : TInv tss_empty.
Proof.
  constructor; try reflexivity; [apply kinv_empty|].
  intros i. unfold st, ab, rb, bit, slot_at. simpl. destruct i; simpl; auto.
Qed.

Lemma t_ensure_id s : length (t_add s) = ks_cap (t_ks s) -> t_ensure s = s.
Proof. intros H. unfold t_ensure. rewrite H, Nat.eqb_refl. reflexivity. Qed.

Definition inV (s : tss) (k : Z) : Prop := exists i, st s i = mkSlot SLive k.
Definition inA (s : tss) (k : Z) : Prop := exists i, st s i = mkSlot SLive k /\ ab s i = true.
Definition inR (s : tss) (k : Z) : Prop := exists i, st s i = mkSlot SPend k /\ rb s i = true.
(* "was a member when the current delta window opened" *)
Definition inOld (s : tss) (k : Z) : Prop :=
  exists i, (st s i = mkSlot SLive k /\ ab s i = false) \/ (st s i = mkSlot SPend k /\ rb s i = true).

Lemma inA_iff s k : TInv s -> (inA s k <-> inV s k /\ ~ inOld s k).
Proof.
  intros T. split.
  - intros [i [H1 H2]]. split; [exists i; exact H1|].
    intros [j [[Q1 Q2]|[Q1 Q2]]].
    + assert (i = j) by (apply (slot_uniq _ i j k SLive SLive (ti_k s T) H1 Q1); discriminate). subst. congruence.
    + assert (i = j) by (apply (slot_uniq _ i j k SLive SPend (ti_k s T) H1 Q1); discriminate). subst. congruence.
  - intros [[i H1] N]. exists i. split; auto.
    destruct (ab s i) eqn:E; auto. exfalso. apply N. exists i. left. auto.
Qed.

Lemma inR_iff s k : TInv s -> (inR s k <-> inOld s k /\ ~ inV s k).
Proof.
  intros T. split.
  - intros [i [H1 H2]]. split; [exists i; right; auto|].
    intros [j Q]. assert (i = j) by (apply (slot_uniq _ i j k SPend SLive (ti_k s T) H1 Q); discriminate). subst. congruence.
  - intros [[i [[Q1 Q2]|[Q1 Q2]]] N].
    + exfalso. apply N. exists i. exact Q1.
    + exists i. auto.
Qed.

Lemma tss_value_in s k : In k (tss_value s) <-> inV s k.
Proof. exact (live_keys_in _ k). Qed.

Lemma tss_raw_added_in s k : TInv s -> (In k (tss_raw_added s) <-> inA s k).
Proof.
  intros T. apply (keys_where_state (t_ks s) (fun _ => true) (ab s) SLive); auto; [discriminate|].
  intros i A. pose proof (ti_bits s T i) as B. cbn in A. fold (st s i). destruct (s_st (st s i)); intuition congruence.
Qed.

Lemma tss_raw_removed_in s k : TInv s -> (In k (tss_raw_removed s) <-> inR s k).
Proof.
  intros T. apply (keys_where_state (t_ks s) (fun _ => true) (rb s) SPend); auto; [discriminate|].
  intros i A. pose proof (ti_bits s T i) as B. cbn in A. fold (st s i). destruct (s_st (st s i)); intuition congruence.
Qed.

Lemma t_prepare_same t s : TInv s -> (t <= t_dt s)%Z -> t_prepare t s = s.
Proof.
  intros T H. unfold t_prepare. destruct (Z.leb_spec t (t_dt s)); [|lia].
  apply t_ensure_id. apply (ti_la s T).
Qed.

Lemma t_prepare_roll t s :
  TInv s -> (t_dt s < t)%Z ->
  let s1 := t_prepare t s in
  TInv s1 /\ t_dt s1 = t /\ t_lmt s1 = t_lmt s /\
  (forall i, ab s1 i = false /\ rb s1 i = false) /\
  (forall i, st s1 i = if pend (st s i) then free_slot else st s i).
Proof.
  intros T H. unfold t_prepare. destruct (Z.leb_spec t (t_dt s)); [lia|].
  destruct (k_erase_pending_spec (t_ks s) (ti_k s T)) as [K1 [C1 S1]].
  rewrite t_ensure_id by (cbn [t_add t_ks]; rewrite clear_bits_length, C1; apply (ti_la s T)).
  cbn zeta. split; [|split; [reflexivity|split; [reflexivity|split]]].
  - constructor; cbn [t_ks t_add t_rem].
    + exact K1.
    + rewrite clear_bits_length, C1. apply (ti_la s T).
    + rewrite clear_bits_length, C1. apply (ti_lr s T).
    + intros i. unfold ab, rb. cbn [t_add t_rem]. rewrite !bit_clear.
      destruct (s_st _); auto.
  - intros i. unfold ab, rb. cbn [t_add t_rem]. rewrite !bit_clear. auto.
  - intros i. unfold st. cbn [t_ks]. apply S1.
Qed.

Definition updb (i : nat) (o : option bool) (l : list bool) : list bool :=
  match o with Some b => set_nth i b l | None => l end.
Definition valb (o : option bool) (old : bool) : bool := match o with Some b => b | None => old end.

Lemma updb_spec i o l j n : length l = n -> i < n ->
  length (updb i o l) = n /\ bit j (updb i o l) = if j =? i then valb o (bit i l) else bit j l.
Proof.
  intros Hl Hi. destruct o as [b|]; cbn [updb valb].
  - rewrite set_nth_length, bit_set_nth, Hl. apply Nat.ltb_lt in Hi. rewrite Hi, andb_true_r. auto.
  - split; auto. destruct (Nat.eqb_spec j i) as [->|]; reflexivity.
Qed.

Lemma t_ensure_view ks' s :
  TInv s -> ks_cap (t_ks s) <= ks_cap ks' ->
  let b := t_ensure (mkT ks' (t_add s) (t_rem s) (t_dt s) (t_lmt s)) in
  t_ks b = ks' /\ length (t_add b) = ks_cap ks' /\ length (t_rem b) = ks_cap ks' /\
  t_dt b = t_dt s /\ t_lmt b = t_lmt s /\ forall i, bit i (t_add b) = ab s i /\ bit i (t_rem b) = rb s i.
Proof.
  intros T L. unfold t_ensure. cbn [t_ks t_add t_rem t_dt t_lmt]. rewrite (ti_la s T).
  destruct (Nat.eqb_spec (ks_cap (t_ks s)) (ks_cap ks')) as [Q|Q]; cbn zeta; cbn [t_ks t_add t_rem t_dt t_lmt].
  - rewrite <- Q, (ti_la s T), (ti_lr s T). repeat split; auto.
  - rewrite !resize_length. repeat split; auto; apply bit_resize_grow; rewrite ?(ti_la s T), ?(ti_lr s T); exact L.
Qed.

Lemma tss_eta b : mkT (t_ks b) (t_add b) (t_rem b) (t_dt b) (t_lmt b) = b.
Proof. destruct b; reflexivity. Qed.

Definition when (c b : bool) : option bool := if c then Some b else None.

(* every branch of the storage operations ends in one of these *)
Definition t_put (i : nat) (ao ro : option bool) (b : tss) : tss :=
  mkT (t_ks b) (updb i ao (t_add b)) (updb i ro (t_rem b)) (t_dt b) (t_lmt b).

(* [s'] is [s] with the membership of [k] set to [v] *)
Definition mem_put (s s' : tss) (k : Z) (v : bool) : Prop :=
  TInv s' /\ t_dt s' = t_dt s /\ t_lmt s' = t_lmt s /\ (forall k', inOld s' k' <-> inOld s k') /\
  forall k', inV s' k' <-> if v then inV s k' \/ k' = k else inV s k' /\ k' <> k.

(* [key_home] read through [inV]; only the last clause of the [k_set] is used (the callers have it inside one) *)
Lemma k_set_was_member s i x k ks' : TInv s -> k_set (t_ks s) i x k ks' -> (inV s k <-> s_st (st s i) = SLive).
Proof.
  intros T [_ [_ [_ [_ PRE]]]]. pose proof (key_home _ i k (ti_k s T) PRE) as HOME. fold (st s i) in PRE. split.
  - intros [j Q]. rewrite <- (HOME j); fold (st s j); rewrite Q; reflexivity.
  - intros X. exists i. rewrite <- (slot_eta (st s i)), X. rewrite X in PRE. rewrite PRE. reflexivity.
Qed.

(* The one way the TSS storage changes.  The two hypotheses on the marks: the new ones suit the new state, and
   slot [i] counts as an old member after the change exactly when it did before. *)
Lemma t_update_slot s ks' i k x' ao ro :
  TInv s -> k_set (t_ks s) i x' k ks' -> x' <> SFree ->
  let a' := valb ao (ab s i) in let r' := valb ro (rb s i) in
  match x' with SLive => r' = false | _ => a' = false end ->
  ((x' = SLive /\ a' = false) \/ (x' = SPend /\ r' = true) <->
   (s_st (st s i) = SLive /\ ab s i = false) \/ (s_st (st s i) = SPend /\ rb s i = true)) ->
  mem_put s (t_put i ao ro (t_ensure (mkT ks' (t_add s) (t_rem s) (t_dt s) (t_lmt s)))) k (sstate_eqb x' SLive).
Proof.
  intros T [K' [CP [Li [SL PRE]]]] NF a' r' OK OLD. set (sf := t_put _ _ _ _). unfold t_put in sf.
  destruct (t_ensure_view ks' s T CP) as [E1 [E2 [E3 [E4 [E5 EB]]]]]. set (b := t_ensure _) in *.
  assert (ROW : forall j, st sf j = (if j =? i then mkSlot x' k else st s j) /\
                          ab sf j = (if j =? i then a' else ab s j) /\ rb sf j = (if j =? i then r' else rb s j)).
  { intros j. unfold st, ab, rb, sf. cbn [t_ks t_add t_rem]. rewrite E1, SL.
    rewrite (proj2 (updb_spec i ao _ j _ E2 Li)), (proj2 (updb_spec i ro _ j _ E3 Li)).
    destruct (EB j) as [B1 B2]. destruct (EB i) as [B3 B4]. rewrite B1, B2, B3, B4. auto. }
  fold (st s i) in PRE.
  assert (KI : forall y k', st s i = mkSlot y k' -> y <> SFree -> k' = k).
  { intros y k' Q Ny. rewrite Q in PRE. destruct y; auto. contradiction. }
  assert (T' : TInv sf).
  { constructor.
    - unfold sf. cbn [t_ks]. rewrite E1. exact K'.
    - unfold sf. cbn [t_ks t_add]. rewrite E1. apply (updb_spec i ao _ 0 _ E2 Li).
    - unfold sf. cbn [t_ks t_rem]. rewrite E1. apply (updb_spec i ro _ 0 _ E3 Li).
    - intros j. destruct (ROW j) as [R1 [R2 R3]]. rewrite R1, R2, R3.
      destruct (j =? i); [|apply (ti_bits s T)]. destruct x'; cbn; auto. contradiction. }
  split; [exact T'|]. split; [exact E4|]. split; [exact E5|]. split.
  - intros k'. split; intros [j Q]; exists j; destruct (ROW j) as [R1 [R2 R3]].
    + rewrite R1, R2, R3 in Q. destruct (Nat.eqb_spec j i) as [E|E]; [rewrite E|exact Q].
      assert (k' = k) by (destruct Q as [[Q _]|[Q _]]; congruence). subst k'.
      rewrite <- (slot_eta (st s i)).
      destruct (proj1 OLD) as [[X A]|[X A]]; [destruct Q as [[Q A]|[Q A]]; inversion Q; auto| |];
        rewrite X in *; cbn in PRE; rewrite PRE; auto.
    + rewrite R1, R2, R3. destruct (Nat.eqb_spec j i) as [E|E]; [rewrite E in Q|exact Q].
      assert (k' = k) by (destruct Q as [[Q _]|[Q _]]; apply (KI _ _ Q); discriminate). subst k'.
      destruct (proj2 OLD) as [[X A]|[X A]]; [destruct Q as [[Q A]|[Q A]]; rewrite Q; auto| |]; subst x'; auto.
  - assert (SI : st sf i = mkSlot x' k) by (destruct (ROW i) as [R1 _]; rewrite R1, Nat.eqb_refl; reflexivity).
    intros k'. destruct (Z.eq_dec k' k) as [->|Nk].
    + (* at [k]: slot [i] is its only slot *)
      assert (V : inV sf k <-> x' = SLive).
      { split; [|intros ->; exists i; exact SI].
        intros [j Q]. assert (j = i) by (apply (slot_uniq _ j i k SLive x' (ti_k sf T') Q SI); [discriminate|exact NF]).
        subst j. congruence. }
      destruct x'; cbn [sstate_eqb]; intuition congruence.
    + assert (V : inV sf k' <-> inV s k'); [|destruct (sstate_eqb x' SLive); tauto].
      split; intros [j Q]; exists j; destruct (ROW j) as [R1 _].
      * rewrite R1 in Q. destruct (Nat.eqb_spec j i); [congruence|exact Q].
      * rewrite R1. destruct (Nat.eqb_spec j i) as [E|E]; [rewrite E in Q|exact Q]. destruct Nk. apply (KI _ _ Q). discriminate.
Qed.

(* A re-inserted element that was removed in this cycle loses that mark, any other inserted element is marked added.
   (For remove_key this is the [E] inside [remove_key_abs]: as a lemma it would repeat the [match] around the put.) *)
Lemma t_insert_key_eq t k s :
  t_insert_key t k s =
    let s1 := t_prepare t s in
    let '(r, ks') := k_insert k (t_ks s1) in
    let b := t_ensure (mkT ks' (t_add s1) (t_rem s1) (t_dt s1) (t_lmt s1)) in
    let i := ir_slot r in
    (ir_inserted r, t_put i (when (ir_inserted r && negb (bit i (t_rem b))) true) (when (ir_inserted r && bit i (t_rem b)) false) b).
Proof.
  unfold t_insert_key. cbv zeta. destruct (k_insert k _) as [r ks'].
  destruct (ir_inserted r), (bit (ir_slot r) _); unfold t_put; cbn; rewrite ?tss_eta; reflexivity.
Qed.

Lemma insert_key_abs t k s ch s' :
  let s1 := t_prepare t s in
  TInv s1 -> t_insert_key t k s = (ch, s') -> mem_put s1 s' k true /\ (ch = true <-> ~ inV s1 k).
Proof.
  intros s1 T. rewrite t_insert_key_eq. fold s1. cbv zeta.
  destruct (k_insert k (t_ks s1)) as [r ks'] eqn:KI. intros [= <- <-].
  destruct (k_insert_spec k _ r ks' (ti_k s1 T) KI) as [KS PRE].
  set (i := ir_slot r) in *. fold (st s1 i) in PRE.
  destruct (t_ensure_view ks' s1 T (proj1 (proj2 KS))) as [_ [_ [_ [_ [_ EB]]]]]. rewrite (proj2 (EB i)). clear EB.
  pose proof (ti_bits s1 T i) as B. split.
  - (* whatever the slot was, it is now live and not removed, and counts as old iff it did *)
    refine (t_update_slot s1 ks' i k SLive _ _ T KS ltac:(discriminate) _ _);
      destruct (s_st (st s1 i)); destruct PRE as [-> _]; destruct (rb s1 i), (ab s1 i); cbn in *; intuition congruence.
  - rewrite (k_set_was_member s1 i SLive k ks' T KS). destruct (s_st (st s1 i)); destruct PRE as [-> _]; intuition congruence.
Qed.

Lemma remove_key_abs t k s ch s' :
  let s1 := t_prepare t s in
  TInv s1 -> t_remove_key t k s = (ch, s') -> mem_put s1 s' k false /\ (ch = true <-> inV s1 k).
Proof.
  intros s1 T H. unfold t_remove_key in H. fold s1 in H.
  destruct (find_live (t_ks s1) k) as [i|] eqn:F.
  2:{ inversion H; subst ch s'.
      assert (N : ~ inV s1 k) by (intros [j Q]; exact (find_live_none _ _ j (ti_k s1 T) F Q)).
      split; [|split; [discriminate|contradiction]]. split; [exact T|]. repeat (split; [reflexivity|]).
      intros k'. split; [intros Q; split; [exact Q|intros ->; exact (N Q)]|tauto]. }
  pose proof (find_live_some _ _ _ F) as LV.
  destruct (k_remove_slot_spec i _ k (ti_k s1 T) LV) as [ks' [KR KS]]. rewrite KR in H. cbn [negb] in H. fold (st s1 i) in LV.
  destruct (t_ensure_view ks' s1 T (proj1 (proj2 KS))) as [_ [_ [_ [_ [_ EB]]]]]. rewrite (proj1 (EB i)) in H. clear EB.
  (* an element added in this cycle loses that mark, any other is marked removed *)
  assert (E : (ch, s') = (true, t_put i (when (ab s1 i) false) (when (negb (ab s1 i)) true)
                                   (t_ensure (mkT ks' (t_add s1) (t_rem s1) (t_dt s1) (t_lmt s1)))))
    by (rewrite <- H; destruct (ab s1 i); reflexivity).
  injection E as -> ->.
  pose proof (ti_bits s1 T i) as B. rewrite LV in B. cbn in B. split.
  - refine (t_update_slot s1 ks' i k SPend _ _ T KS ltac:(discriminate) _ _); rewrite ?LV;
      destruct (ab s1 i); cbn; intuition congruence.
  - rewrite (k_set_was_member s1 i SPend k ks' T KS), LV. tauto.
Qed.

Local Open Scope Z_scope.

(* V0 = membership when the cycle started.  [Fresh]: no mutation of this cycle has reached the storage yet (the delta
   window is still the previous one).  [Mid]: the window was rolled to t.  [Rolled]: and the set has ticked at t.
   An operation of the view rolls the window, changes the storage and marks the set last: so the step lemmas go from
   [Fresh \/ Mid] to [Rolled], and between the operations of a cycle the state is [Fresh] or [Rolled] ([CInv]). *)
Definition Fresh (V0 : Z -> Prop) (t : Z) (s : tss) : Prop :=
  TInv s /\ t_dt s < t /\ t_lmt s < t /\ forall k, inV s k <-> V0 k.
Definition Mid (V0 : Z -> Prop) (t : Z) (s : tss) : Prop :=
  TInv s /\ t_dt s = t /\ t_lmt s <= t /\ forall k, inOld s k <-> V0 k.
Definition Rolled (V0 : Z -> Prop) (t : Z) (s : tss) : Prop := Mid V0 t s /\ t_lmt s = t.

Lemma prepare_step V0 t s :
  Fresh V0 t s \/ Mid V0 t s ->
  Mid V0 t (t_prepare t s) /\ (forall k, inV (t_prepare t s) k <-> inV s k).
Proof.
  intros [[T [D [M V]]]|[T [D [M O]]]].
  - destruct (t_prepare_roll t s T D) as [T1 [D1 [M1 [B1 S1]]]].
    assert (VV : forall k, inV (t_prepare t s) k <-> inV s k).
    { intros k. split; intros [i Q]; exists i.
      - rewrite S1 in Q. destruct (pend (st s i)); [discriminate|exact Q].
      - rewrite S1, Q. reflexivity. }
    split; [|exact VV].
    split; [exact T1|]. split; [exact D1|]. split; [lia|].
    intros k. rewrite <- V, <- VV. split.
    + intros [i [[Q1 Q2]|[Q1 Q2]]]; [exists i; exact Q1|]. destruct (B1 i). congruence.
    + intros [i Q]. exists i. left. split; auto. apply B1.
  - rewrite t_prepare_same by (auto; lia). split; [|tauto]. split; [exact T|]. split; [exact D|]. split; [exact M|exact O].
Qed.

Lemma view_mark t s i : st (t_mark t s) i = st s i /\ ab (t_mark t s) i = ab s i /\ rb (t_mark t s) i = rb s i.
Proof. unfold t_mark. destruct (t <=? t_lmt s); auto. Qed.

Lemma mark_step V0 t s : Mid V0 t s -> Rolled V0 t (t_mark t s) /\ (forall k, inV (t_mark t s) k <-> inV s k).
Proof.
  intros [T [D [M O]]].
  assert (E : t_mark t s = mkT (t_ks s) (t_add s) (t_rem s) (t_dt s) t).
  { unfold t_mark. destruct (Z.leb_spec t (t_lmt s)); auto. assert (t_lmt s = t) by lia. destruct s; simpl in *; congruence. }
  rewrite E. split; [|intros k; split; intros [i Q]; exists i; exact Q].
  split; [|reflexivity]. split.
  - destruct T as [T1 T2 T3 T4]. constructor; auto.
  - split; [exact D|]. split; [cbn; lia|]. intros k. rewrite <- O. split; intros [i Q]; exists i; exact Q.
Qed.

(* The stamp that ends [t_touch_mark] and [tss_clear]: [t_touch] tested the rolled state [s1], the state [s2] reached
   since is stamped unless that test said so. *)
Lemma stamp_step V0 t s1 s2 :
  Mid V0 t s2 -> (t_lmt s1 = t -> t_lmt s2 = t) ->
  let s' := if negb (t_lmt s1 =? t) then t_mark t s2 else s2 in
  Rolled V0 t s' /\ (forall k, inV s' k <-> inV s2 k).
Proof.
  intros M L. destruct (Z.eqb_spec (t_lmt s1) t) as [E|E]; cbn [negb]; [|apply mark_step, M].
  split; [split; auto|tauto].
Qed.

Lemma touch_mark_step V0 t s :
  Fresh V0 t s \/ Mid V0 t s ->
  Rolled V0 t (t_touch_mark t s) /\ (forall k, inV (t_touch_mark t s) k <-> inV s k).
Proof.
  intros H. destruct (prepare_step V0 t s H) as [M V]. unfold t_touch_mark, t_touch.
  destruct (stamp_step V0 t _ _ M (fun E => E)) as [R V2]. split; [exact R|]. intros k. rewrite V2. apply V.
Qed.

(* An operation of the view is a storage operation on the rolled state, then the stamp: [tss_add] ([v] true, on
   [t_insert_key]) and [tss_remove] ([v] false, on [t_remove_key]), with what the storage operation does as premise. *)
Lemma view_step V0 t k v s (c : bool) s1 :
  Fresh V0 t s \/ Mid V0 t s ->
  (let s0 := t_prepare t s in TInv s0 -> mem_put s0 s1 k v /\ (c = true <-> if v then ~ inV s0 k else inV s0 k)) ->
  let s' := if c then t_mark t s1 else t_touch_mark t s1 in
  Rolled V0 t s' /\ (forall k', inV s' k' <-> if v then inV s k' \/ k' = k else inV s k' /\ k' <> k) /\
  (c = true <-> if v then ~ inV s k else inV s k).
Proof.
  intros H ABS s'. destruct (prepare_step V0 t s H) as [M V]. destruct (ABS (proj1 M)) as [[T1 [D1 [L1 [O1 V1]]]] C].
  assert (M1 : Mid V0 t s1).
  { destruct M as [_ [D [L O]]]. split; [exact T1|]. split; [congruence|]. split; [lia|]. intros k'. rewrite O1. apply O. }
  assert (F : Rolled V0 t s' /\ forall k', inV s' k' <-> inV s1 k')
    by (unfold s'; destruct c; [apply mark_step|apply touch_mark_step; right]; exact M1).
  destruct F as [R VX].
  split; [exact R|]. split.
  - intros k'. rewrite VX, V1. destruct v; rewrite V; reflexivity.
  - rewrite C. destruct v; rewrite V; reflexivity.
Qed.

Lemma add_step V0 t k s ch s' :
  Fresh V0 t s \/ Mid V0 t s -> tss_add t k s = (ch, s') ->
  Rolled V0 t s' /\ (forall k', inV s' k' <-> inV s k' \/ k' = k) /\ (ch = true <-> ~ inV s k).
Proof.
  intros H A. unfold tss_add in A. destruct (t_insert_key t k s) as [c s1] eqn:IK. injection A as <- <-.
  apply (view_step V0 t k true s c s1 H). intros s0 T. exact (insert_key_abs t k s c s1 T IK).
Qed.

Lemma remove_step V0 t k s ch s' :
  Fresh V0 t s \/ Mid V0 t s -> tss_remove t k s = (ch, s') ->
  Rolled V0 t s' /\ (forall k', inV s' k' <-> inV s k' /\ k' <> k) /\ (ch = true <-> inV s k).
Proof.
  intros H A. unfold tss_remove in A. destruct (t_remove_key t k s) as [c s1] eqn:RK. injection A as <- <-.
  apply (view_step V0 t k false s c s1 H). intros s0 T. exact (remove_key_abs t k s c s1 T RK).
Qed.

Lemma fold_remove_step V0 t keys : forall s,
  Mid V0 t s ->
  let s' := fold_left (fun st k => snd (tss_remove t k st)) keys s in
  Mid V0 t s' /\ (t_lmt s = t -> t_lmt s' = t) /\ (forall k, inV s' k <-> inV s k /\ ~ In k keys).
Proof.
  induction keys as [|k r IH]; intros s M; cbn [fold_left].
  - split; [exact M|]. split; [auto|]. intros k. simpl. tauto.
  - destruct (tss_remove t k s) as [c s1] eqn:R. cbn [snd].
    destruct (remove_step V0 t k s c s1 (or_intror M) R) as [[M1 L1] [V1 _]].
    destruct (IH s1 M1) as [M2 [L2 V2]].
    split; [exact M2|]. split; [auto|].
    intros k'. rewrite V2, V1. simpl. split; [intros [[A B] C]; split; auto; intros [E|E]; auto|].
    intros [A B]. split; [split; auto|auto].
Qed.

Lemma clear_step V0 t s :
  Fresh V0 t s \/ Mid V0 t s ->
  Rolled V0 t (tss_clear t s) /\ (forall k, ~ inV (tss_clear t s) k).
Proof.
  intros H. destruct (prepare_step V0 t s H) as [M V]. unfold tss_clear, t_touch.
  destruct (fold_remove_step V0 t (live_keys (t_ks s)) (t_prepare t s) M) as [M2 [L2 V2]].
  destruct (stamp_step V0 t _ _ M2 L2) as [R VM]. split; [exact R|].
  intros k Q. apply VM, V2 in Q. destruct Q as [Q1 Q2]. apply Q2, (tss_value_in s k), V, Q1.
Qed.

Lemma reserve_view c s :
  TInv s ->
  TInv (tss_reserve c s) /\ t_dt (tss_reserve c s) = t_dt s /\ t_lmt (tss_reserve c s) = t_lmt s /\
  forall i, st (tss_reserve c s) i = st s i /\ ab (tss_reserve c s) i = ab s i /\ rb (tss_reserve c s) i = rb s i.
Proof.
  intros T. unfold tss_reserve.
  destruct (t_ensure_view (k_reserve c (t_ks s)) s T) as [E1 [E2 [E3 [E4 [E5 EB]]]]]; [rewrite k_reserve_cap; lia|].
  set (s2 := t_ensure _) in *.
  assert (V : forall i, st s2 i = st s i /\ ab s2 i = ab s i /\ rb s2 i = rb s i).
  { intros i. unfold st. rewrite E1, k_reserve_slot. split; [reflexivity|apply EB]. }
  split; [|auto].
  constructor.
  - rewrite E1. apply k_reserve_inv. exact (ti_k s T).
  - rewrite E1. exact E2.
  - rewrite E1. exact E3.
  - intros i. destruct (V i) as [V1 [V2 V3]]. rewrite V1, V2, V3. apply (ti_bits s T).
Qed.

Lemma view_transfer (s s' : tss) :
  (forall i, st s' i = st s i /\ ab s' i = ab s i /\ rb s' i = rb s i) ->
  (forall k, inV s' k <-> inV s k) /\ (forall k, inOld s' k <-> inOld s k).
Proof.
  intros V. split; intros k; split; intros [i Q]; exists i; destruct (V i) as [V1 [V2 V3]].
  - congruence.
  - congruence.
  - rewrite <- V1, <- V2, <- V3. exact Q.
  - rewrite V1, V2, V3. exact Q.
Qed.

Definition spec_op (o : sop) (P : Z -> Prop) (k : Z) : Prop :=
  match o with
  | SAdd k0 => P k \/ k = k0
  | SRemove k0 => P k /\ k <> k0
  | SClear => False
  | _ => P k
  end.

Definition CInv (V0 : Z -> Prop) (t : Z) (s : tss) : Prop := Fresh V0 t s \/ Rolled V0 t s.

Lemma op_step V0 t o s :
  CInv V0 t s ->
  CInv V0 t (snd (tss_op t o s)) /\ (forall k, inV (snd (tss_op t o s)) k <-> spec_op o (inV s) k).
Proof.
  intros C. assert (W : Fresh V0 t s \/ Mid V0 t s) by (destruct C as [F|[M _]]; auto).
  destruct o as [k|k| |c| |]; cbn [tss_op spec_op].
  - destruct (tss_add t k s) as [ch s'] eqn:A. cbn [snd].
    destruct (add_step V0 t k s ch s' W A) as [R [V _]]. split; [right; exact R|exact V].
  - destruct (tss_remove t k s) as [ch s'] eqn:A. cbn [snd].
    destruct (remove_step V0 t k s ch s' W A) as [R [V _]]. split; [right; exact R|exact V].
  - cbn [snd]. destruct (clear_step V0 t s W) as [R V]. split; [right; exact R|]. intros k. split; [apply V|tauto].
  - cbn [snd].
    assert (T : TInv s) by (destruct C as [[T _]|[[T _] _]]; exact T).
    destruct (reserve_view c s T) as [T' [D' [M' VW]]].
    destruct (view_transfer s _ VW) as [VV VO].
    split; [|exact VV].
    (* the invariant reads the state through its stamps and its two sets only *)
    unfold CInv, Rolled, Fresh, Mid in *. rewrite D', M'. setoid_rewrite VV. setoid_rewrite VO. tauto.
  - cbn [snd]. destruct (touch_mark_step V0 t s W) as [R V]. split; [right; exact R|exact V].
  - cbn [snd]. split; [exact C|tauto].
Qed.

Definition spec_cycle (ops : list sop) (P : Z -> Prop) : Z -> Prop :=
  fold_left (fun Q o => spec_op o Q) ops P.

Lemma spec_op_ext o P Q : (forall k, P k <-> Q k) -> forall k, spec_op o P k <-> spec_op o Q k.
Proof. intros H k. destruct o; cbn [spec_op]; rewrite ?H; tauto. Qed.

Lemma spec_cycle_ext ops : forall P Q, (forall k, P k <-> Q k) -> forall k, spec_cycle ops P k <-> spec_cycle ops Q k.
Proof.
  induction ops as [|o r IH]; intros P Q H k; cbn [spec_cycle fold_left]; [apply H|].
  apply IH. apply spec_op_ext. exact H.
Qed.

Lemma cycle_step V0 t ops : forall s,
  CInv V0 t s ->
  CInv V0 t (tss_cycle t ops s) /\ (forall k, inV (tss_cycle t ops s) k <-> spec_cycle ops (inV s) k).
Proof.
  induction ops as [|o r IH]; intros s C; cbn [tss_cycle fold_left spec_cycle].
  - split; [exact C|tauto].
  - destruct (op_step V0 t o s C) as [C1 V1].
    destruct (IH _ C1) as [C2 V2]. split; [exact C2|].
    intros k. unfold tss_cycle in V2. rewrite V2. apply spec_cycle_ext. exact V1.
Qed.

Lemma cinv_char V0 t s :
  t <> MIN_DT -> CInv V0 t s ->
  (forall k, In k (tss_added t s) <-> inV s k /\ ~ V0 k) /\
  (forall k, In k (tss_removed t s) <-> V0 k /\ ~ inV s k) /\
  (tss_modified t s = false -> forall k, inV s k <-> V0 k).
Proof.
  intros NZ [[T [D [M V]]]|[[T [D [M O]]] L]].
  - assert (F : tss_modified t s = false).
    { unfold tss_modified. destruct (Z.eqb_spec (t_lmt s) t); [lia|]. apply andb_false_r. }
    unfold tss_added, tss_removed. rewrite F. simpl.
    split; [|split; [|auto]]; intros k; rewrite V; tauto.
  - assert (F : tss_modified t s = true).
    { unfold tss_modified. rewrite L, Z.eqb_refl. destruct (Z.eqb_spec t MIN_DT); [contradiction|reflexivity]. }
    unfold tss_added, tss_removed. rewrite F.
    split; [|split; [|discriminate]]; intros k.
    + rewrite (tss_raw_added_in s k T), (inA_iff s k T), O. reflexivity.
    + rewrite (tss_raw_removed_in s k T), (inR_iff s k T), O. reflexivity.
Qed.

Lemma cinv_next V0 t s t' : CInv V0 t s -> t < t' -> Fresh (inV s) t' s.
Proof.
  intros [[T [D [M V]]]|[[T [D [M O]]] L]] H; (split; [exact T|]); (split; [lia|]); (split; [lia|tauto]).
Qed.

Fixpoint increasing (t0 : Z) (h : list (Z * list sop)) : Prop :=
  match h with
  | [] => True
  | (t, _) :: r => t0 < t /\ increasing t r
  end.

Fixpoint tss_trace (s : tss) (h : list (Z * list sop)) : list (tss * Z * list sop * tss) :=
  match h with
  | [] => []
  | (t, ops) :: r => let s' := tss_cycle t ops s in (s, t, ops, s') :: tss_trace s' r
  end.

Lemma trace_inv h : forall s t0 V0,
  CInv V0 t0 s -> MIN_DT <= t0 -> increasing t0 h ->
  forall a t ops b, In (a, t, ops, b) (tss_trace s h) ->
    MIN_DT < t /\ b = tss_cycle t ops a /\ Fresh (inV a) t a /\ CInv (inV a) t b.
Proof.
  induction h as [|[t1 ops1] r IH]; intros s t0 V0 C P I a t ops b H; simpl in H; [contradiction|].
  destruct I as [I1 I2].
  pose proof (cinv_next V0 t0 s t1 C I1) as F.
  destruct (cycle_step (inV s) t1 ops1 s (or_introl F)) as [C1 _].
  destruct H as [H|H].
  - inversion H; subst a t ops b. split; [lia|]. auto.
  - apply (IH (tss_cycle t1 ops1 s) t1 (inV s) C1 ltac:(lia) I2 a t ops b H).
Qed.

Lemma cinv_empty : CInv (fun _ => False) MIN_DT tss_empty.
Proof.
  right. split; [|reflexivity]. split; [apply tinv_empty|]. split; [reflexivity|]. split; [cbn; lia|].
  intros k. split; [|tauto]. intros [i [[Q _]|[Q _]]]; unfold st, slot_at in Q; simpl in Q; destruct i; discriminate.
Qed.
